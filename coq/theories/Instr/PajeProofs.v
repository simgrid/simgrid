(** C47.  "Well formed" is given a relational reading ([Step], [WF]) and the checker of Instr/Paje.v decides it
    ([paje_run_WF]).  The event buffer inserts stably, so it stays sorted, and what is dumped is in timestamp order as
    long as no event comes in older than one already written ([ops_ok], [dump_monotone]). *)
From Coq Require Import Sorting.Sorted Permutation.
From SGV Require Import Base.PlainLia Instr.Paje.
Local Open Scope Z_scope.

Definition TypeDeclared (s : st) (ty : Z) : Prop := ty = 0 \/ In ty (types s).
Definition Fresh (s : st) (id : Z) : Prop := ~ In id (types s).
Definition Alive (s : st) (c : Z) : Prop := In c (live s).           (* created and not destroyed since *)
Definition ValueOf (s : st) (v ty : Z) : Prop := In (v, ty) (vals s).
Definition InOrder (s : st) (t : Z) : Prop := last s <= t.

Inductive Step (s : st) : ev -> Prop :=
| S_DefType k id p : Fresh s id -> TypeDeclared s p -> Step s (DefType k id p)
| S_DefLink id p a b : Fresh s id -> TypeDeclared s p -> TypeDeclared s a -> TypeDeclared s b -> Step s (DefLink id p a b)
| S_DefValue id ty : Fresh s id -> TypeDeclared s ty -> Step s (DefValue id ty)
| S_Create t c ty p : InOrder s t -> ~ Alive s c -> TypeDeclared s ty -> (p = 0 \/ Alive s p) -> Step s (Create t c ty p)
| S_Destroy t ty c : InOrder s t -> TypeDeclared s ty -> Alive s c -> Step s (Destroy t ty c)
| S_Var t ty c : InOrder s t -> TypeDeclared s ty -> Alive s c -> Step s (VarEv t ty c)
| S_Set t ty c v : InOrder s t -> TypeDeclared s ty -> Alive s c -> ValueOf s v ty -> Step s (SetSt t ty c v)
| S_Push t ty c v : InOrder s t -> TypeDeclared s ty -> Alive s c -> ValueOf s v ty -> Step s (Push t ty c v)
| S_Pop t ty c : InOrder s t -> TypeDeclared s ty -> Alive s c -> (0 < depth_of c ty (depth s))%nat -> Step s (Pop t ty c)
| S_Reset t ty c : InOrder s t -> TypeDeclared s ty -> Alive s c -> Step s (Reset t ty c)
| S_Link t ty c e : InOrder s t -> TypeDeclared s ty -> Alive s c -> Alive s e -> Step s (LinkEv t ty c e)
| S_New t ty c v : InOrder s t -> TypeDeclared s ty -> Alive s c -> ValueOf s v ty -> Step s (NewEv t ty c v).

Inductive WF : st -> list ev -> Prop :=
| WF_nil s : WF s []
| WF_cons s e r : Step s e -> WF (next s e) r -> WF s (e :: r).
Definition WellFormed (tr : list ev) : Prop := WF init tr.

Lemma mem_In x l : mem x l = true <-> In x l.
Proof.
  unfold mem. rewrite existsb_exists. split.
  - intros [y [Hy E]]. apply Z.eqb_eq in E. subst. exact Hy.
  - intro H. exists x. split; [exact H|apply Z.eqb_refl].
Qed.
Lemma mem2_In x y l : mem2 x y l = true <-> In (x, y) l.
Proof.
  unfold mem2. rewrite existsb_exists. split.
  - intros [[a b] [Hy E]]. cbn in E. apply andb_true_iff in E. destruct E as [E1 E2].
    apply Z.eqb_eq in E1. apply Z.eqb_eq in E2. subst. exact Hy.
  - intro H. exists (x, y). split; [exact H|]. cbn. rewrite !Z.eqb_refl. reflexivity.
Qed.
Lemma code_0 (b : bool) (c : Z) (P : Prop) : c <> 0 -> (b = true <-> P) -> ((if b then 0 else c) = 0 <-> P).
Proof. destruct b; intuition congruence. Qed.
Lemma code_0_not (b : bool) (c : Z) (P : Prop) : c <> 0 -> (b = true <-> P) -> ((if b then c else 0) = 0 <-> ~ P).
Proof. destruct b; intuition congruence. Qed.

Lemma type_code_0 s ty : type_code s ty = 0 <-> TypeDeclared s ty.
Proof. apply code_0; [discriminate|]. unfold type_ok. rewrite orb_true_iff, Z.eqb_eq, mem_In. reflexivity. Qed.
Lemma cont_code_0 s c : cont_code s c = 0 <-> Alive s c.
Proof. apply code_0; [destruct (mem c (dead s)); discriminate|apply mem_In]. Qed.
Lemma time_code_0 s t : time_code s t = 0 <-> InOrder s t.
Proof. apply code_0; [discriminate|apply Z.leb_le]. Qed.
Lemma val_code_0 s v ty : val_code s v ty = 0 <-> ValueOf s v ty.
Proof. apply code_0; [discriminate|apply mem2_In]. Qed.
Lemma fresh_code_0 s id : (if mem id (types s) then 7 else 0) = 0 <-> Fresh s id.
Proof. apply code_0_not; [discriminate|apply mem_In]. Qed.
Lemma not_alive_code_0 s c : (if cont_ok s c then 7 else 0) = 0 <-> ~ Alive s c.
Proof. apply code_0_not; [discriminate|apply mem_In]. Qed.
Lemma parent_code_0 s p : (if p =? 0 then 0 else cont_code s p) = 0 <-> p = 0 \/ Alive s p.
Proof. destruct (Z.eqb_spec p 0) as [E|E]; [tauto|]. rewrite cont_code_0. tauto. Qed.
Lemma pop_code_0 (n : nat) : (if Nat.eqb n 0 then 6 else 0) = 0 <-> (0 < n)%nat.
Proof. destruct n; cbn; split; (discriminate || lia || reflexivity). Qed.
Lemma first_code_cons c r : first_code (c :: r) = 0 <-> c = 0 /\ first_code r = 0.
Proof.
  cbn [first_code fold_right]. destruct (c =? 0) eqn:E.
  - apply Z.eqb_eq in E. tauto.
  - apply Z.eqb_neq in E. split; [intro H; contradiction|tauto].
Qed.

Local Hint Resolve -> type_code_0 time_code_0 val_code_0 fresh_code_0 not_alive_code_0 parent_code_0 pop_code_0 cont_code_0 : paje.
Local Hint Resolve <- type_code_0 time_code_0 val_code_0 fresh_code_0 not_alive_code_0 parent_code_0 pop_code_0 cont_code_0 : paje.
Lemma check_step s e : check s e = 0 <-> Step s e.
Proof.
  destruct e; cbn [check]; rewrite ?first_code_cons;
    (split; [intro H; decompose [and] H; constructor; auto with paje|intro H; inv H; repeat split; auto with paje]).
Qed.

Theorem paje_run_WF : forall tr s, paje_run s tr = true <-> WF s tr.
Proof.
  induction tr as [|e r IH]; intro s; cbn [paje_run].
  - split; [intros _; constructor|reflexivity].
  - rewrite andb_true_iff, Z.eqb_eq, check_step, IH. split; [intros [A B]; constructor; assumption|intro H; inv H; tauto].
Qed.

Lemma complaints_nil_iff : forall tr s i, complaints s i tr = [] <-> paje_run s tr = true.
Proof.
  induction tr as [|e r IH]; intros s i; cbn [complaints paje_run]; [tauto|].
  destruct (check s e =? 0) eqn:E; cbn [andb app].
  - apply IH.
  - split; discriminate.
Qed.

Lemma last_next_ge s e : last s <= last (next s e).
Proof. destruct e; cbn; lia. Qed.
Lemma last_next_max s e t : stamp e = Some t -> last (next s e) = Z.max (last s) t.
Proof. destruct e; cbn; intro H; inv H; reflexivity. Qed.
Lemma step_in_order s e t : Step s e -> stamp e = Some t -> InOrder s t.
Proof. intro H. destruct H; cbn; intro E; inv E; assumption. Qed.
Lemma last_next_stamp s e t : stamp e = Some t -> Step s e -> last (next s e) = t.
Proof. intros Hs Hst. rewrite (last_next_max s e t Hs). apply Z.max_r, (step_in_order s e t Hst Hs). Qed.

Theorem wf_timestamps_sorted : forall tr s, WF s tr -> StronglySorted Z.le (stamps tr) /\ Forall (fun t => last s <= t) (stamps tr).
Proof.
  induction tr as [|e r IH]; intros s H; cbn [stamps]; [split; constructor|].
  inversion H as [|s' e' r' Hstep Hwf]; subst. destruct (IH _ Hwf) as [Hs Hf].
  assert (Hf' : Forall (fun t => last s <= t) (stamps r))
    by (eapply Forall_impl; [|exact Hf]; cbn; intros; pose proof (last_next_ge s e); lia).
  destruct (stamp e) as [t|] eqn:Est; [|split; assumption].
  rewrite (last_next_stamp s e t Est Hstep) in Hf. split; constructor; try assumption.
  exact (step_in_order s e t Hstep Est).
Qed.

Definition uses (e : ev) (c : Z) : Prop :=
  match e with
  | Destroy _ _ x | VarEv _ _ x | SetSt _ _ x _ | Push _ _ x _ | Pop _ _ x | Reset _ _ x | NewEv _ _ x _ => x = c
  | LinkEv _ _ x y => x = c \/ y = c
  | Create _ _ _ p => p = c /\ p <> 0
  | _ => False
  end.
Definition creates (e : ev) (c : Z) : Prop := match e with Create _ x _ _ => x = c | _ => False end.
Lemma creates_dec e c : creates e c \/ ~ creates e c.
Proof. destruct e; cbn; try (right; tauto). destruct (Z.eq_dec c0 c); [left|right]; assumption. Qed.

Lemma step_uses_alive s e c : Step s e -> uses e c -> Alive s c.
Proof.
  intros H U. destruct H as [| | |t c0 ty p Ho Hna Hty Hp| | | | | | |t ty c0 e0 Ho Hty Hc He|]; cbn in U; try contradiction; subst; try assumption.
  - destruct U as [-> Hn]. destruct Hp; [contradiction|assumption].
  - destruct U as [<-|<-]; assumption.
Qed.
Lemma not_alive_next s e c : ~ Alive s c -> ~ creates e c -> ~ Alive (next s e) c.
Proof.
  unfold Alive. intros Hn Hc. destruct e; cbn; try exact Hn.
  - intros [H|H]; [apply Hc; cbn; exact H|exact (Hn H)].
  - unfold remove_z. rewrite filter_In. intros [H _]. exact (Hn H).
Qed.

(* a container that is not alive (never created, or destroyed) is not used before a creation event for it *)
Theorem wf_no_use_unless_alive : forall tr s c pre e post,
  WF s tr -> ~ Alive s c -> tr = pre ++ e :: post -> uses e c -> exists x, In x pre /\ creates x c.
Proof.
  induction tr as [|a r IH]; intros s c pre e post H Hn Heq U.
  - destruct pre; discriminate.
  - inversion H as [|s' e' r' Hstep Hwf]; subst. destruct pre as [|b pre]; cbn in Heq; inversion Heq; subst.
    + exfalso. apply Hn. eapply step_uses_alive; eassumption.
    + destruct (creates_dec b c) as [Hc|Hc].
      * exists b. split; [left; reflexivity|exact Hc].
      * destruct (IH (next s b) c pre e post Hwf (not_alive_next s b c Hn Hc) eq_refl U) as [x [Hx Hcx]].
        exists x. split; [right; exact Hx|exact Hcx].
Qed.

Lemma destroy_not_alive s t ty c : ~ Alive (next s (Destroy t ty c)) c.
Proof. unfold Alive. cbn. unfold remove_z. rewrite filter_In. intros [_ H]. rewrite Z.eqb_refl in H. discriminate. Qed.

Section Buf.
Variable A : Type.
Notation bev := (Z * A)%type.
Definition sorted (l : list bev) : Prop := StronglySorted (fun x y => fst x <= fst y) l.

Lemma insert_r_spec (e : bev) : forall rl,
  exists l1 l2, rl = l1 ++ l2 /\ insert_r A e rl = l1 ++ e :: l2 /\ Forall (fun x => fst e < fst x) l1 /\
                match l2 with [] => True | x :: _ => fst x <= fst e end.
Proof.
  induction rl as [|e1 r IH]; cbn [insert_r].
  - exists [], []. repeat split; constructor.
  - destruct (fst e1 <=? fst e) eqn:E.
    + apply Z.leb_le in E. exists [], (e1 :: r). repeat split; [constructor|exact E].
    + apply Z.leb_gt in E. destruct IH as [l1 [l2 [H1 [H2 [H3 H4]]]]].
      exists (e1 :: l1), l2. subst r. rewrite H2. repeat split; [constructor; [lia|exact H3]|exact H4].
Qed.

(* stable insertion: the buffer is split in two, the new event goes after every event with a timestamp <= its own *)
Theorem insert_spec (e : bev) (buf : list bev) :
  exists l1 l2, buf = l1 ++ l2 /\ insert A e buf = l1 ++ e :: l2 /\ Forall (fun x => fst e < fst x) l2 /\
                match rev l1 with [] => True | x :: _ => fst x <= fst e end.
Proof.
  destruct (insert_r_spec e (rev buf)) as [r1 [r2 [H1 [H2 [H3 H4]]]]].
  exists (rev r2), (rev r1). unfold insert, Paje.bev in *. rewrite H2. repeat split.
  - rewrite <- rev_app_distr, <- H1, rev_involutive. reflexivity.
  - rewrite rev_app_distr. cbn [rev]. rewrite <- app_assoc. reflexivity.
  - apply Forall_rev. exact H3.
  - rewrite rev_involutive. exact H4.
Qed.

Lemma sorted_app l1 l2 : sorted (l1 ++ l2) <-> sorted l1 /\ sorted l2 /\ (forall x y, In x l1 -> In y l2 -> fst x <= fst y).
Proof.
  unfold sorted. induction l1 as [|a l1 IH]; cbn [app].
  - split; [intro H; repeat split; [constructor|exact H|intros x y []]|tauto].
  - split.
    + intro H. inv H. apply IH in H2. destruct H2 as [S1 [S2 Hc]]. rewrite Forall_app in H3. destruct H3 as [F1 F2].
      repeat split; [constructor; assumption|exact S2|].
      intros x y [<-|Hx] Hy; [rewrite Forall_forall in F2; apply F2, Hy|apply Hc; assumption].
    + intros [S1 [S2 Hc]]. inv S1. constructor.
      * apply IH. repeat split; [assumption|assumption|]. intros x y Hx Hy. apply Hc; [right; exact Hx|exact Hy].
      * rewrite Forall_app. split; [assumption|]. rewrite Forall_forall. intros y Hy. apply Hc; [left; reflexivity|exact Hy].
Qed.

Theorem insert_sorted (e : bev) (buf : list bev) : sorted buf -> sorted (insert A e buf).
Proof.
  intro Hs. destruct (insert_spec e buf) as [l1 [l2 [H1 [H2 [H3 H4]]]]]. rewrite H2. subst buf.
  apply sorted_app in Hs. destruct Hs as [S1 [S2 Hc]].
  assert (Hl1 : forall x, In x l1 -> fst x <= fst e).
  { intros x Hx. destruct (rev l1) as [|z rz] eqn:Er.
    - apply (f_equal (@rev _)) in Er. rewrite rev_involutive in Er. subst l1. inversion Hx.
    - apply (f_equal (@rev _)) in Er. rewrite rev_involutive in Er. cbn [rev] in Er. subst l1.
      apply in_app_or in Hx. destruct Hx as [Hx|[<-|[]]]; [|lia].
      apply sorted_app in S1. destruct S1 as [_ [_ Hc1]]. specialize (Hc1 x z Hx (or_introl eq_refl)). lia. }
  apply sorted_app. repeat split; [exact S1| |].
  - constructor; [exact S2|]. eapply Forall_impl; [|exact H3]. cbn. intros. lia.
  - intros x y Hx [<-|Hy]; [apply Hl1, Hx|apply Hc; assumption].
Qed.

Theorem insert_perm (e : bev) (buf : list bev) : Permutation (e :: buf) (insert A e buf).
Proof.
  destruct (insert_spec e buf) as [l1 [l2 [H1 [H2 _]]]]. rewrite H2. subst buf. apply Permutation_middle.
Qed.

Lemma dump_upto_spec lim : forall buf o k, dump_upto A lim buf = (o, k) ->
  buf = o ++ k /\ Forall (fun x => fst x <= lim) o.
Proof.
  induction buf as [|e r IH]; intros o k H; cbn [dump_upto] in H.
  - inv H. split; [reflexivity|constructor].
  - destruct (fst e >? lim) eqn:E.
    + inv H. split; [reflexivity|constructor].
    + destruct (dump_upto A lim r) as [o' k'] eqn:Ed. inv H. destruct (IH _ _ eq_refl) as [H1 H2]. subst r.
      split; [reflexivity|]. constructor; [|exact H2]. rewrite Z.gtb_ltb in E. apply Z.ltb_ge in E. exact E.
Qed.
Lemma dump_spec f lim buf o k : dump A f lim buf = (o, k) -> buf = o ++ k.
Proof.
  unfold dump. destruct f; intro H.
  - inv H. rewrite app_nil_r. reflexivity.
  - apply dump_upto_spec in H. tauto.
Qed.

(* hypothesis watched by the correspondence: no event is inserted with a timestamp smaller than one already written *)
Fixpoint ops_ok (buf file : list bev) (ops : list (bop A)) : Prop :=
  match ops with
  | [] => True
  | Ins _ e :: r => (forall x, In x file -> fst x <= fst e) /\ ops_ok (insert A e buf) file r
  | Dump _ f lim :: r => let '(o, k) := dump A f lim buf in ops_ok k (file ++ o) r
  end.

Theorem dump_monotone : forall ops buf file,
  sorted buf -> sorted file -> (forall x y, In x file -> In y buf -> fst x <= fst y) -> ops_ok buf file ops ->
  sorted (snd (brun A buf file ops)) /\ sorted (fst (brun A buf file ops)).
Proof.
  induction ops as [|op r IH]; intros buf file Sb Sf Hc Hok; cbn [brun].
  - cbn [fst snd]. split; assumption.
  - destruct op as [e|f lim]; cbn [ops_ok] in Hok.
    + destruct Hok as [He Hr]. apply IH; [apply insert_sorted; exact Sb|exact Sf| |exact Hr].
      intros x y Hx Hy. apply (Permutation_in _ (Permutation_sym (insert_perm e buf))) in Hy.
      destruct Hy as [<-|Hy]; [apply He, Hx|apply Hc; assumption].
    + destruct (dump A f lim buf) as [o k] eqn:Ed. pose proof (dump_spec _ _ _ _ _ Ed) as Hb. subst buf.
      apply sorted_app in Sb. destruct Sb as [So [Sk Hok']].
      apply IH; [exact Sk| | |exact Hok].
      * apply sorted_app. repeat split; [exact Sf|exact So|]. intros x y Hx Hy. apply Hc; [exact Hx|apply in_or_app; left; exact Hy].
      * intros x y Hx Hy. apply in_app_or in Hx. destruct Hx as [Hx|Hx]; [apply Hc; [exact Hx|apply in_or_app; right; exact Hy]|apply Hok'; assumption].
Qed.
End Buf.
