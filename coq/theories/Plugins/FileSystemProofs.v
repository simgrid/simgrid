(** C46 — proofs about the model of the file-system plugin (FileSystem.v).  That every admissible step keeps [Inv]
    is proved in FileSystemConcProofs.v, where one step is the uninterrupted run of its atomic segments. *)
From SGV Require Import Base.PlainLia Plugins.FileSystem.
Local Open Scope Z_scope.

Lemma W_pos : 0 < W. Proof. reflexivity. Qed.
Lemma W_val : W = 18446744073709551616. Proof. reflexivity. Qed.
Lemma wrap_range : forall x, 0 <= wrap x < W.
Proof. intro x. unfold wrap. apply Z.mod_pos_bound. apply W_pos. Qed.
Lemma wrap_small : forall x, 0 <= x < W -> wrap x = x.
Proof. intros x Hx. unfold wrap. apply Z.mod_small. exact Hx. Qed.
Lemma wrap_add_l : forall a b, wrap (wrap a + b) = wrap (a + b).
Proof. intros a b. unfold wrap. apply Zplus_mod_idemp_l. Qed.
Lemma wrap_sub_l : forall a b, wrap (wrap a - b) = wrap (a - b).
Proof. intros a b. unfold wrap. apply Zminus_mod_idemp_l. Qed.
Lemma to_off_range : forall x, - 2 ^ 63 <= to_off x < 2 ^ 63.
Proof.
  intro x. unfold to_off. pose proof (wrap_range x) as Hw. rewrite W_val in Hw.
  destruct (wrap x <? 2 ^ 63) eqn:E; rewrite ?W_val; lia.
Qed.
Lemma to_off_lt_W : forall x, to_off x < W.
Proof. intro x. pose proof (to_off_range x). rewrite W_val. lia. Qed.

Definition nodup (c : list (Z * Z)) : Prop := NoDup (map fst c).
Definition ranged (c : list (Z * Z)) : Prop := Forall (fun e => 0 <= snd e < W) c.

Lemma lookup_None_notin : forall p c, lookup p c = None <-> ~ In p (map fst c).
Proof.
  intros p c. induction c as [|[q s] r IH]; cbn [lookup map fst In].
  - tauto.
  - destruct (q =? p) eqn:E.
    + split; [discriminate|]. intro H. exfalso. apply H. left. lia.
    + rewrite IH. split; intro H.
      * intros [H1|H1]; [lia|tauto].
      * intro H1. apply H. right. exact H1.
Qed.
Lemma lookup_Some_in : forall p c s, lookup p c = Some s -> In (p, s) c.
Proof.
  intros p c s. induction c as [|[q t] r IH]; cbn [lookup In]; [discriminate|].
  destruct (q =? p) eqn:E; intro H.
  - inv H. left. f_equal. lia.
  - right. apply IH. exact H.
Qed.
Lemma erase_keys : forall p q c, In q (map fst (erase p c)) -> In q (map fst c) /\ q <> p.
Proof.
  intros p q c. induction c as [|[k s] r IH]; cbn [erase map fst In]; [tauto|].
  destruct (k =? p) eqn:E.
  - intro H. apply IH in H. tauto.
  - cbn [map fst In]. intros [H|H]; [split; [left; exact H|lia]|]. apply IH in H. tauto.
Qed.
Lemma erase_notin : forall p c, ~ In p (map fst c) -> erase p c = c.
Proof.
  intros p c. induction c as [|[k s] r IH]; cbn [erase map fst In]; [reflexivity|].
  intro H. destruct (k =? p) eqn:E; [exfalso; apply H; left; lia|].
  f_equal. apply IH. tauto.
Qed.
Lemma lookup_erase_same : forall p c, lookup p (erase p c) = None.
Proof.
  intros p c. apply lookup_None_notin. intro H. apply erase_keys in H. lia.
Qed.
Lemma lookup_erase_other : forall p q c, q <> p -> lookup q (erase p c) = lookup q c.
Proof.
  intros p q c Hne. induction c as [|[k s] r IH]; cbn [erase lookup]; [reflexivity|].
  destruct (k =? p) eqn:E.
  - rewrite IH. destruct (k =? q) eqn:E2; [lia|reflexivity].
  - cbn [lookup]. rewrite IH. reflexivity.
Qed.
Lemma nodup_erase : forall p c, nodup c -> nodup (erase p c).
Proof.
  intros p c. unfold nodup. induction c as [|[k s] r IH]; cbn [erase map fst]; intro H; [constructor|].
  inv H. destruct (k =? p) eqn:E; [apply IH; assumption|].
  cbn [map fst]. constructor; [|apply IH; assumption].
  intro Hin. apply erase_keys in Hin. tauto.
Qed.
Lemma ranged_erase : forall p c, ranged c -> ranged (erase p c).
Proof.
  intros p c. unfold ranged. induction c as [|[k s] r IH]; cbn [erase]; intro H; [constructor|].
  inv H. destruct (k =? p); [apply IH; assumption|]. constructor; [assumption|apply IH; assumption].
Qed.
Lemma total_erase : forall p c, nodup c ->
  total (erase p c) = total c - match lookup p c with Some s => s | None => 0 end.
Proof.
  intros p c. unfold nodup. induction c as [|[k s] r IH]; cbn [erase total lookup map fst]; intro H; [reflexivity|].
  inv H. destruct (k =? p) eqn:E.
  - assert (k = p) by lia. subst k. rewrite erase_notin by assumption. lia.
  - cbn [total]. rewrite IH by assumption. lia.
Qed.
Lemma insert_fresh : forall p s c, lookup p c = None -> insert p s c = (p, s) :: c.
Proof. intros p s c H. unfold insert. rewrite H. reflexivity. Qed.
Lemma nodup_cons : forall p s c, lookup p c = None -> nodup c -> nodup ((p, s) :: c).
Proof.
  intros p s c H Hn. unfold nodup. cbn [map fst]. constructor; [|exact Hn]. apply lookup_None_notin. exact H.
Qed.
Lemma ranged_lookup : forall p c s, ranged c -> lookup p c = Some s -> 0 <= s < W.
Proof.
  intros p c s Hr Hl. apply lookup_Some_in in Hl. unfold ranged in Hr. rewrite Forall_forall in Hr.
  apply Hr in Hl. exact Hl.
Qed.

(* replace the entry of [p] (erase + insert, as update_position does) *)
Lemma replace_entry : forall p v c, nodup c -> ranged c -> 0 <= v < W ->
  let c' := insert p v (erase p c) in
  nodup c' /\ ranged c' /\ lookup p c' = Some v
  /\ total c' = total c - match lookup p c with Some s => s | None => 0 end + v
  /\ (forall q, q <> p -> lookup q c' = lookup q c).
Proof.
  intros p v c Hn Hr Hv. cbn zeta. rewrite insert_fresh by apply lookup_erase_same.
  repeat split.
  - apply nodup_cons; [apply lookup_erase_same|apply nodup_erase; exact Hn].
  - constructor; [exact Hv|apply ranged_erase; exact Hr].
  - cbn [lookup]. rewrite Z.eqb_refl. reflexivity.
  - cbn [total]. rewrite total_erase by exact Hn. lia.
  - intros q Hq. cbn [lookup]. destruct (p =? q) eqn:E; [lia|]. apply lookup_erase_other. exact Hq.
Qed.

Definition hok (h : handle) : Prop := 0 <= hpos h <= hsize h /\ hsize h < W.
Definition hsok (l : list (Z * handle)) : Prop := Forall (fun sh => hok (snd sh)) l.

Lemma hsok_hdel : forall s l, hsok l -> hsok (hdel s l).
Proof.
  intros s l. unfold hsok. induction l as [|[t h] r IH]; cbn [hdel]; intro H; [constructor|].
  inv H. destruct (t =? s); [apply IH; assumption|]. constructor; [assumption|apply IH; assumption].
Qed.
Lemma hsok_hset : forall s h l, hok h -> hsok l -> hsok (hset s h l).
Proof. intros s h l Hh Hl. unfold hset. constructor; [exact Hh|apply hsok_hdel; exact Hl]. Qed.
Lemma hsok_hget : forall s h l, hsok l -> hget s l = Some h -> hok h.
Proof.
  intros s h l. unfold hsok. induction l as [|[t k] r IH]; cbn [hget]; intros H Hg; [discriminate|].
  inv H. destruct (t =? s); [inv Hg; assumption|]. apply IH; assumption.
Qed.
Lemma hget_hset_same : forall s h l, hget s (hset s h l) = Some h.
Proof. intros s h l. unfold hset. cbn [hget]. rewrite Z.eqb_refl. reflexivity. Qed.
Lemma hget_hdel_same : forall s l, hget s (hdel s l) = None.
Proof.
  intros s l. induction l as [|[t k] r IH]; cbn [hdel hget]; [reflexivity|].
  destruct (t =? s) eqn:E; [exact IH|]. cbn [hget]. rewrite E. exact IH.
Qed.
Lemma hget_hdel_other : forall s t l, t <> s -> hget t (hdel s l) = hget t l.
Proof.
  intros s t l Hne. induction l as [|[u k] r IH]; cbn [hdel hget]; [reflexivity|].
  destruct (u =? s) eqn:E.
  - rewrite IH. destruct (u =? t) eqn:E2; [lia|reflexivity].
  - cbn [hget]. rewrite IH. reflexivity.
Qed.
Lemma hget_hset_other : forall s t h l, t <> s -> hget t (hset s h l) = hget t l.
Proof.
  intros s t h l Hne. unfold hset. cbn [hget]. destruct (s =? t) eqn:E; [lia|]. apply hget_hdel_other. exact Hne.
Qed.

Definition Inv (s : st) : Prop :=
  used s = wrap (total (content s)) /\ nodup (content s) /\ ranged (content s) /\ hsok (hs s).

Definition synced (s : st) (h : handle) : Prop := lookup (hpath h) (content s) = Some (hsize h).
Lemma in_sync_synced : forall s h, in_sync s h = true <-> synced s h.
Proof.
  intros s h. unfold in_sync, synced. destruct (lookup (hpath h) (content s)) as [sz|].
  - split; intro H; [f_equal; lia|inv H; lia].
  - split; discriminate.
Qed.

Lemma init_inv : forall c capacity, nodup c -> ranged c -> Inv (init c capacity).
Proof. intros c k Hn Hr. unfold Inv, init. cbn. repeat split; try assumption. constructor. Qed.

Lemma do_read_spec : forall s slot h n, hok h -> 0 <= n ->
  exists r, 0 <= r <= hsize h - hpos h /\ r <= n
    /\ do_read s slot h n = (if hsize h =? 0 then s
                             else mkSt (content s) (used s) (cap s) (hset slot (mkH (hpath h) (hsize h) (hpos h + r)) (hs s)), r).
Proof.
  intros s slot h n (Hp & Hs) Hn. unfold do_read. destruct (hsize h =? 0); [exists 0; split; [lia|split; [lia|reflexivity]]|].
  exists (Z.min n (hsize h - hpos h)). rewrite (wrap_small (hsize h - hpos h)), wrap_small by lia. split; [lia|split; [lia|reflexivity]].
Qed.

Lemma Inv_used : forall s, Inv s ->
  used s = wrap (total (content s)) /\ (total (content s) < W -> used s = total (content s)).
Proof.
  intros s (Hu & _ & Hrg & _). split; [exact Hu|]. intro Hlt. rewrite Hu. apply wrap_small. split; [|exact Hlt].
  clear - Hrg. induction (content s) as [|[p v] r IH]; cbn [total]; [lia|].
  inv Hrg. cbn [snd] in H1. specialize (IH H2). lia.
Qed.

(** a read never returns more than the bytes between the position and the end of the file *)
Theorem read_bound : forall s slot n h s' r,
  Inv s -> hget slot (hs s) = Some h -> step true s (Read slot n) = Some (s', r) ->
  0 <= r <= hsize h - hpos h /\ r <= wrap n
  /\ hget slot (hs s') = Some (mkH (hpath h) (hsize h) (hpos h + r))
  /\ content s' = content s /\ used s' = used s
  /\ (in_sync s h = true -> r <= fsize (hpath h) (content s) - hpos h).
Proof.
  intros s slot n h s' r (Hu & Hn & Hr & Hh) Eg Hst.
  cbn [step slot_of] in Hst. rewrite Eg in Hst. pose proof (hsok_hget _ _ _ Hh Eg) as Hok.
  destruct (do_read_spec s slot h (wrap n) Hok (proj1 (wrap_range n))) as (r0 & H1 & H2 & E). rewrite E in Hst. inv Hst.
  split; [exact H1|]. split; [exact H2|]. split; [|split; [|split]].
  - destruct (hsize h =? 0) eqn:E0; [|apply hget_hset_same]. rewrite Eg. destruct Hok as (Hp & _).
    destruct h as [hp0 hs0 hq0]; cbn [hpath hsize hpos] in *. do 2 f_equal. lia.
  - destruct (hsize h =? 0); reflexivity.
  - destruct (hsize h =? 0); reflexivity.
  - intro Hi. apply in_sync_synced in Hi. unfold fsize. rewrite Hi. apply H1.
Qed.

(** unlinking a file gives back exactly its size *)
Theorem unlink_returns_size : forall s slot h s' r,
  Inv s -> hget slot (hs s) = Some h -> in_sync s h = true -> step true s (Unlink slot) = Some (s', r) ->
  r = 0 /\ lookup (hpath h) (content s') = None
  /\ fsize (hpath h) (content s) = hsize h
  /\ total (content s') = total (content s) - fsize (hpath h) (content s)
  /\ used s' = wrap (used s - fsize (hpath h) (content s))
  /\ (forall q, q <> hpath h -> lookup q (content s') = lookup q (content s)).
Proof.
  intros s slot h s' r (Hu & Hn & Hr & Hh) Eg Hsy Hst.
  apply in_sync_synced in Hsy. unfold synced in Hsy.
  cbn [step slot_of] in Hst. rewrite Eg in Hst. inv Hst. unfold do_unlink in H0. rewrite Hsy in H0. inv H0.
  cbn [content used]. unfold fsize. rewrite Hsy. repeat split.
  - apply lookup_erase_same.
  - rewrite total_erase by exact Hn. rewrite Hsy. reflexivity.
  - intros q Hq. apply lookup_erase_other. exact Hq.
Qed.

(* the oracle is exactly the specification of one observed step *)
Definition StepSpec (r : list Z) : Prop :=
  exists code n res sb pb fb ub tb sa pa ua ta, r = [code; n; res; sb; pb; fb; ub; tb; sa; pa; ua; ta]
  /\ ua = wrap ta
  /\ (code = 2 -> res <> -2 -> 0 <= res <= n /\ res <= fb - pb /\ pa = pb + res)
  /\ (code = 5 -> res = 0 -> ta = tb - fb /\ ua = wrap (ub - fb)).
Theorem step_ok_spec : forall r, step_ok r = true <-> StepSpec r.
Proof.
  intro r. split.
  - intro H. unfold step_ok in H.
    do 12 (destruct r as [|? r]; [discriminate|]). destruct r; [|discriminate].
    do 12 eexists. split; [reflexivity|].
    apply andb_true_iff in H. destruct H as [H H3]. apply andb_true_iff in H. destruct H as [H1 H2].
    split; [lia|]. split.
    + intros Hc Hr. destruct ((z =? 2) && negb (z1 =? -2)) eqn:E; [lia|]. lia.
    + intros Hc Hr. destruct ((z =? 5) && (z1 =? 0)) eqn:E; [lia|]. lia.
  - intros (code & n & res & sb & pb & fb & ub & tb & sa & pa & ua & ta & -> & H1 & H2 & H3).
    cbn [step_ok]. apply andb_true_iff. split; [apply andb_true_iff; split|].
    + lia.
    + destruct ((code =? 2) && negb (res =? -2)) eqn:E; [|reflexivity]. lia.
    + destruct ((code =? 5) && (res =? 0)) eqn:E; [|reflexivity]. lia.
Qed.

(** * the statement failed on the pinned code inside the discipline (the witnesses outside it are in Properties_C46) *)
Definition viol (s : st) : bool := negb (used s =? wrap (total (content s))).

(* pinned File::write: file of 100 bytes, seek to 0, write 10 (overwrite) -> used 0, file still 100 *)
Lemma pinned_write_refuted :
  exists c capacity ops s', nodup c /\ ranged c /\ all_admissible false (init c capacity) ops = true
    /\ run false (init c capacity) ops = Some s' /\ viol s' = true.
Proof.
  exists [(0, 100)], 1000000, [Open 0 0; Seek 0 0 0; Write 0 10 false].
  eexists. split; [repeat constructor; intros []|]. split; [repeat constructor; cbn; rewrite ?W_val; lia|].
  split; [vm_compute; reflexivity|]. split; [vm_compute; reflexivity|vm_compute; reflexivity].
Qed.
(* the same history on the repaired code *)
Lemma fixed_write_example :
  exists s', run true (init [(0, 100)] 1000000) [Open 0 0; Seek 0 0 0; Write 0 10 false] = Some s'
    /\ used s' = 10 /\ content s' = [(0, 10)].
Proof. eexists. split; [vm_compute; reflexivity|]. split; reflexivity. Qed.
