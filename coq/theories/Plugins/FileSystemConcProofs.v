(** C46, several actors.  An operation is a first segment ([decide]) followed by the updates it still owes ([pend]),
    and segments of different actors interleave.  [MInv] says that the used size is the total of the files minus what
    the operations in flight owe; every admissible event keeps it.  The single-actor [step] is the run of one operation
    that nobody interrupts ([solo_refines_step]), so its invariant [Inv] is obtained from [MInv] and not proved twice. *)
From SGV Require Import Base.PlainLia Plugins.FileSystem Plugins.FileSystemProofs Plugins.FileSystemConc.
Local Open Scope Z_scope.

Lemma flush_app : forall l1 l2 s p, flush s p (l1 ++ l2) = flush (flush s p l1) p l2.
Proof. induction l1 as [|x l1 IH]; intros l2 s p; cbn [flush app]; [reflexivity|apply IH]. Qed.

Lemma up_atoms_refines : forall s slot h position,
  update_position s slot h position =
  match up_atoms h position with
  | Some (h2, l) => Some (flush (set_h s slot h2) (hpath h) l)
  | None => None
  end.
Proof.
  intros s slot h position. unfold update_position, up_atoms. destruct (position <? 0); [reflexivity|].
  destruct (hsize h <? position); reflexivity.
Qed.

Theorem decide_refines_step : forall s o,
  step true s o = match decide s o with
                  | Some (s', r, l) => Some (flush s' (op_path s o) l, r)
                  | None => None
                  end.
Proof.
  intros s o. unfold op_path.
  destruct o as [slot path|slot n inside|slot n|slot off origin|slot path|slot|slot]; cbn [step decide slot_of];
    destruct (hget slot (hs s)) as [h|] eqn:Eg; try reflexivity.
  - unfold do_write, dec_write. destruct (wrap n =? 0); [reflexivity|]. destruct (cap s <=? used s); [reflexivity|].
    destruct (negb inside && (hpos h <? hsize h)).
    + rewrite up_atoms_refines. cbn [hpath].
      destruct (up_atoms (mkH (hpath h) (hpos h) (hpos h)) (to_off (hpos h + wrap n))) as [[h2 post]|]; [|reflexivity].
      rewrite flush_app. reflexivity.
    + rewrite up_atoms_refines. destruct (up_atoms h (to_off (hpos h + wrap n))) as [[h2 post]|]; reflexivity.
  - destruct (do_read s slot h (wrap n)) as [s' r]. reflexivity.
  - unfold do_seek, dec_seek.
    destruct (origin =? 0); [rewrite up_atoms_refines; destruct (up_atoms h (to_off off)) as [[h2 l]|]; reflexivity|].
    destruct (origin =? 1);
      [rewrite up_atoms_refines; destruct (up_atoms h (to_off (hpos h + to_off off))) as [[h2 l]|]; reflexivity|].
    destruct (origin =? 2);
      [rewrite up_atoms_refines; destruct (up_atoms h (to_off (hsize h + to_off off))) as [[h2 l]|]; reflexivity|].
    reflexivity.
  - unfold do_unlink, dec_unlink. destruct (lookup (hpath h) (content s)); reflexivity.
Qed.

Lemma up_atoms_len : forall h position,
  match up_atoms h position with Some (_, l) => (length l <= 2)%nat | None => True end.
Proof. intros h position. unfold up_atoms. destruct (position <? 0); [exact I|]. destruct (hsize h <? position); cbn; lia. Qed.

Lemma decide_len : forall s o, match decide s o with Some (_, _, l) => (length l <= 4)%nat | None => True end.
Proof.
  intros s o.
  destruct o as [slot path|slot n inside|slot n|slot off origin|slot path|slot|slot]; cbn [decide slot_of];
    destruct (hget slot (hs s)) as [h|]; try (cbn; lia).
  - unfold dec_write. destruct (wrap n =? 0); [cbn; lia|]. destruct (cap s <=? used s); [cbn; lia|].
    destruct (negb inside && (hpos h <? hsize h)).
    + pose proof (up_atoms_len (mkH (hpath h) (hpos h) (hpos h)) (to_off (hpos h + wrap n))) as Hu.
      destruct (up_atoms _ _) as [[h2 post]|]; [cbn [app length]; lia|exact I].
    + pose proof (up_atoms_len h (to_off (hpos h + wrap n))) as Hu.
      destruct (up_atoms _ _) as [[h2 post]|]; [cbn [app length]; lia|exact I].
  - destruct (do_read s slot h (wrap n)) as [s1 r1]. cbn; lia.
  - assert (Hgo : forall p, match (match up_atoms h p with Some (h2, l) => Some (set_h s slot h2, 0, l) | None => None end)
                            with Some (_, _, l) => (length l <= 4)%nat | None => True end).
    { intro p. pose proof (up_atoms_len h p) as Hu. destruct (up_atoms h p) as [[h2 l]|]; [lia|exact I]. }
    unfold dec_seek. destruct (origin =? 0); [apply Hgo|]. destruct (origin =? 1); [apply Hgo|].
    destruct (origin =? 2); [apply Hgo|cbn; lia].
  - unfold dec_unlink. destruct (lookup (hpath h) (content s)); cbn; lia.
Qed.

(** an actor that is alone on the disk: first segment + its updates = one step of the single-actor model *)
Theorem solo_refines_step : forall s a o,
  mrun (mkM s []) (solo a o) = match step true s o with Some (s', _) => Some (mkM s' []) | None => None end.
Proof.
  intros s a o. rewrite decide_refines_step. unfold solo. cbn [mrun mstep busy pend ms].
  destruct (decide s o) as [[[s' r] l]|] eqn:Ed; [|reflexivity].
  pose proof (decide_len s o) as Hl. rewrite Ed in Hl.
  destruct l as [|x1 [|x2 [|x3 [|x4 [|x5 l]]]]]; cbn [length] in Hl; try lia;
    repeat (cbn [mrun mstep busy ptick pend ms orb flush]; rewrite ?Z.eqb_refl); reflexivity.
Qed.

Definition aok (x : atom) : Prop := match x with ASet v => 0 <= v < W | _ => True end.
Definition eok (e : Z * Z * list atom) : Prop := snd e <> [] /\ Forall aok (snd e).

(* used size = total of the files - what the operations in flight still owe; the Files in flight are distinct *)
Definition MInv (M : mst) : Prop :=
  nodup (content (ms M)) /\ ranged (content (ms M)) /\ hsok (hs (ms M))
  /\ used (ms M) = wrap (total (content (ms M)) - psum (content (ms M)) (pend M))
  /\ NoDup (paths_of (pend M)) /\ Forall eok (pend M).

Lemma cur_frame : forall q c c', lookup q c' = lookup q c -> cur q c' = cur q c.
Proof. intros q c c' H. unfold cur. rewrite H. reflexivity. Qed.

Lemma psum_frame : forall pd c c',
  (forall q, In q (paths_of pd) -> lookup q c' = lookup q c) -> psum c' pd = psum c pd.
Proof.
  induction pd as [|[[b p] l] r IH]; intros c c' H; cbn [psum]; [reflexivity|].
  rewrite (cur_frame p c c') by (apply H; left; reflexivity).
  rewrite (IH c c') by (intros q Hq; apply H; right; exact Hq). reflexivity.
Qed.

Lemma do_atom_spec : forall s p x l,
  nodup (content s) -> ranged (content s) -> aok x ->
  nodup (content (do_atom s p x)) /\ ranged (content (do_atom s p x))
  /\ hs (do_atom s p x) = hs s
  /\ (forall q, q <> p -> lookup q (content (do_atom s p x)) = lookup q (content s))
  /\ exists d, (forall T, used s = wrap T -> used (do_atom s p x) = wrap (T + d))
       /\ total (content (do_atom s p x)) - pot (cur p (content (do_atom s p x))) l
          = total (content s) - pot (cur p (content s)) (x :: l) + d.
Proof.
  intros s p x l Hn Hr Hx. destruct x as [x|x|v|]; cbn [do_atom content used hs pot].
  - repeat split; try assumption; try reflexivity. exists x. split; [|lia].
    intros T HT. rewrite HT. apply wrap_add_l.
  - repeat split; try assumption; try reflexivity. exists (- x). split; [|lia].
    intros T HT. rewrite HT. rewrite wrap_sub_l. f_equal; try lia.
  - cbn [aok] in Hx.
    destruct (replace_entry p v (content s) Hn Hr Hx) as (Hn' & Hr' & Hl' & Ht' & Ho').
    repeat split; try assumption; try reflexivity. exists 0. split.
    + intros T HT. rewrite Z.add_0_r. exact HT.
    + unfold cur at 1. rewrite Hl'. rewrite Ht'. unfold cur. lia.
  - repeat split; try reflexivity.
    + apply nodup_erase; exact Hn.
    + apply ranged_erase; exact Hr.
    + intros q Hq. apply lookup_erase_other. exact Hq.
    + exists 0. split.
      * intros T HT. rewrite Z.add_0_r. exact HT.
      * unfold cur at 1. rewrite lookup_erase_same. rewrite total_erase by exact Hn. unfold cur. lia.
Qed.

Lemma ptick_spec : forall a pd s s' pd',
  ptick a s pd = (s', pd') -> nodup (content s) -> ranged (content s) -> NoDup (paths_of pd) -> Forall eok pd ->
  nodup (content s') /\ ranged (content s') /\ hs s' = hs s
  /\ Forall eok pd' /\ NoDup (paths_of pd')
  /\ (forall q, In q (paths_of pd') -> In q (paths_of pd))
  /\ (forall q, ~ In q (paths_of pd) -> lookup q (content s') = lookup q (content s))
  /\ exists d, (forall T, used s = wrap T -> used s' = wrap (T + d))
       /\ total (content s') - psum (content s') pd' = total (content s) - psum (content s) pd + d.
Proof.
  intros a. induction pd as [|[[b p] l] r IH]; intros s s' pd' Hpt Hn Hr Hnd Hok; cbn [ptick] in Hpt.
  - inv Hpt. repeat split; try assumption; try reflexivity; try (constructor; fail); try (intros q Hq; exact Hq).
    exists 0. split; [|cbn [psum]; lia].
    intros T HT. rewrite Z.add_0_r. exact HT.
  - cbn [paths_of map fst snd] in Hnd. inv Hnd. inv Hok. rename H1 into Hpr, H2 into Hndr, H3 into He, H4 into Hokr.
    fold (paths_of r) in Hpr, Hndr.
    destruct (b =? a) eqn:Eb.
    + destruct He as [Hne Hal]. cbn [snd] in Hne, Hal.
      destruct l as [|x l']; [congruence|]. inv Hal. rename H1 into Hx, H2 into Hal'.
      assert (Hfr : forall s1, (forall q, q <> p -> lookup q (content s1) = lookup q (content s)) ->
                    psum (content s1) r = psum (content s) r).
      { intros s1 H1. apply psum_frame. intros q Hq. apply H1. intro E. subst q. exact (Hpr Hq). }
      destruct (do_atom_spec s p x l' Hn Hr Hx) as (Hn' & Hr' & Hh' & Ho' & d & Hu' & Ht').
      destruct l' as [|y l''].
      * inv Hpt. repeat split; try assumption.
        -- intros q Hq. right. exact Hq.
        -- intros q Hq. apply Ho'. intro E. apply Hq. left. symmetry. exact E.
        -- exists d. split; [exact Hu'|]. cbn [psum]. rewrite (Hfr _ Ho'). cbn [pot] in Ht'. cbn [pot]. lia.
      * inv Hpt. repeat split; try assumption.
        -- constructor; [|exact Hokr]. split; [cbn [snd]; discriminate|cbn [snd]; exact Hal'].
        -- cbn [paths_of map fst snd]. constructor; assumption.
        -- intros q Hq. exact Hq.
        -- intros q Hq. apply Ho'. intro E. apply Hq. left. symmetry. exact E.
        -- exists d. split; [exact Hu'|]. cbn [psum]. rewrite (Hfr _ Ho'). lia.
    + destruct (ptick a s r) as [s1 r1] eqn:Ept. inv Hpt.
      destruct (IH s s' r1 Ept Hn Hr Hndr Hokr) as (Hn' & Hr' & Hh' & Hok' & Hnd' & Hin' & Ho' & d & Hu' & Ht').
      repeat split; try assumption.
      * constructor; assumption.
      * cbn [paths_of map fst snd]. constructor; [|exact Hnd']. intro Hq. apply Hpr. apply Hin'. exact Hq.
      * cbn [paths_of map fst snd]. intros q [Hq|Hq]; [left; exact Hq|right; apply Hin'; exact Hq].
      * intros q Hq. apply Ho'. intro Hq'. apply Hq. right. exact Hq'.
      * exists d. split; [exact Hu'|]. cbn [psum]. rewrite (cur_frame p (content s) (content s')) by (apply Ho'; exact Hpr). lia.
Qed.

Lemma up_atoms_spec : forall h position h2 l,
  hok h -> position < W -> up_atoms h position = Some (h2, l) ->
  hok h2 /\ hpath h2 = hpath h /\ Forall aok l /\ pot (hsize h) l = 0.
Proof.
  intros h position h2 l (Hp & Hs) HpW H. unfold up_atoms in H.
  destruct (position <? 0) eqn:E0; [discriminate|]. destruct (hsize h <? position) eqn:E1; inv H.
  - repeat split; cbn [hpos hsize hpath]; try lia.
    + repeat constructor; cbn [aok]; lia.
    + cbn [pot]. rewrite wrap_small by lia. lia.
  - repeat split; cbn [hpos hsize hpath]; try lia.
    constructor.
Qed.

(* what the first segment of an operation leaves behind; the updates for the File's path [p] owe nothing in total *)
Definition seg_ok (s : st) (ps : list Z) (p : Z) (s' : st) (l : list atom) : Prop :=
  nodup (content s') /\ ranged (content s') /\ hsok (hs s') /\ used s' = used s
  /\ total (content s') = total (content s)
  /\ (forall q, ~ In q ps -> lookup q (content s') = lookup q (content s))
  /\ Forall aok l /\ pot (cur p (content s')) l = 0.

Lemma seg_ok_same : forall s ps p s' l,
  nodup (content s) -> ranged (content s) -> hsok (hs s') -> content s' = content s -> used s' = used s ->
  Forall aok l -> pot (cur p (content s)) l = 0 -> seg_ok s ps p s' l.
Proof. intros s ps p s' l Hn Hr Hh Hc Hu Hl Hp. unfold seg_ok. rewrite Hc. repeat split; assumption. Qed.
Lemma seg_ok_id : forall s ps p, nodup (content s) -> ranged (content s) -> hsok (hs s) -> seg_ok s ps p s [].
Proof. intros s ps p Hn Hr Hh. apply seg_ok_same; try assumption; try reflexivity. constructor. Qed.

Lemma up_atoms_seg : forall s ps slot h position h2 l,
  nodup (content s) -> ranged (content s) -> hsok (hs s) -> hok h -> synced s h -> position < W ->
  up_atoms h position = Some (h2, l) -> seg_ok s ps (hpath h) (set_h s slot h2) l.
Proof.
  intros s ps slot h position h2 l Hn Hr Hh Hok Hsy HpW Eu.
  destruct (up_atoms_spec _ _ _ _ Hok HpW Eu) as (Hok2 & _ & Hal & Hpot0).
  apply seg_ok_same; try assumption; try reflexivity; [apply hsok_hset; assumption|].
  unfold cur. rewrite Hsy. exact Hpot0.
Qed.

Lemma decide_spec : forall s o,
  nodup (content s) -> ranged (content s) -> hsok (hs s) -> admissible s o = true ->
  match decide s o with Some (s', _, l) => seg_ok s (op_paths s o) (op_path s o) s' l | None => True end.
Proof.
  intros s o Hn Hr Hh Hadm. unfold op_paths, op_path.
  destruct o as [slot path|slot n inside|slot n|slot off origin|slot path|slot|slot];
    cbn [decide slot_of]; cbn [admissible slot_of] in Hadm;
    destruct (hget slot (hs s)) as [h|] eqn:Eg; try (apply seg_ok_id; assumption);
    try pose proof (hsok_hget _ _ _ Hh Eg) as Hok;
    try (apply andb_true_iff in Hadm; destruct Hadm as [Hsy Hdst]; apply in_sync_synced in Hsy).
  - unfold do_open. destruct (lookup path (content s)) as [sz|] eqn:El.
    + apply seg_ok_same; try assumption; try reflexivity; [|constructor].
      apply hsok_hset; [|exact Hh]. pose proof (ranged_lookup _ _ _ Hr El). unfold hok. cbn [hpos hsize]. lia.
    + rewrite insert_fresh by exact El. unfold seg_ok. cbn [content used hs]. repeat split; try reflexivity; [| | | |constructor].
      * apply nodup_cons; assumption.
      * constructor; [cbn [snd]; rewrite W_val; lia|exact Hr].
      * apply hsok_hset; [|exact Hh]. unfold hok. cbn [hpos hsize]. rewrite W_val. lia.
      * intros q Hq. cbn [lookup]. destruct (Z.eqb_spec path q) as [E|_]; [|reflexivity]. destruct Hq. right. left. exact E.
  - unfold dec_write.
    destruct (wrap n =? 0); [apply seg_ok_id; assumption|].
    destruct (cap s <=? used s); [apply seg_ok_id; assumption|].
    destruct (negb inside && (hpos h <? hsize h)) eqn:Et.
    + (* the tail of the file is given back first: the File is then as long as its position *)
      apply andb_true_iff in Et. destruct Et as [_ Et]. destruct Hok as (Hp & Hs).
      destruct (up_atoms (mkH (hpath h) (hpos h) (hpos h)) (to_off (hpos h + wrap n))) as [[h2 post]|] eqn:Eu; [|exact I].
      apply up_atoms_spec in Eu; [|unfold hok; cbn [hpos hsize]; lia|apply to_off_lt_W].
      destruct Eu as (Hok2 & _ & Hal & Hpot0). cbn [hsize] in Hpot0.
      apply seg_ok_same; try assumption; try reflexivity.
      * apply hsok_hset; assumption.
      * constructor; [exact I|]. constructor; [cbn [aok]; lia|exact Hal].
      * unfold cur. rewrite Hsy. cbn [app pot]. rewrite wrap_small by lia. lia.
    + destruct (up_atoms h (to_off (hpos h + wrap n))) as [[h2 post]|] eqn:Eu; [|exact I].
      apply (up_atoms_seg _ _ _ _ _ _ _ Hn Hr Hh Hok Hsy (to_off_lt_W _) Eu).
  - destruct (do_read_spec s slot h (wrap n) Hok (proj1 (wrap_range n))) as (r0 & H1 & _ & E). rewrite E.
    destruct (hsize h =? 0); [apply seg_ok_id; assumption|].
    apply seg_ok_same; try assumption; try reflexivity; [|constructor]. apply hsok_hset; [|exact Hh]. destruct Hok. unfold hok. cbn [hpos hsize]. lia.
  - assert (Hgo : forall position,
              match match up_atoms h (to_off position) with Some (h2, l0) => Some (set_h s slot h2, 0, l0) | None => None end
              with Some (s', _, l) => seg_ok s [hpath h] (hpath h) s' l | None => True end).
    { intros position. destruct (up_atoms h (to_off position)) as [[h2 l0]|] eqn:Eu; [|exact I].
      apply (up_atoms_seg _ _ _ _ _ _ _ Hn Hr Hh Hok Hsy (to_off_lt_W _) Eu). }
    unfold dec_seek.
    destruct (origin =? 0); [apply Hgo|]. destruct (origin =? 1); [apply Hgo|].
    destruct (origin =? 2); [apply Hgo|]. apply seg_ok_id; assumption.
  - (* move: onto the File's own path or a new one, the entry is erased and put back *)
    unfold do_move. destruct (path <? 0); [apply seg_ok_id; assumption|]. unfold synced in Hsy. rewrite Hsy.
    pose proof (ranged_lookup _ _ _ Hr Hsy) as Hrg. cbn [orb] in Hdst.
    assert (El : lookup path (erase (hpath h) (content s)) = None).
    { destruct (Z.eqb_spec path (hpath h)) as [->|Hne]; [apply lookup_erase_same|].
      rewrite lookup_erase_other by exact Hne. destruct (lookup path (content s)); [discriminate|reflexivity]. }
    rewrite insert_fresh by exact El. unfold seg_ok. cbn [content used hs total]. repeat split; try assumption; try reflexivity; [| | | |constructor].
    + apply nodup_cons; [exact El|apply nodup_erase; exact Hn].
    + constructor; [exact Hrg|apply ranged_erase; exact Hr].
    + rewrite total_erase by exact Hn. rewrite Hsy. lia.
    + intros q Hq. cbn [lookup]. destruct (Z.eqb_spec path q) as [E|_]; [destruct Hq; right; left; exact E|].
      apply lookup_erase_other. intro E. apply Hq. left. symmetry. exact E.
  - unfold dec_unlink. unfold synced in Hsy. rewrite Hsy.
    apply seg_ok_same; try assumption; try reflexivity; [repeat constructor|].
    unfold cur. rewrite Hsy. cbn [pot]. lia.
  - apply seg_ok_same; try assumption; try reflexivity; [apply hsok_hdel; exact Hh|constructor].
Qed.

Lemma mem_In : forall x l, mem x l = true <-> In x l.
Proof.
  intros x l. induction l as [|y r IH]; cbn [mem In]; [split; [discriminate|tauto]|].
  rewrite orb_true_iff, IH. split; intros [H|H]; [left; lia|right; exact H|left; lia|right; exact H].
Qed.
Lemma disjoint_spec : forall l1 l2, disjoint l1 l2 = true -> forall x, In x l1 -> ~ In x l2.
Proof.
  induction l1 as [|y r IH]; intros l2 H x Hx; cbn [disjoint In] in *; [tauto|].
  apply andb_true_iff in H. destruct H as [H1 H2]. destruct Hx as [Hx|Hx].
  - subst y. intro Hin. apply mem_In in Hin. rewrite Hin in H1. discriminate.
  - apply (IH l2 H2 x Hx).
Qed.

Theorem mstep_inv : forall M e M' r, MInv M -> madmissible M e = true -> mstep M e = Some (M', r) -> MInv M'.
Proof.
  intros [s pd] e M' r (Hn & Hr & Hh & Hu & Hnd & Hok) Hadm Hst. cbn [ms pend] in *.
  destruct e as [a o|a]; cbn [mstep madmissible ms pend] in Hst, Hadm.
  - destruct (busy a pd) eqn:Eb; [inv Hst; unfold MInv; cbn [ms pend]; tauto|].
    cbn [orb] in Hadm. apply andb_true_iff in Hadm. destruct Hadm as [Ha Hdis].
    pose proof (disjoint_spec _ _ Hdis) as Hd.
    destruct (decide s o) as [[[s1 r1] l]|] eqn:Ed; [|discriminate].
    pose proof (decide_spec s o Hn Hr Hh Ha) as Hseg. rewrite Ed in Hseg.
    destruct Hseg as (Hn' & Hr' & Hh' & Hu' & Ht' & Ho' & Hal & Hpot).
    assert (Hps : psum (content s1) pd = psum (content s) pd).
    { apply psum_frame. intros q Hq. apply Ho'. intro Hin. exact (Hd q Hin Hq). }
    destruct l as [|x l'].
    + inv Hst. unfold MInv. cbn [ms pend]. repeat split; try assumption. rewrite Hu', Ht', Hps. exact Hu.
    + inv Hst. unfold MInv. cbn [ms pend]. repeat split; try assumption.
      * cbn [psum]. rewrite Hpot, Hu', Ht', Hps. rewrite Hu. f_equal.
      * cbn [paths_of map fst snd]. constructor; [|exact Hnd]. apply Hd. unfold op_paths. left. reflexivity.
      * constructor; [|exact Hok]. split; [cbn [snd]; discriminate|cbn [snd]; exact Hal].
  - destruct (busy a pd) eqn:Eb; [|inv Hst; unfold MInv; cbn [ms pend]; tauto].
    destruct (ptick a s pd) as [s1 pd1] eqn:Ept. inv Hst.
    destruct (ptick_spec _ _ _ _ _ Ept Hn Hr Hnd Hok) as (Hn' & Hr' & Hh' & Hok' & Hnd' & Hin' & Ho' & d & Hu' & Ht').
    unfold MInv. cbn [ms pend]. repeat split; try assumption.
    + rewrite Hh'. exact Hh.
    + rewrite (Hu' _ Hu). f_equal. lia.
Qed.

Lemma minit_inv : forall c capacity, nodup c -> ranged c -> MInv (minit c capacity).
Proof.
  intros c k Hn Hr. unfold MInv, minit, init. cbn [ms pend content used hs psum paths_of map].
  repeat split; try assumption; try constructor. f_equal. lia.
Qed.

Theorem mrun_inv : forall es M M',
  MInv M -> all_madmissible M es = true -> mrun M es = Some M' -> MInv M'.
Proof.
  induction es as [|e r IH]; intros M M' HI Hadm Hrun; cbn [mrun all_madmissible] in *.
  - inv Hrun. exact HI.
  - apply andb_true_iff in Hadm. destruct Hadm as [Ha Hrest].
    destruct (mstep M e) as [[M1 res]|] eqn:Est; [|discriminate].
    apply (IH M1 M'); [eapply mstep_inv; eassumption|exact Hrest|exact Hrun].
Qed.

(* when nothing is in flight the multi-actor invariant is the single-actor one *)
Lemma MInv_quiescent : forall M, MInv M -> pend M = [] -> Inv (ms M).
Proof.
  intros M (Hn & Hr & Hh & Hu & _) Hp. rewrite Hp in Hu. cbn [psum] in Hu. rewrite Z.sub_0_r in Hu.
  unfold Inv. tauto.
Qed.

(** used size = total size of the files, whatever the interleaving of the segments of the actors' operations *)
Theorem concurrent_used_eq_sum : forall c capacity es M',
  nodup c -> ranged c ->
  all_madmissible (minit c capacity) es = true ->
  mrun (minit c capacity) es = Some M' ->
  used (ms M') = wrap (total (content (ms M')) - psum (content (ms M')) (pend M'))
  /\ (pend M' = [] ->
      used (ms M') = wrap (total (content (ms M')))
      /\ (total (content (ms M')) < W -> used (ms M') = total (content (ms M')))).
Proof.
  intros c k es M' Hn Hr Hadm Hrun.
  pose proof (mrun_inv es _ _ (minit_inv c k Hn Hr) Hadm Hrun) as HI.
  split; [destruct HI as (_ & _ & _ & Hu & _); exact Hu|].
  intro Hp. apply Inv_used, MInv_quiescent; assumption.
Qed.

Lemma Inv_MInv : forall s, Inv s -> MInv (mkM s []).
Proof.
  intros s (Hu & Hn & Hr & Hh). unfold MInv. cbn [ms pend psum paths_of map]. rewrite Z.sub_0_r.
  repeat split; try assumption; constructor.
Qed.
Lemma disjoint_nil : forall l, disjoint l [] = true.
Proof. induction l as [|x l IH]; [reflexivity|exact IH]. Qed.
Lemma ticks_admissible : forall a n M, all_madmissible M (repeat (Tick a) n) = true.
Proof.
  intros a n. induction n as [|n IH]; intro M; cbn [repeat all_madmissible madmissible andb]; [reflexivity|].
  destruct (mstep M (Tick a)) as [[M' r]|]; [apply IH|reflexivity].
Qed.

Theorem step_inv : forall s o s' r,
  Inv s -> admissible s o = true -> step true s o = Some (s', r) -> Inv s'.
Proof.
  intros s o s' r HI Hadm Hst. pose proof (solo_refines_step s 0 o) as Hsolo. rewrite Hst in Hsolo.
  apply (MInv_quiescent (mkM s' [])); [|reflexivity].
  apply (mrun_inv (solo 0 o) (mkM s []) _ (Inv_MInv s HI)); [|exact Hsolo].
  change (solo 0 o) with (Start 0 o :: repeat (Tick 0) 4).
  cbn [all_madmissible madmissible ms pend busy orb paths_of map]. rewrite Hadm, disjoint_nil. cbn [andb].
  destruct (mstep _ _) as [[M' r']|]; [apply ticks_admissible|reflexivity].
Qed.

Theorem run_inv : forall ops s s',
  Inv s -> all_admissible true s ops = true -> run true s ops = Some s' -> Inv s'.
Proof.
  induction ops as [|o r IH]; intros s s' HI Hadm Hrun; cbn [run all_admissible] in *.
  - inv Hrun. exact HI.
  - apply andb_true_iff in Hadm. destruct Hadm as [Ha Hrest].
    destruct (step true s o) as [[s1 res]|] eqn:Est; [|discriminate].
    apply (IH s1 s'); [eapply step_inv; eassumption|exact Hrest|exact Hrun].
Qed.

(** the verified model always passes the oracle that judges the implementation's observations *)
Theorem model_passes_oracle : forall s o s' r,
  Inv s -> admissible s o = true -> step true s o = Some (s', r) -> step_ok (record s o s' r) = true.
Proof.
  intros s o s' r HI Hadm Hst.
  pose proof (step_inv _ _ _ _ HI Hadm Hst) as (Hu' & _).
  unfold record. destruct (obs_h s (slot_of o)) as [[sb pb] fb] eqn:Eb.
  destruct (obs_h s' (slot_of o)) as [[sa pa] x] eqn:Ea.
  cbn [step_ok]. rewrite (proj2 (Z.eqb_eq _ _) Hu').
  destruct o; cbn [op_code Z.eqb Pos.eqb andb]; try reflexivity;
    cbn [slot_of op_arg admissible] in *; unfold obs_h in Eb, Ea;
    (destruct (hget slot (hs s)) as [h|] eqn:Eg;
     [rewrite andb_true_r in Hadm|cbn [step slot_of] in Hst; rewrite Eg in Hst; inv Hst; reflexivity]).
  - destruct (read_bound _ _ _ _ _ _ HI Eg Hst) as (H1 & H2 & H3 & H4 & H5 & H6).
    rewrite H3 in Ea. cbn [hsize hpos hpath] in Ea. inv Eb. inv Ea. specialize (H6 Hadm).
    destruct (r =? -2); [reflexivity|]. cbn [negb]. lia.
  - destruct (unlink_returns_size _ _ _ _ _ HI Eg Hadm Hst) as (H1 & H2 & H3 & H4 & H5 & H6).
    inv Eb. cbn [Z.eqb]. lia.
Qed.

