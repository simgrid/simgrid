(** C50 — Legacy xbt containers behave like their models.
    Statements.  Models: SGV.Xbt.Dynar (dynar.cpp), SGV.Xbt.Dict (dict.cpp, dict_cursor.c); the proofs that are more
    than an instance of a lemma of SGV.Xbt.DynarProofs, SGV.Xbt.DictProofs live there. *)
From SGV Require Import Base.Tactics Xbt.Dynar Xbt.DynarProofs Xbt.Dict Xbt.DictProofs.
From Coq Require Import Sorted Permutation.
Local Open Scope Z_scope.

(** * xbt_dynar is a growable array *)
(* every operation (push, pop, shift, unshift, insert_at, remove_at, get, set_at with zero-filled growth, length,
   member, sort, reset, foreach/map) commutes with the abstraction to a plain list, keeps used <= size, and is
   stopped by an xbt_assert exactly when the list operation is undefined; for any content of freshly allocated cells *)
Theorem C50_dynar_refines_list : forall junk d o,
  DynarProofs.Inv d -> refines (Dynar.step junk d o) (spec_step (abs d) o).
Proof. exact dynar_refines_list. Qed.
Print Assumptions C50_dynar_refines_list.

(* an insertion beyond the end is undefined on a list; the model (and the C code since the fix: commit) stops there.
   The pinned code did not: push 1; insert_at(5, 9) gave length 2, contents [1, 0], the 9 written out of bounds. *)
Example C50_insert_beyond_end_is_stopped : forall junk,
  Dynar.step junk (mkD [1%Z; 7%Z] 1) (InsertAt 5 9) = None /\ spec_step [1%Z] (InsertAt 5 9) = None.
Proof. intro junk. split; reflexivity. Qed.

(* whole histories of any length: same answers, stopped at the same operation, final contents related *)
Theorem C50_dynar_history_refines : forall junk ops d, DynarProofs.Inv d ->
  match run_c junk d ops, run_s (abs d) ops with
  | Some (d', rs), Some (l', rs') => DynarProofs.Inv d' /\ abs d' = l' /\ rs = rs'
  | None, None => True
  | _, _ => False
  end.
Proof. exact dynar_history_refines. Qed.
Print Assumptions C50_dynar_history_refines.

Theorem C50_dynar_capacity : forall junk ops d' rs,
  run_c junk (mkD [] 0) ops = Some (d', rs) -> (used d' <= size d')%nat.
Proof.
  intros junk ops d' rs H. pose proof (dynar_history_refines junk ops (mkD [] 0) DynarProofs.empty_inv) as R. rewrite H in R.
  destruct (run_s (abs (mkD [] 0)) ops) as [[l rs']|]; [|contradiction]. exact (proj1 R).
Qed.
Print Assumptions C50_dynar_capacity.

(* the sort of the specification is a sort: ordered permutation *)
Theorem C50_sort_is_sorted_permutation : forall l, Sorted Z.le (isort l) /\ Permutation (isort l) l.
Proof. intro l. split; [apply isort_sorted|apply isort_perm]. Qed.
Print Assumptions C50_sort_is_sorted_permutation.

(** * xbt_dict is a finite map, for ANY hash function and any key type with a correct equality test *)
Section AnyHash.
Variable K : Type.
Variable keqb : K -> K -> bool.
Variable hash : K -> Z.
Hypothesis keqb_eq : forall a b, keqb a b = true <-> a = b.
Hypothesis hash_nonneg : forall k, 0 <= hash k.

Theorem C50_dict_refines_map :
  (* the empty dict *)
  (DInv K hash (empty K) /\ forall k, get K keqb hash (empty K) k = None) /\
  (* set: invariant kept (through any number of rehashes), functional update, count *)
  (forall d k v, DInv K hash d ->
     DInv K hash (set K keqb hash d k v)
     /\ get K keqb hash (set K keqb hash d k v) k = Some v
     /\ (forall k', k' <> k -> get K keqb hash (set K keqb hash d k v) k' = get K keqb hash d k')
     /\ count K (set K keqb hash d k v) = count K d + match get K keqb hash d k with Some _ => 0 | None => 1 end) /\
  (* remove: fails exactly on absent keys, otherwise removes that binding only *)
  (forall d k, DInv K hash d ->
     match remove K keqb hash d k with
     | None => get K keqb hash d k = None
     | Some d' => get K keqb hash d k <> None /\ DInv K hash d' /\ get K keqb hash d' k = None
                  /\ (forall k', k' <> k -> get K keqb hash d' k' = get K keqb hash d k')
                  /\ count K d' = count K d - 1
     end) /\
  (* cursor enumeration: every binding exactly once; length = number of bindings *)
  (forall d, DInv K hash d ->
     NoDup (map fst (enumerate K d))
     /\ (forall k v, In (k, v) (enumerate K d) <-> get K keqb hash d k = Some v)
     /\ count K d = Z.of_nat (length (enumerate K d))).
Proof using keqb_eq hash_nonneg.
  split; [split; [apply empty_inv|apply get_empty]|]. split; [|split].
  - intros d k v HI. split; [apply set_inv; assumption|]. split; [apply get_set_same; assumption|].
    split; [intros; apply get_set_other; assumption|apply count_set; assumption].
  - intros d k HI. apply remove_spec; assumption.
  - intros d HI. apply enumerate_spec; assumption.
Qed.

(* resizing preserves the contents *)
Theorem C50_dict_rehash_preserves : forall d, DInv K hash d ->
  DInv K hash (rehash K hash d) /\ (forall k, get K keqb hash (rehash K hash d) k = get K keqb hash d k)
  /\ count K (rehash K hash d) = count K d /\ tsize K (rehash K hash d) = 2 * tsize K d.
Proof using keqb_eq hash_nonneg.
  intros d HI. split; [apply rehash_inv; assumption|]. split; [intro k; apply rehash_get; assumption|].
  split; [reflexivity|apply tsize_rehash].
Qed.
End AnyHash.
Print Assumptions C50_dict_refines_map.
Print Assumptions C50_dict_rehash_preserves.

(* the instance run against the C library (byte-string keys, djb2) satisfies the hypotheses *)
Theorem C50_instance_ok : (forall a b, leqb a b = true <-> a = b) /\ (forall s, 0 <= djb2 s).
Proof. split; [exact leqb_eq|exact djb2_nonneg]. Qed.
Print Assumptions C50_instance_ok.

(* non-vacuous: a history that grows, shrinks, sorts; a dict forced through a rehash by a constant hash is still a map *)
Example C50_nonvacuous_dynar :
  run_s [] [Push 3; Push 1; Unshift 7; InsertAt 1 9; SetAt 6 5; Sort; Pop; RemoveAt 0; Shift; Get 1; Enumerate]
  = Some ([1; 3; 5; 7], [[]; []; []; []; []; []; [9]; [0]; [0]; [3]; [1; 3; 5; 7]]).
Proof. vm_compute. reflexivity. Qed.
Example C50_nonvacuous_dict :
  let d := fold_left (fun d i => sset d [Z.of_nat i] (Z.of_nat i)) (seq 0 200) (empty (list Z)) in
  tsize _ d = 256 /\ count _ d = 200 /\ sget d [150] = Some 150 /\ sget d [200] = None.
Proof. vm_compute. repeat split; reflexivity. Qed.
