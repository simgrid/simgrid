(** C19 — Update algorithms and solver options give the same timings.
    Statements; the proofs that are more than an instance of a lemma of SGV.Res.ActionProofs and SGV.Res.Ti live there.
    eps = 0 (exact rationals).
    A history is the list of (duration, rate, touched) segments the sharing solver gives to one action: suspension and
    starvation are rate 0, resume / bound / priority / capacity changes are rate changes, segment boundaries are all the
    dates at which the engine stops (so any interleaving with unrelated events is covered); [touched] = the action is in
    the modified set at that solve, which selective update guarantees at least when its rate changed ([touch_ok]). *)
From Coq Require Import QArith List.
From SGV Require Import Res.Action Res.ActionProofs Res.Ti.
Import ListNotations.
Local Open Scope Q_scope.

(* same completion date (or none within the history) under the LAZY and the FULL update algorithm *)
Theorem C19_lazy_eq_full : forall h cost t0, wf h -> touch_ok 0 h -> 0 < cost ->
  oQeq (lazy_run 0 t0 (lazy_init cost t0) h) (full_run 0 t0 cost h).
Proof.
  intros h cost t0 Hwf Htok Hcost. apply lazy_eq_full_gen; try assumption. apply linv_init.
Qed.
Print Assumptions C19_lazy_eq_full.

(* that date is determined by the rates alone: the first date at which the integral of the rate reaches the cost
   (hence also independent of where unrelated events cut the engine steps) *)
Theorem C19_completion_is_first_hit : forall h t0 cost T, wf h -> 0 < cost -> full_run 0 t0 cost h = Some T ->
  t0 <= T /\ integral h (T - t0) == cost /\ (forall y, 0 <= y -> y < T - t0 -> integral h y < cost).
Proof. exact full_char. Qed.
Print Assumptions C19_completion_is_first_hit.

(* in the FULL algorithm, when the action's own completion is the next event the step does finish it *)
Theorem C19_full_no_stall : forall rem r d, 0 < rem -> ttc rem r = Some d -> Qle_bool (dupd 0 rem (r * d)) 0 = true.
Proof. exact full_own_event_finishes. Qed.
Print Assumptions C19_full_no_stall.

(* max_duration (sleeps): decrementing at every step (FULL) or keeping start + duration in the heap (LAZY) *)
Theorem C19_max_duration : forall steps t0 md, Forall (fun d => 0 <= d) steps -> 0 < md ->
  oQeq (lazy_sleep t0 (t0 + md) steps) (full_sleep 0 t0 md steps).
Proof. intros. apply sleep_eq_gen; try assumption. reflexivity. Qed.
Print Assumptions C19_max_duration.

(* TI (single core, availability trace): inverting the integral of the trace for total_area = rem / share gives the date
   at which the FULL bookkeeping completes with the rates scale * share *)
Theorem C19_ti_eq_full : forall trace share now rem, 0 < share -> trace_ok trace -> 0 < rem ->
  oQeq (ti_solve now (ti_area rem share) trace) (full_run 0 now rem (ti_hist share trace)).
Proof. exact ti_eq_full. Qed.
Print Assumptions C19_ti_eq_full.

(* hypotheses are satisfiable: an action suspended in the middle, a rate change not reported as touched only when the rate
   is unchanged, and a trace with two availability levels *)
Example C19_nonvacuous :
  let h := [mkseg 2 2 true; mkseg 1 2 false; mkseg 2 0 true; mkseg 4 1 true; mkseg 8 (1#2) true] in
  wf_b h = true /\ touch_ok_b 0 h = true /\
  lazy_run 0 1 (lazy_init 10 1) h = Some (1 + 2 + 1 + 2 + 4) /\ full_run 0 1 10 h = Some (1 + 2 + 1 + 2 + 4) /\
  ti_solve 0 (ti_area 10 (1#2)) [(4, 1); (100, 1#2)] = Some (4 + (10 / (1#2) - 1 * 4) / (1#2)).
Proof. vm_compute. repeat split. Qed.
