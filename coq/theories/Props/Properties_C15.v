(** C15 — Sharing solvers never exceed capacities.
    Statements; the proofs that are more than an instance of a lemma live in SGV.Lmm.MaxminProofs and
    SGV.Lmm.SystemProofs.  Model: SGV.Lmm.Maxmin (MaxMin::maxmin_solve of src/kernel/lmm/maxmin.cpp at precision 0, on a snapshot of
    the enabled part of a system); the "disabled/suspended => rate 0" half rests on the
    System model of C18 (a variable whose requested penalty is 0 is not enabled, hence absent from every snapshot, and
    disable_var resets its value).  fairbottleneck and bmf have no algorithm model: their outputs are judged by the checker
    of C15_oracle_sound_complete. *)
From SGV Require Import Base.Tactics Lmm.System Lmm.SystemProofs Lmm.Maxmin Lmm.MaxminProofs.
From Coq Require Import QArith.
Local Open Scope Q_scope.

Definition snapshot_ok (s : msys) : Prop :=
  (forall v, 0 < pen s v) /\ (forall c e, In e (m_elems (cn s c)) -> 0 <= snd e) /\
  (forall c, 0 < m_bound (cn s c) \/ m_elems (cn s c) = []) /\ (forall c, 0 <= m_bound (cn s c)).

(* whatever the number of rounds performed (no fuel condition): shared constraints *)
Theorem C15_maxmin_shared_capacity_partial : forall s fuel c, snapshot_ok s ->
  m_shared (cn s c) = true -> load (m_elems (cn s c)) (st_val (rounds fuel s (init s))) <= m_bound (cn s c).
Proof. intros s fuel c [A [B [C D]]]. apply (rounds_feasible s A B C D fuel). Qed.
Print Assumptions C15_maxmin_shared_capacity_partial.

Theorem C15_maxmin_fatpipe_capacity_partial : forall s fuel c e, snapshot_ok s ->
  m_shared (cn s c) = false -> In e (m_elems (cn s c)) -> snd e * st_val (rounds fuel s (init s)) (fst e) <= m_bound (cn s c).
Proof. intros s fuel c e [A [B [C D]]]. apply (rounds_feasible s A B C D fuel). Qed.
Print Assumptions C15_maxmin_fatpipe_capacity_partial.

Theorem C15_maxmin_value_in_bound_partial : forall s fuel v, snapshot_ok s ->
  let x := st_val (rounds fuel s (init s)) v in 0 <= x /\ (0 < vbound s v -> x <= vbound s v).
Proof. intros s fuel v [A [B [C D]]]. apply (rounds_feasible s A B C D fuel). Qed.
Print Assumptions C15_maxmin_value_in_bound_partial.
(* "_partial": capacities must be positive (a constraint of capacity 0 that still has consuming enabled variables is the
   recorded finding maxmin-zero-capacity: the code skips it before resetting the values); full statement = the same
   without the third clause of snapshot_ok. *)

(* after any history, a variable whose last requested penalty is 0 is neither enabled nor staged *)
Theorem C15_penalty0_disabled : forall l v, let s := run_ops sys0 l in
  qpos (v_want (s_var s v)) = false -> qpos (v_pen (s_var s v)) = false /\ qpos (v_staged (s_var s v)) = false.
Proof. exact penalty0_not_running. Qed.
Print Assumptions C15_penalty0_disabled.

(* the pinned update_variable_penalty resumed a suspended staged variable; the repaired one does not *)
Theorem C15_pinned_code_refuted :
  resumed_while_suspended (fold_left step_pinned witness_c15 sys0) 1 = true /\ resumed_while_suspended (run_ops sys0 witness_c15) 1 = false.
Proof. split; vm_compute; reflexivity. Qed.
Print Assumptions C15_pinned_code_refuted.

(* the checker applied to every solve() of the three real solvers decides the inequalities of the statement (tolerance tol) *)
Theorem C15_oracle_sound_complete : forall tol s val, alloc_feasible_b tol s val = true <-> alloc_feasible tol s val.
Proof. exact alloc_feasible_b_ok. Qed.
Print Assumptions C15_oracle_sound_complete.

(* non-vacuity: a snapshot with a shared and a fat-pipe constraint, penalties, weights < 1 and a bound; the model's answer *)
Definition ex_sys : msys :=
  mkMsys [mkMcn 3 true [(0%nat, 1); (1%nat, 1); (2%nat, 1 # 2)]; mkMcn 8 false [(1%nat, 2); (2%nat, 1)]]
         [mkMvar 1 (-1); mkMvar 2 (1 # 2); mkMvar (1 # 2) (-1)].
Example C15_nonvacuous :
  alloc_feasible_b 0 ex_sys (st_val (maxmin_solve ex_sys)) = true /\
  Qred (st_val (maxmin_solve ex_sys) 0%nat) = 5 # 4 /\ Qred (st_val (maxmin_solve ex_sys) 1%nat) = 1 # 2 /\
  Qred (st_val (maxmin_solve ex_sys) 2%nat) = 5 # 2 /\ any_light ex_sys (maxmin_solve ex_sys) = false.
Proof. vm_compute. repeat split; reflexivity. Qed.
Example C15_snapshot_ok_nonvacuous : forall c e, In e (m_elems (cn ex_sys c)) -> 0 <= snd e.
Proof.
  intros c e. destruct c as [|[|c]]; cbn; [| |destruct c; cbn; tauto]; intros H;
    repeat (destruct H as [H|H]; [subst e; cbn; unfold Qle; cbn; lia|]); destruct H.
Qed.
