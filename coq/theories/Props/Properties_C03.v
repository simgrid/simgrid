(** C03 — Simulated time is monotone and events happen exactly at their date.
    Statements; the proofs that are more than an instance of a lemma of SGV.Kernel.EngineProofs live there.
    Time is an integer number of ticks (any common denominator of the durations of a program), [prec] =
    precision/timing in ticks. A run is [run fuel (init prec progs)]; theorems hold for every fuel, i.e. for every
    prefix of every execution of every program. *)
From Coq Require Import Sorted.
From SGV Require Import Base.Tactics Kernel.Engine Kernel.EngineProofs.
Local Open Scope Z_scope.

(* the clock never decreases, from any state and over any number of scheduling rounds *)
Theorem C03_clock_monotone : forall fuel s s' ended, run fuel s = (s', ended) -> clock s <= clock s'.
Proof. intros fuel s s' ended H. apply run_inv in H. apply H. Qed.
Print Assumptions C03_clock_monotone.

(* it only moves in solve(); every sub-round (actors running, simcalls, ended actions) happens at a constant date *)
Theorem C03_clock_changes_only_in_solve : forall s, clock (subround s) = clock s.
Proof. intros s. destruct (st_subround s); auto. Qed.
Print Assumptions C03_clock_changes_only_in_solve.

(* every observation of every run: t0 <= t1; sleep_for(d<=0) returns at once; sleep_for(d>0) that was not disturbed by a
   suspension returns at t1 with t1 <= t0 + clamp d < t1 + prec (clamp = CpuCas01::sleep: max d prec), i.e. never after
   its date and less than the precision before it; the log is time-ordered and nothing is dated after the clock *)
Theorem C03_sleep_exact_and_log_ordered : forall fuel prec progs s ended,
  run fuel (init prec progs) = (s, ended) ->
  Forall (entry_ok prec) (log s) /\ StronglySorted not_before (log s) /\ Forall (le_clock (clock s)) (log s).
Proof. exact run_entries_ok. Qed.
Print Assumptions C03_sleep_exact_and_log_ordered.

(* corollary in plain words for one entry *)
Theorem C03_sleep_exact : forall fuel prec progs s ended p i d t0 t1 r,
  run fuel (init prec progs) = (s, ended) -> In (ERet p i (OSleep d) t0 t1 r false) (log s) ->
  (d <= 0 -> t1 = t0) /\ (0 < d -> t1 <= t0 + Z.max d prec < t1 + prec).
Proof.
  intros fuel prec progs s ended p i d t0 t1 r H Hin. apply run_entries_ok in H. destruct H as (H & _).
  eapply Forall_forall in H; eauto. simpl in H. destruct H as (_ & H1 & H2). split; auto.
  intros Hd. specialize (H2 Hd eq_refl). unfold clamp in H2. apply Z.ltb_lt in Hd. rewrite Hd in H2. exact H2.
Qed.
Print Assumptions C03_sleep_exact.

(* solve() stops at the earliest pending date: a kill timer, a timeout timer or the end of an action is never jumped
   over (it fires in the round where clock = its date, Timer::execute_all firing dates <= clock) *)
Theorem C03_no_date_jumped_over : forall s s' d,
  advance s = Some s' -> In d (all_dates s) -> stuck s' = false -> clock s' <= d.
Proof. exact advance_stops_at_earliest. Qed.
Print Assumptions C03_no_date_jumped_over.

Theorem C03_advance_monotone : forall s s', advance s = Some s' -> clock s <= clock s'.
Proof. intros s s' H. apply advance_rel in H. destruct H; auto. Qed.
Print Assumptions C03_advance_monotone.

(* non-vacuity: sleep 1 s, then a sub-precision sleep (2 ticks, precision 4), then sleep 0; a kill time at 3 s *)
Example C03_nonvacuous :
  let '(s, fin) := run 50 (init 4 [[OSleep 4294967296; OSleep 2; OSleep 0]; [OOnExit 7; OSetKillTime 12884901888; OSleep 21474836480]]) in
  fin = true /\ halted s = false /\ clock s = 12884901888 /\
  In (ERet 1 1 (OSleep 2) 4294967296 4294967300 0 false) (log s) /\ In (EExit 2 7 12884901888 true) (log s).
Proof.
  eapply eval_pair; [vm_compute; reflexivity|]. intros s fin. repeat split.
  - now apply (nth_error_In _ 4).
  - now apply (nth_error_In _ 1).
Qed.
