(** C05 — Semaphore semantics: token conservation, FIFO, timeouts.
    Statements; the proofs that are more than an instance of a lemma of SGV.Kernel.SemProofs live there.
    [exec fx c ops] is the state of a semaphore of initial capacity c after ANY sequence of acquire / acquire_timeout /
    release calls by any number of actors and of timer events [Fire p] (the engine ending the sleep action that p's
    wait_for armed), in the order the kernel executes them.  [fx = true] is the repaired wait_for (timeout >= 0 arms a
    timer), [fx = false] the pinned one (timeout > 0).  Calls of an actor blocked in this semaphore are [Rejected]. *)
From SGV Require Import Base.Tactics Kernel.Sem Kernel.SemProofs.
Local Open Scope Z_scope.

(* never more tokens granted than c + releases; get_capacity() = c + releases - grants at any time, which is 0 whenever
   somebody waits (so it "is that difference when nobody waits", and nobody waits while a token is free) *)
Theorem C05_conservation : forall fx c ops, 0 <= c ->
  let s := exec fx c ops in let tr := run fx (init c) ops in
  value s = c + total released tr - total granted tr /\ 0 <= value s /\
  total granted tr <= c + total released tr /\
  (queue s = [] \/ (value s = 0 /\ total granted tr = c + total released tr)).
Proof. exact conservation. Qed.
Print Assumptions C05_conservation.

(* FIFO: the queue is exactly the blocked requests not yet served or timed out, in request order ... *)
Theorem C05_fifo : forall fx c ops, map fst (queue (exec fx c ops)) = waiting_of (run fx (init c) ops).
Proof. intros fx c ops. exact (fifo_gen fx ops (init c)). Qed.
Print Assumptions C05_fifo.

(* ... and a release serves its head (the oldest request still waiting) without touching the free tokens *)
Theorem C05_release_serves_head : forall fx s p s' q, step fx s (Release p) = (s', Released (Some q)) ->
  exists tm r, queue s = (q, tm) :: r /\ queue s' = r /\ value s' = value s.
Proof. exact release_serves_head. Qed.
Print Assumptions C05_release_serves_head.

Theorem C05_release_without_waiter : forall fx s p s', step fx s (Release p) = (s', Released None) ->
  queue s = [] /\ value s' = value s + 1.
Proof. exact release_without_waiter. Qed.
Print Assumptions C05_release_without_waiter.

(* acquire (with or without timeout) returns at once iff a token is free *)
Theorem C05_acquire_when_token : forall fx s p tm, in_queue p (queue s) = false -> 0 < value s ->
  step fx s (match tm with Some t => AcquireTimeout p t | None => Acquire p end) =
  (mkSem (value s - 1) (queue s) (grants s + 1) (releases s), Acquired).
Proof. exact acquire_when_token. Qed.
Print Assumptions C05_acquire_when_token.

(* a timeout is reported iff the timer elapses while the acquisition still waits, i.e. no token was granted to it before *)
Theorem C05_timeout_iff_timer : forall fx s p,
  (has_timer p (queue s) = true -> snd (step fx s (Fire p)) = TimedOut) /\
  (has_timer p (queue s) = false -> step fx s (Fire p) = (s, NoTimer)).
Proof. exact timeout_iff_timer. Qed.
Print Assumptions C05_timeout_iff_timer.

Theorem C05_granted_never_times_out : forall fx c ops p s' q, 0 <= c ->
  step fx (exec fx c ops) (Release p) = (s', Released (Some q)) -> step fx s' (Fire q) = (s', NoTimer).
Proof. exact granted_never_times_out. Qed.
Print Assumptions C05_granted_never_times_out.

(* a reported timeout consumes no token and removes exactly that waiter, which no later release can serve *)
Theorem C05_timeout_consumes_nothing : forall fx s p s', step fx s (Fire p) = (s', TimedOut) ->
  value s' = value s /\ grants s' = grants s /\ releases s' = releases s /\
  queue s' = remove_first p (queue s) /\ has_timer p (queue s) = true.
Proof. exact timeout_consumes_nothing. Qed.
Print Assumptions C05_timeout_consumes_nothing.

Theorem C05_timed_out_is_gone : forall fx c ops p s', 0 <= c ->
  step fx (exec fx c ops) (Fire p) = (s', TimedOut) -> in_queue p (queue s') = false.
Proof. exact timed_out_is_gone. Qed.
Print Assumptions C05_timed_out_is_gone.

(* repaired code: every acquire_timeout(t), t >= 0, that has to wait arms a timer, so it ends by a grant or by a timeout *)
Theorem C05_armed_iff_nonnegative : forall s p t, in_queue p (queue s) = false -> value s <= 0 ->
  snd (step true s (AcquireTimeout p t)) = Blocked (0 <=? t) /\
  (0 <= t -> snd (step true (fst (step true s (AcquireTimeout p t))) (Fire p)) = TimedOut).
Proof. exact armed_iff_nonnegative. Qed.
Print Assumptions C05_armed_iff_nonnegative.

(* pinned code: acquire_timeout(0) on an empty semaphore arms nothing; it never reports a timeout *)
Theorem C05_pinned_timeout0_refuted :
  map snd (run false (init 0) [AcquireTimeout 1 0; Fire 1]) = [Blocked false; NoTimer] /\
  map fst (queue (exec false 0 [AcquireTimeout 1 0; Fire 1])) = [1] /\
  map snd (run true (init 0) [AcquireTimeout 1 0; Fire 1]) = [Blocked true; TimedOut].
Proof. vm_compute. repeat split; reflexivity. Qed.
Print Assumptions C05_pinned_timeout0_refuted.

(* non-vacuity: capacity 1; 1 takes the token, 2 and 3 wait (3 with a timeout), 3 times out, 1 releases -> 2 is served,
   then a release finds nobody *)
Example C05_nonvacuous :
  map snd (run true (init 1) [Acquire 1; Acquire 2; AcquireTimeout 3 4; Fire 3; Release 1; Fire 3; Release 2; Release 2]) =
    [Acquired; Blocked false; Blocked true; TimedOut; Released (Some 2); NoTimer; Released None; Released None] /\
  value (exec true 1 [Acquire 1; Acquire 2; AcquireTimeout 3 4; Fire 3; Release 1; Fire 3; Release 2; Release 2]) = 2 /\
  has_timer 3 (queue (exec true 1 [Acquire 1; Acquire 2; AcquireTimeout 3 4])) = true.
Proof. vm_compute. repeat split; reflexivity. Qed.
