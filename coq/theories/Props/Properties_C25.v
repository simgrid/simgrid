(** C25 — Shortest-path zones compute minimal routes.
    Statements; the proofs that are more than an instance of a lemma of SGV.Routing.SPCertProofs live there.
    The verified objects are CHECKERS that are run on what the real Floyd / Dijkstra / DijkstraCache zones return on
    every generated graph (all ordered pairs):
    [chain_check] (the route is a chain of declared routes) and [cert_ok] (the table of link counts is the table of
    minimal link counts).  Minimality of the in-place Floyd-Warshall model for every table size is NOT stated as a theorem
    about the model (see checks/C25.py META); it is decided per graph by the certificate. *)
From SGV Require Import Base.Tactics Routing.SPCert Routing.SPCertProofs.
Local Open Scope Z_scope.

Theorem C25_chain_check_sound : forall g s t L, chain_check g s t L = true -> is_route g s t L.
Proof. exact chain_check_sound. Qed.
Print Assumptions C25_chain_check_sound.

(* an accepted table is exactly the table of minimal link counts over non-empty chains of declared routes, for any
   number of nodes and any declared routes (symmetric or not) *)
Theorem C25_certificate_sound : forall g n rows, cert_ok g n rows = true -> forall s t,
  In s (range n) -> In t (range n) -> s <> t ->
  (dget rows s t <> -1 -> (exists p, p <> [] /\ is_path g s p t /\ cost_of p = dget rows s t) /\
                          (forall p, p <> [] -> is_path g s p t -> dget rows s t <= cost_of p)) /\
  (dget rows s t = -1 -> forall p, p <> [] -> ~ is_path g s p t).
Proof. exact cert_sound. Qed.
Print Assumptions C25_certificate_sound.

Theorem C25_certified_minimal : forall g n rows s t L,
  cert_ok g n rows = true -> 0 <= s < Z.of_nat n -> 0 <= t < Z.of_nat n -> s <> t ->
  chain_check g s t L = true -> Z.of_nat (length L) = dget rows s t ->
  minimal_route g s t L.
Proof. exact certified_minimal. Qed.
Print Assumptions C25_certified_minimal.

Theorem C25_certified_unreachable : forall g n rows s t,
  cert_ok g n rows = true -> 0 <= s < Z.of_nat n -> 0 <= t < Z.of_nat n -> s <> t ->
  dget rows s t = -1 -> forall L, ~ is_route g s t L.
Proof. exact certified_unreachable. Qed.
Print Assumptions C25_certified_unreachable.

(* Floyd, Dijkstra, DijkstraCache: accepted tables coincide *)
Theorem C25_three_agree : forall g n r1 r2 s t,
  cert_ok g n r1 = true -> cert_ok g n r2 = true -> 0 <= s < Z.of_nat n -> 0 <= t < Z.of_nat n -> s <> t ->
  dget r1 s t = dget r2 s t.
Proof. exact certified_agree. Qed.
Print Assumptions C25_three_agree.

(* Full zone: the route is the declared one, and every (uniquely) declared route is returned *)
Theorem C25_full_exact : forall g s t L, full_route g s t = Some L ->
  exists e, In e g /\ eu e = s /\ ev e = t /\ el e = L.
Proof. exact full_route_exact. Qed.
Print Assumptions C25_full_exact.
Theorem C25_full_declared : forall g e, In e g ->
  (forall e', In e' g -> eu e' = eu e -> ev e' = ev e -> e' = e) -> full_route g (eu e) (ev e) = Some (el e).
Proof. exact full_route_declared. Qed.
Print Assumptions C25_full_declared.

(* the Dijkstra loop as pinned (costs initialised to ULONG_MAX, every node queued, cost_v_u + ULONG_MAX wraps;
   predecessor 0 by default) violates the statement; the repaired loop does not on this witness.
   Graph: 0 -> 1 and 2 -> 1 one-way, loopback edges as do_seal adds them. *)
Theorem C25_dijkstra_pinned_refuted :
  let g := [mkedge 0 1 [10]; mkedge 2 1 [11]; mkedge 0 0 [99]; mkedge 1 1 [99]; mkedge 2 2 [99]] in
  is_route g 0 1 [10] /\ dijkstra_route_len false g 3 0 1 = -1 /\ dijkstra_route_len true g 3 0 1 = 1 /\
  snd (dijkstra false g 3 0) = [0; 2; 2].
Proof.
  cbv zeta. split; [|vm_compute; repeat split; reflexivity].
  exists [mkedge 0 1 [10]]. repeat split; try discriminate; simpl; auto.
Qed.
Print Assumptions C25_dijkstra_pinned_refuted.

(* hypotheses are satisfiable: a one-way triangle with a 2-link route; the table is accepted and the chain parses *)
Example C25_nonvacuous :
  let g := [mkedge 0 1 [1; 2]; mkedge 1 2 [3]; mkedge 2 0 [4]; mkedge 0 2 [5; 6; 7; 8]] in
  cert_ok g 3 [[0; 2; 3]; [2; 0; 1]; [1; 3; 0]] = true /\ chain_check g 0 2 [1; 2; 3] = true /\
  cert_ok g 3 [[0; 2; 4]; [2; 0; 1]; [1; 3; 0]] = false.
Proof. vm_compute. repeat split; reflexivity. Qed.
