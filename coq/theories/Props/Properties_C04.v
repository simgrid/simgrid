(** C04 — Mutex semantics: exclusion, FIFO hand-off, ownership, recursion.
    Statements; the proofs that are more than an instance of a lemma of SGV.Kernel.MutexProofs live there.
    [exec true rec ops] is the state of a (recursive iff [rec]) mutex after ANY sequence [ops] of lock / try_lock /
    unlock calls by any number of actors, in the order the kernel executes them ([true] = the repaired try_lock).
    Calls by an actor that is blocked in a lock() on this mutex are [Rejected] (they cannot exist); lock() of a
    non-recursive mutex by its owner is [Undefined] (outside the property, see Kernel/Mutex.v).
    [held m p] is ghost: acquisitions obtained by p (lock returned, try_lock true, hand-off) minus unlocks done by p
    (C04_held_counts ties it to the trace). *)
From SGV Require Import Base.Tactics Kernel.Mutex Kernel.MutexProofs.
Local Open Scope Z_scope.

(* at most one actor owns the mutex: two actors never both have outstanding acquisitions *)
Theorem C04_exclusion : forall rec ops p q,
  let m := exec true rec ops in 0 < held m p -> 0 < held m q -> p = q.
Proof. exact exclusion. Qed.
Print Assumptions C04_exclusion.

(* ... and owner_ is exactly that actor (Mutex::get_owner) *)
Theorem C04_owner_iff_held : forall rec ops p,
  let m := exec true rec ops in (owner m = Some p <-> 0 < held m p).
Proof. exact owner_iff_held. Qed.
Print Assumptions C04_owner_iff_held.

Theorem C04_held_bounds : forall rec ops p,
  let m := exec true rec ops in 0 <= held m p /\ (rec = false -> held m p <= 1).
Proof. exact held_bounds. Qed.
Print Assumptions C04_held_bounds.

(* the ghost counter is the quantity of the trace the property talks about *)
Theorem C04_held_counts : forall fx rec ops p,
  held (exec fx rec ops) p = total (gets p) (run fx (init rec) ops) - total (gives p) (run fx (init rec) ops).
Proof. exact held_counts. Qed.
Print Assumptions C04_held_counts.

(* recursion: an actor that obtained the mutex n times (lock or try_lock, any mix, or by hand-off) keeps it until
   its n-th unlock: it is the owner exactly while unlocks < acquisitions *)
Theorem C04_recursive_depth : forall rec ops p,
  let tr := run true (init rec) ops in
  (owner (exec true rec ops) = Some p <-> total (gives p) tr < total (gets p) tr).
Proof. exact recursive_depth. Qed.
Print Assumptions C04_recursive_depth.

(* only the owner can release: any other unlock fails the assertion and changes nothing *)
Theorem C04_only_owner_unlocks : forall fx m p, in_queue p (queue m) = false ->
  (owner m <> Some p -> step fx m (Unlock p) = (m, Error)) /\
  (owner m = Some p -> exists m' w, step fx m (Unlock p) = (m', Released w)).
Proof. exact only_owner_unlocks. Qed.
Print Assumptions C04_only_owner_unlocks.

(* try_lock never blocks (it answers, the queue is untouched), succeeds iff free or held by the caller on a recursive
   mutex, makes the caller the owner when it succeeds and changes nothing when it fails *)
Theorem C04_trylock : forall fx m p, in_queue p (queue m) = false ->
  let r := step fx m (TryLock p) in
  (snd r = TryOk \/ snd r = TryFail) /\ queue (fst r) = queue m /\
  (snd r = TryOk <-> owner m = None \/ (owner m = Some p /\ recursive m = true)) /\
  (snd r = TryOk -> owner (fst r) = Some p) /\ (snd r = TryFail -> fst r = m).
Proof. exact trylock. Qed.
Print Assumptions C04_trylock.

(* lock() returns at once iff the mutex is free or already held by the caller (recursive mutex; the plain-mutex re-lock is
   outside the domain); otherwise the caller joins the END of the queue and nothing else changes *)
Theorem C04_lock_outcome : forall fx m p, in_queue p (queue m) = false -> undefined_region m (Lock p) = false ->
  let r := step fx m (Lock p) in
  (snd r = Acquired <-> owner m = None \/ owner m = Some p) /\
  (snd r = Blocked <-> exists o, owner m = Some o /\ o <> p) /\
  (snd r = Acquired \/ snd r = Blocked) /\
  (snd r = Acquired -> owner (fst r) = Some p /\ queue (fst r) = queue m) /\
  (snd r = Blocked -> map a_issuer (queue (fst r)) = map a_issuer (queue m) ++ [p] /\ owner (fst r) = owner m /\ depth (fst r) = depth m).
Proof. exact lock_outcome. Qed.
Print Assumptions C04_lock_outcome.

(* FIFO: the lockers that had to wait are served in the order of their requests (the served ones are a prefix of the
   blocked ones, the rest is the queue, in order) *)
Theorem C04_fifo : forall fx rec ops,
  let tr := run fx (init rec) ops in
  blocked_seq tr = granted_seq tr ++ map a_issuer (queue (exec fx rec ops)).
Proof. intros fx rec ops. exact (fifo_gen fx ops (init rec)). Qed.
Print Assumptions C04_fifo.

(* hand-off is immediate: a free mutex has no waiter, and an unlock that wakes q takes q from the head of the queue *)
Theorem C04_free_no_waiter : forall rec ops, owner (exec true rec ops) = None -> queue (exec true rec ops) = [].
Proof. intros rec ops. destruct (exec_inv rec ops) as (_ & Hb & _). exact Hb. Qed.
Print Assumptions C04_free_no_waiter.

Theorem C04_handoff : forall fx m p m' q, step fx m (Unlock p) = (m', Released (Some q)) ->
  exists a r, queue m = a :: r /\ a_issuer a = q /\ queue m' = r /\ owner m' = Some q.
Proof. exact handoff. Qed.
Print Assumptions C04_handoff.

Theorem C04_rejected_iff_blocked : forall fx m o m',
  step fx m o = (m', Rejected) <-> in_queue (issuer_of o) (queue m) = true /\ m' = m.
Proof. exact rejected_iff_blocked. Qed.
Print Assumptions C04_rejected_iff_blocked.

(* the pinned code violates the statement: recursive mutex, try_lock; lock; unlock by actor 1 -> actor 1 still has one
   outstanding acquisition, yet the mutex is free and actor 2 obtains it *)
Theorem C04_pinned_try_lock_refuted :
  let ops := [TryLock 1; Lock 1; Unlock 1] in
  let tr := run false (init true) ops in
  total (gets 1) tr - total (gives 1) tr = 1 /\ owner (exec false true ops) = None /\
  snd (step false (exec false true ops) (Lock 2)) = Acquired.
Proof. vm_compute. repeat split; reflexivity. Qed.
Print Assumptions C04_pinned_try_lock_refuted.

(* non-vacuity: recursive mutex; 1 takes it twice (try_lock, lock), 2 and 3 queue up, 1 unlocks twice -> 2 is served *)
Example C04_nonvacuous :
  map snd (run true (init true) [TryLock 1; Lock 1; Lock 2; TryLock 3; Lock 3; Unlock 1; Unlock 2; Unlock 1; Unlock 2]) =
    [TryOk; Acquired; Blocked; TryFail; Blocked; Released None; Rejected; Released (Some 2); Released (Some 3)] /\
  held (exec true true [TryLock 1; Lock 1; Lock 2]) 1 = 2 /\
  in_queue 1 (queue (exec true true [TryLock 1; Lock 1; Lock 2])) = false.
Proof. vm_compute. repeat split; reflexivity. Qed.
