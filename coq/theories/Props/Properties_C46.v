(** C46 — File system accounting is consistent.
    Statements; the model is SGV.Plugins.FileSystem (mirrors s4u_FileSystem.cpp after commit "fix: File::write
    truncates the file when it overwrites from inside"), the proofs that are more than an instance of a lemma of
    SGV.Plugins.FileSystemProofs live there. *)
From SGV Require Import Base.Tactics Plugins.FileSystem Plugins.FileSystemProofs.
From SGV Require Import Plugins.FileSystemConc Plugins.FileSystemConcProofs.
Local Open Scope Z_scope.

(* Full statement wanted by the property text:
     forall c capacity ops s', nodup c -> ranged c -> run true (init c capacity) ops = Some s' ->
       used s' = wrap (total (content s')).
   It is FALSE for the real code (C46_two_handles_refuted, C46_write_after_move_refuted, C46_write_after_unlink_refuted,
   C46_move_onto_existing_refuted below: recorded findings).  What is proved is the statement for every history
   (any length, any number of files/File objects, any sizes) in which each operation is [admissible]: the File it
   goes through is in sync with the disk (its path_ is in the content map with the File's cached size_) and a move
   does not target another existing path.  Missing for the full statement: File objects sharing a path, and a File
   used after move/unlink, do not keep size_/path_ up to date in the C++. *)
Theorem C46_used_eq_sum_partial : forall c capacity ops s',
  nodup c -> ranged c ->
  all_admissible true (init c capacity) ops = true ->
  run true (init c capacity) ops = Some s' ->
  used s' = wrap (total (content s')) /\ (total (content s') < W -> used s' = total (content s')).
Proof.
  intros c k ops s' Hn Hr Hadm Hrun.
  apply Inv_used, (run_inv ops _ _ (init_inv c k Hn Hr) Hadm Hrun).
Qed.
Print Assumptions C46_used_eq_sum_partial.

(* the invariant is inductive from any consistent state, not only from a freshly parsed disk *)
Theorem C46_step_preserves_accounting : forall s o s' r,
  Inv s -> admissible s o = true -> step true s o = Some (s', r) -> Inv s'.
Proof. exact step_inv. Qed.
Print Assumptions C46_step_preserves_accounting.

(* a read returns at most the bytes between the position and the end of the file, and advances by what it returns *)
Theorem C46_read_bound : forall s slot n h s' r,
  Inv s -> hget slot (hs s) = Some h -> step true s (Read slot n) = Some (s', r) ->
  0 <= r <= hsize h - hpos h /\ r <= wrap n
  /\ hget slot (hs s') = Some (mkH (hpath h) (hsize h) (hpos h + r))
  /\ content s' = content s /\ used s' = used s
  /\ (in_sync s h = true -> r <= fsize (hpath h) (content s) - hpos h).
Proof. exact read_bound. Qed.
Print Assumptions C46_read_bound.

(* unlinking gives back exactly the size of the file: it disappears from the content, nothing else changes *)
Theorem C46_unlink_returns_size : forall s slot h s' r,
  Inv s -> hget slot (hs s) = Some h -> in_sync s h = true -> step true s (Unlink slot) = Some (s', r) ->
  r = 0 /\ lookup (hpath h) (content s') = None
  /\ fsize (hpath h) (content s) = hsize h
  /\ total (content s') = total (content s) - fsize (hpath h) (content s)
  /\ used s' = wrap (used s - fsize (hpath h) (content s))
  /\ (forall q, q <> hpath h -> lookup q (content s') = lookup q (content s)).
Proof. exact unlink_returns_size. Qed.
Print Assumptions C46_unlink_returns_size.

(* the oracle run on the implementation's observations is exactly the per-step specification ... *)
Theorem C46_oracle_is_spec : forall r, step_ok r = true <-> StepSpec r.
Proof. exact step_ok_spec. Qed.
Print Assumptions C46_oracle_is_spec.

(* ... and the verified model always passes it *)
Theorem C46_model_passes_oracle : forall s o s' r,
  Inv s -> admissible s o = true -> step true s o = Some (s', r) -> step_ok (record s o s' r) = true.
Proof. exact model_passes_oracle. Qed.
Print Assumptions C46_model_passes_oracle.

(* the code as pinned violated the statement inside the discipline (repaired by the fix: commit) *)
Theorem C46_pinned_write_refuted :
  exists c capacity ops s', nodup c /\ ranged c /\ all_admissible false (init c capacity) ops = true
    /\ run false (init c capacity) ops = Some s' /\ viol s' = true.
Proof. exact pinned_write_refuted. Qed.
Print Assumptions C46_pinned_write_refuted.

(* outside the discipline the current code violates the statement: recorded findings *)
Theorem C46_two_handles_refuted :
  exists ops s', run true (init [(0, 100)] 1000000) ops = Some s' /\ viol s' = true.
Proof.
  exists [Open 0 0; Open 1 0; Seek 0 0 2; Write 0 50 true; Seek 1 0 2; Write 1 10 true].
  eexists. split; [vm_compute; reflexivity|]. vm_compute. reflexivity.
Qed.
Print Assumptions C46_two_handles_refuted.
Theorem C46_write_after_move_refuted :
  exists ops s', run true (init [(0, 100)] 1000000) ops = Some s' /\ viol s' = true.
Proof.
  exists [Open 0 0; Move 0 1; Seek 0 0 2; Write 0 10 true].
  eexists. split; [vm_compute; reflexivity|]. vm_compute. reflexivity.
Qed.
Print Assumptions C46_write_after_move_refuted.
Theorem C46_write_after_unlink_refuted :
  exists ops s', run true (init [(0, 100)] 1000000) ops = Some s' /\ viol s' = true.
Proof.
  exists [Open 0 0; Unlink 0; Seek 0 0 2; Write 0 10 true].
  eexists. split; [vm_compute; reflexivity|]. vm_compute. reflexivity.
Qed.
Print Assumptions C46_write_after_unlink_refuted.
(* move onto an existing path: std::map::insert keeps the old entry, the moved file vanishes, used_size_ stays *)
Theorem C46_move_onto_existing_refuted :
  exists ops s', run true (init [(0, 100); (1, 7)] 1000000) ops = Some s' /\ viol s' = true.
Proof.
  exists [Open 0 0; Move 0 1].
  eexists. split; [vm_compute; reflexivity|]. vm_compute. reflexivity.
Qed.
Print Assumptions C46_move_onto_existing_refuted.

(* hypotheses are satisfiable on a non-trivial history: overwrite, append in place, read, move, unlink, re-create *)
Example C46_nonvacuous :
  let c := [(0, 100); (1, 7)] in
  let ops := [Open 0 0; Seek 0 40 0; Write 0 10 false; Read 0 5; Seek 0 20 0; Write 0 100 true; Open 1 1;
              Unlink 1; Close 1; Move 0 2; Close 0; Open 0 2; Read 0 500; Open 1 1; Write 1 3 false] in
  nodup c /\ ranged c /\ all_admissible true (init c 1000) ops = true
  /\ exists s', run true (init c 1000) ops = Some s' /\ used s' = 123 /\ total (content s') = 123.
Proof.
  cbn zeta. split; [repeat constructor; cbn; intuition lia|]. split; [repeat constructor; cbn; rewrite ?W_val; lia|].
  split; [vm_compute; reflexivity|]. eexists. split; [vm_compute; reflexivity|]. split; reflexivity.
Qed.

(** ---------------------------------------------------------------------------------------------------------------
    Several actors on one disk (SGV.Plugins.FileSystemConc): an operation is not atomic, it is a first segment
    ([Start a o]: everything up to the first accounting simcall; it reads the disk state) followed by the updates the C++
    performs one simcall / one statement at a time ([Tick a]: used_size_ += x, used_size_ -= x, replace the content entry,
    erase the content entry), and the segments of different actors interleave in any order (same scheduling round,
    later rounds, later dates).  Discipline [madmissible]: [admissible] as above + no operation in flight concerns a path
    that the starting operation touches (different actors work on different files). *)

(* the segments of one operation, run without interruption, are exactly one [step] of the single-actor model
   (which is tied to the C++ by the differential runs) *)
Theorem C46_segments_refine_step : forall s o,
  step true s o = match decide s o with
                  | Some (s', r, l) => Some (flush s' (op_path s o) l, r)
                  | None => None
                  end.
Proof. exact decide_refines_step. Qed.
Print Assumptions C46_segments_refine_step.
Theorem C46_solo_refines_step : forall s a o,
  mrun (mkM s []) (solo a o) = match step true s o with Some (s', _) => Some (mkM s' []) | None => None end.
Proof. exact solo_refines_step. Qed.
Print Assumptions C46_solo_refines_step.

(* every segment of every admissible interleaving preserves: used size = total of the files - what the operations in
   flight still owe ([psum]), distinct Files in flight, well-formed content *)
Theorem C46_interleaving_preserves_accounting : forall M e M' r,
  MInv M -> madmissible M e = true -> mstep M e = Some (M', r) -> MInv M'.
Proof. exact mstep_inv. Qed.
Print Assumptions C46_interleaving_preserves_accounting.

(* ... hence, from a freshly parsed disk, after ANY interleaving of the segments of the actors' operations: the used size
   is the total of the files corrected by the operations in flight, and equals it as soon as no operation is in flight
   (the audit points of the multi-actor driver).  Partial for the same reason as C46_used_eq_sum_partial. *)
Theorem C46_concurrent_used_eq_sum_partial : forall c capacity es M',
  nodup c -> ranged c ->
  all_madmissible (minit c capacity) es = true ->
  mrun (minit c capacity) es = Some M' ->
  used (ms M') = wrap (total (content (ms M')) - psum (content (ms M')) (pend M'))
  /\ (pend M' = [] ->
      used (ms M') = wrap (total (content (ms M')))
      /\ (total (content (ms M')) < W -> used (ms M') = total (content (ms M')))).
Proof. exact concurrent_used_eq_sum. Qed.
Print Assumptions C46_concurrent_used_eq_sum_partial.

(* non-vacuous: three actors; in one round two of them unlink their file and the third cuts its file from 4000 to 1500
   bytes (seek 1000, write 500); the three decrements are handled first (used 1000 while the files still total 7500,
   three operations in flight), then the remaining updates: used = total = 1500 *)
Example C46_concurrent_nonvacuous :
  let c := [(0, 1000); (1, 2500); (2, 4000)] in
  let es1 := [Start 0 (Open 0 0); Start 1 (Open 16 1); Start 2 (Open 32 2); Start 2 (Seek 32 1000 0);
              Start 0 (Unlink 0); Start 1 (Unlink 16); Start 2 (Write 32 500 false); Tick 0; Tick 1; Tick 2] in
  let es2 := [Tick 0; Tick 1; Tick 2; Tick 2; Tick 2] in
  nodup c /\ ranged c /\ all_madmissible (minit c 1000000) (es1 ++ es2) = true
  /\ (exists M1, mrun (minit c 1000000) es1 = Some M1 /\ length (pend M1) = 3%nat
                 /\ used (ms M1) = 1000 /\ total (content (ms M1)) = 7500)
  /\ exists M', mrun (minit c 1000000) (es1 ++ es2) = Some M' /\ pend M' = []
                /\ used (ms M') = 1500 /\ total (content (ms M')) = 1500.
Proof.
  cbn zeta. split; [repeat constructor; cbn; intuition lia|]. split; [repeat constructor; cbn; rewrite ?W_val; lia|].
  split; [vm_compute; reflexivity|]. split.
  - eexists. split; [vm_compute; reflexivity|]. repeat split; reflexivity.
  - eexists. split; [vm_compute; reflexivity|]. repeat split; reflexivity.
Qed.
