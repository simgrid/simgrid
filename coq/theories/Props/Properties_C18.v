(** C18 — Concurrency limits are enforced without starvation.
    Statements; the model is SGV.Lmm.System (System::expand / enable_var / disable_var / on_disabled_var /
    update_variable_penalty / var_free of src/kernel/lmm/System.cpp, after the repair of update_variable_penalty), the
    proofs that are more than an instance of a lemma are in SGV.Lmm.SystemProofs and SGV.Lmm.DumpProofs.  [run_ops sys0 l] is the state after the history [l] of
    constraint_new / variable_new / expand / update_variable_penalty / variable_free calls; nothing bounds its length. *)
From SGV Require Import Base.Tactics Lmm.System Lmm.SystemProofs Lmm.Dump Lmm.DumpProofs.
From Coq Require Import QArith.
Local Open Scope Z_scope.

(* concurrency_current_ = number of enabled elements that count (weight >= 1); the enabled list holds exactly the
   live variables of positive penalty that use the constraint, each once *)
Theorem C18_counter_exact : forall l c, let s := run_ops sys0 l in
  c_cur (s_cn s c) = count_en s c (c_en (s_cn s c)) /\ NoDup (c_en (s_cn s c)) /\
  (forall v, In v (c_en (s_cn s c)) <->
     v_alive (s_var s v) = true /\ qpos (v_pen (s_var s v)) = true /\ In c (map fst (v_elems (s_var s v)))).
Proof.
  intros l c. destruct (run_ops_inv l) as [[I _] _]. assert (O := i_cn I c). exact (conj (k_cur O) (conj (k_nd_en O) (k_en O))).
Qed.
Print Assumptions C18_counter_exact.

Theorem C18_limit : forall l c, let s := run_ops sys0 l in
  0 <= c_limit (s_cn s c) -> c_cur (s_cn s c) <= c_limit (s_cn s c).
Proof. intro l. destruct (run_ops_inv l) as [[_ [L _]] _]. exact L. Qed.
Print Assumptions C18_limit.

(* a staged variable is not enabled and uses a constraint without free slot *)
Theorem C18_no_starvation : forall l v, let s := run_ops sys0 l in
  v_alive (s_var s v) = true -> qpos (v_staged (s_var s v)) = true ->
  qpos (v_pen (s_var s v)) = false /\
  exists c, In c (map fst (v_elems (s_var s v))) /\ 0 <= c_limit (s_cn s c) /\ c_cur (s_cn s c) = c_limit (s_cn s c).
Proof. exact no_starvation. Qed.
Print Assumptions C18_no_starvation.

Theorem C18_sets_consistent : forall l v c, let s := run_ops sys0 l in
  v_alive (s_var s v) = true -> In c (map fst (v_elems (s_var s v))) ->
  if qpos (v_pen (s_var s v)) then In v (c_en (s_cn s c)) /\ ~ In v (c_dis (s_cn s c))
  else In v (c_dis (s_cn s c)) /\ ~ In v (c_en (s_cn s c)).
Proof. exact sets_consistent. Qed.
Print Assumptions C18_sets_consistent.

(* a variable whose last requested penalty is 0 is neither enabled nor staged (so it cannot be resumed behind the
   caller's back when a slot is released) *)
Theorem C18_penalty0_not_staged : forall l v, let s := run_ops sys0 l in
  qpos (v_want (s_var s v)) = false -> qpos (v_pen (s_var s v)) = false /\ qpos (v_staged (s_var s v)) = false.
Proof. exact penalty0_not_running. Qed.
Print Assumptions C18_penalty0_not_staged.

(* the code as pinned violates the statement (replay of the repaired defects), the repaired code does not *)
Theorem C18_pinned_code_refuted :
  any_starving (fold_left step_pinned witness_c18 sys0) = true /\ any_starving (run_ops sys0 witness_c18) = false.
Proof. split; vm_compute; reflexivity. Qed.
Print Assumptions C18_pinned_code_refuted.

(* the checker applied to the states dumped by the real lmm::System decides the specification *)
Theorem C18_oracle_sound_complete : forall d, c18_codes d = [] <-> dump_spec d.
Proof. exact c18_codes_sound_complete. Qed.
Print Assumptions C18_oracle_sound_complete.

(* non-vacuity: a history in which a variable is staged behind a limit of 1, then enabled when the slot is released *)
Example C18_nonvacuous :
  let s1 := run_ops sys0 [NewC 1 true; NewV 1; NewV 2; Expand 0 0 1; Expand 0 1 1] in
  let s2 := run_ops sys0 [NewC 1 true; NewV 1; NewV 2; Expand 0 0 1; Expand 0 1 1; Pen 0 0] in
  (v_alive (s_var s1 1) = true /\ qpos (v_staged (s_var s1 1)) = true /\ c_cur (s_cn s1 0) = 1) /\
  (qpos (v_pen (s_var s2 1)) = true /\ qpos (v_staged (s_var s2 1)) = false /\ c_cur (s_cn s2 0) = 1 /\ c_en (s_cn s2 0) = [1%nat]).
Proof. vm_compute. repeat split; reflexivity. Qed.
