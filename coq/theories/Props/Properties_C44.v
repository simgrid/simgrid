(** C44 — Unfolding set algebra.  Statements; model SGV.Mc.Unfold (History / EventSet / UnfoldingEvent /
    variable_for_loop), oracles SGV.Mc.UnfoldOracle; the proofs that are more than an instance of a lemma of
    SGV.Mc.UnfoldProofs live there.

    Events are numbers in creation order, [causes e] = get_immediate_causes(), [dep a b] = a->is_dependent_with(b).
    [pick] is the iteration order of the unordered_set of pointers (which element History::Iterator pops next): it is
    universally quantified and may depend on the step and on the whole frontier; all that is assumed is that begin() of
    a non-empty set is a member of it.
      le causes x e  = x is e or a (transitive) cause of e        lt causes x e = x is a strict cause of e
      created_after_causes causes := forall e c, In c (causes e) -> c < e       (an event is built from existing ones) *)
From SGV Require Import Base.Tactics Mc.Unfold Mc.UnfoldOracle Mc.UnfoldProofs.
Local Open Scope nat_scope.

(* History(S).get_all_events() is the causal closure of S *)
Theorem C44_history_is_closure : forall causes pick, created_after_causes causes -> picks_a_member pick ->
  forall s x, In x (get_all_events causes pick s) <-> exists e0, In e0 s /\ le causes x e0.
Proof. exact get_all_events_spec. Qed.
Print Assumptions C44_history_is_closure.

(* iterating a History (contains(), EventSet::contains(History), ...) visits every event of the closure exactly once *)
Theorem C44_history_iteration_each_once : forall causes pick, created_after_causes causes -> picks_a_member pick ->
  forall s, NoDup (history_sequence causes pick s) /\
            forall x, In x (history_sequence causes pick s) <-> exists e0, In e0 s /\ le causes x e0.
Proof. exact history_sequence_spec. Qed.
Print Assumptions C44_history_iteration_each_once.

(* get_all_maximal_events / get_largest_maximal_subset: the events of S that are not a strict cause of an event of S *)
Theorem C44_maximal_def : forall causes pick, created_after_causes causes -> picks_a_member pick ->
  forall s e, In e (get_all_maximal_events causes pick s) <-> In e s /\ forall e', In e' s -> ~ lt causes e e'.
Proof. exact get_all_maximal_events_spec. Qed.
Print Assumptions C44_maximal_def.

Theorem C44_is_maximal_iff_antichain : forall causes pick, created_after_causes causes -> picks_a_member pick ->
  forall s, is_maximal causes pick s = true <-> forall e e', In e s -> In e' s -> ~ lt causes e e'.
Proof. exact is_maximal_spec. Qed.
Print Assumptions C44_is_maximal_iff_antichain.

(* conflicts_with = causally unrelated, and an event below one side only is dependent with the other side
   ([conflict] is this definition, spelled out in UnfoldProofs) *)
Theorem C44_conflict_def : forall causes pick, created_after_causes causes -> picks_a_member pick ->
  forall dep e1 e2, conflicts_with causes dep pick e1 e2 = true <->
    ~ le causes e1 e2 /\ ~ le causes e2 e1 /\
    ((exists x, le causes x e1 /\ ~ le causes x e2 /\ dep x e2 = true) \/
     (exists y, le causes y e2 /\ ~ le causes y e1 /\ dep y e1 = true)).
Proof. exact conflicts_with_spec. Qed.
Print Assumptions C44_conflict_def.

(* what Configuration's constructor accepts: exactly the causally closed, conflict-free sets *)
Theorem C44_config_iff_closed_conflict_free : forall causes pick, created_after_causes causes -> picks_a_member pick ->
  forall dep s, is_valid_configuration causes dep pick s = true <->
    (forall e c, In e s -> le causes c e -> In c s) /\
    (forall e1 e2, In e1 s -> In e2 s -> ~ conflict causes dep e1 e2).
Proof. exact is_valid_configuration_spec. Qed.
Print Assumptions C44_config_iff_closed_conflict_free.

(* variable_for_loop (the odometer used by is_conflict_free / is_compatible_with): every tuple of the product exactly once *)
Theorem C44_variable_for_loop_each_once : forall sizes, sizes <> [] -> Forall (fun n => 0 < n) sizes ->
  NoDup (vfl_all sizes) /\ forall t, In t (vfl_all sizes) <-> Forall2 (fun c n => c < n) t sizes.
Proof. intros sizes A B. rewrite vfl_all_spec by auto. split; [apply tuples_nodup|apply tuples_spec]. Qed.
Print Assumptions C44_variable_for_loop_each_once.
Theorem C44_variable_for_loop_empty : forall sizes, sizes = [] \/ Exists (fun n => n = 0) sizes -> vfl_all sizes = [].
Proof. exact vfl_all_empty. Qed.
Print Assumptions C44_variable_for_loop_empty.

(* subsets_iterator / powerset_iterator / maximal_subsets_iterator.
   _partial: these three state machines are NOT modelled; what is proved is the soundness of the oracle that judges every
   observed output of the real iterators: if [enum_ok out reference] accepts, the yielded sets (each canonicalised as an
   increasing list) are duplicate-free and are exactly the qualifying sets.  Missing for the full statement: Gallina models
   of the three increment() functions with a proof that they always produce an accepted output. *)
Theorem C44_subsets_each_once_partial : forall k l out, NoDup l -> enum_ok out (ksubsets k l) = true ->
  NoDup out /\ forall s, In s out <-> sublist s l /\ length s = k.
Proof. exact subsets_oracle. Qed.
Print Assumptions C44_subsets_each_once_partial.
Theorem C44_powerset_each_once_partial : forall l out, NoDup l -> enum_ok out (allsubsets l) = true ->
  NoDup out /\ forall s, In s out <-> sublist s l.
Proof. exact powerset_oracle. Qed.
Print Assumptions C44_powerset_each_once_partial.
Theorem C44_maximal_subsets_each_once_partial : forall causes pick events k out,
  created_after_causes causes -> picks_a_member pick -> NoDup events ->
  enum_ok out (maxsub_ref causes pick events k) = true ->
  NoDup out /\ forall s, In s out <->
    sublist s events /\ (forall e e', In e s -> In e' s -> ~ lt causes e e') /\ length s <= k.
Proof. exact maxsub_oracle. Qed.
Print Assumptions C44_maximal_subsets_each_once_partial.

(* non-vacuity: 0 <- 1 <- 3, 0 <- 2, 4 alone;  1 and 2 are dependent (hence in conflict), the rest independent *)
Definition ex_causes (e : nat) : eset := match e with 1 => [0] | 2 => [0] | 3 => [1] | _ => [] end.
Definition ex_dep (a b : nat) : bool := ((a =? 1) && (b =? 2)) || ((a =? 2) && (b =? 1)).
Example C44_nonvacuous :
  created_after_causes ex_causes /\ picks_a_member (pick_mode 1) /\
  get_all_events ex_causes (pick_mode 1) [3; 4] = [0; 1; 3; 4] /\
  get_all_maximal_events ex_causes (pick_mode 0) [0; 1; 3; 4] = [3; 4] /\
  is_valid_configuration ex_causes ex_dep (pick_mode 2) [0; 1; 3; 4] = true /\
  is_valid_configuration ex_causes ex_dep (pick_mode 2) [0; 1; 2] = false /\     (* 1 # 2 *)
  is_valid_configuration ex_causes ex_dep (pick_mode 2) [1; 3] = false /\        (* not closed *)
  conflicts_with ex_causes ex_dep (pick_mode 0) 3 2 = true /\                    (* inherited through 1 *)
  vfl_all [2; 3] = [[0; 0]; [0; 1]; [0; 2]; [1; 0]; [1; 1]; [1; 2]] /\
  enum_ok [[1; 2]; [0; 1]; [0; 2]] (ksubsets 2 [0; 1; 2]) = true /\
  enum_ok [[1; 2]; [0; 1]; [0; 1]] (ksubsets 2 [0; 1; 2]) = false /\
  enum_ok [[]; [3]; [4]; [2]; [3; 4]; [2; 3]; [2; 4]; [2; 3; 4]] (maxsub_ref ex_causes (pick_mode 0) [1; 2; 3; 4] 3) = false /\
  enum_ok [[]; [1]; [3]; [4]; [2]; [3; 4]; [2; 3]; [2; 4]; [1; 2]; [1; 4]; [2; 3; 4]; [1; 2; 4]]
          (maxsub_ref ex_causes (pick_mode 0) [1; 2; 3; 4] 3) = true.
Proof.
  split; [|split].
  - intros e c. unfold ex_causes. destruct e as [|[|[|[|e]]]]; simpl; intros H; repeat (destruct H as [<-|H]; [lia|]); tauto.
  - intros k s Hs. unfold pick_mode. destruct s as [|x s]; [congruence|]. apply exists_last in Hs.
    destruct Hs as (l & a & ->). rewrite last_last. apply in_or_app; simpl; auto.
  - vm_compute. repeat split.
Qed.
