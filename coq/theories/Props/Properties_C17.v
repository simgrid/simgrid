(** C17 — Selective (lazy) solving equals full recomputation.
    Statements; the proofs that are more than an instance of a lemma of SGV.Lmm.SelectiveProofs live there.
    The model is SGV.Lmm.Selective: the selective-update members of lmm::System (modified_constraint_set,
    Variable::visited_, visited_counter_ modulo 2^32) and every place of src/kernel/lmm/System.cpp that updates them
    (update_modified_cnst_set, update_modified_cnst_set_rec, update_modified_cnst_set_from_variable,
    remove_all_modified_cnst_set, make_constraint_inactive; called from expand, var_free, update_variable_bound,
    update_variable_penalty, update_constraint_bound, enable_var, disable_var, solve), on top of the concurrency model
    SGV.Lmm.System.  [x_run all_fixes k0 l] is the state after the history [l] of API calls on a fresh system whose
    visited_counter_ starts at [k0]; nothing bounds the length of [l], so the counter wraps in the histories covered.
    [XAge t] is a test device (the counter is moved to [t] as solves of an unrelated constraint would do), also covered.
    Proofs: SGV.Lmm.SelectiveProofs.

    What is NOT proved: that the rates computed by MaxMin on the modified set alone are numerically those of a full
    recomputation.  That needs uniqueness of the max-min characterisation (C16_unique, not available); the full statement is
      forall l, maxmin_solve (restriction to x_mod) agrees with maxmin_solve (whole system) on the variables of x_mod.
    It is checked by the correspondence of checks/C17.py (selective / full / wrapped counter / fresh system at every solve).
    C17_local_partial and C17_selective_eq_full_partial give the part that does not need uniqueness. *)
From SGV Require Import Base.Tactics Lmm.System Lmm.SystemProofs Lmm.Selective Lmm.SelectiveProofs Lmm.Maxmin.
From Coq Require Import QArith.
Local Open Scope Z_scope.

(* after any history the modified set is closed: a variable enabled on a constraint of the set has all its constraints in it *)
Theorem C17_modified_closed : forall k0, 1 <= k0 < W32 -> forall l, let x := x_run all_fixes k0 l in
  forall c v c', In c (x_mod x) -> In v (c_en (s_cn (x_base x) c)) -> In c' (map fst (v_elems (s_var (x_base x) v))) -> In c' (x_mod x).
Proof. exact modified_closed. Qed.
Print Assumptions C17_modified_closed.

(* i.e. it is a union of connected components of the graph "some variable is enabled on both constraints" *)
Theorem C17_modified_components : forall k0, 1 <= k0 < W32 -> forall l, let x := x_run all_fixes k0 l in
  forall c c', (exists v, In v (c_en (s_cn (x_base x) c)) /\ In v (c_en (s_cn (x_base x) c'))) -> (In c (x_mod x) <-> In c' (x_mod x)).
Proof. exact modified_components. Qed.
Print Assumptions C17_modified_components.

(* it contains the constraints touched by the API calls since the last solve (Selective.touched_by / x_var_free; a constraint
   that lost all its elements is forgotten, as make_constraint_inactive does) *)
Theorem C17_touched_in_set : forall k0, 1 <= k0 < W32 -> forall l, let x := x_run all_fixes k0 l in
  forall c, In c (x_touched x) -> In c (x_mod x).
Proof. intros k0 Hk l x c H. destruct (x_run_inv k0 l Hk) as [_ [_ [_ [_ T]]]]. apply T. exact H. Qed.
Print Assumptions C17_touched_in_set.

(* the set is duplicate-free and made of existing constraints; the counter never is 0 *)
Theorem C17_set_wellformed : forall k0, 1 <= k0 < W32 -> forall l, let x := x_run all_fixes k0 l in
  NoDup (x_mod x) /\ (forall c, In c (x_mod x) -> (c < s_nc (x_base x))%nat) /\ 1 <= x_cnt x < W32.
Proof. intros k0 Hk l. destruct (x_run_inv k0 l Hk) as [_ [[_ [_ [[W1 W2] _]]] [B1 _]]]. exact (conj W1 (conj W2 B1)). Qed.
Print Assumptions C17_set_wellformed.

(* the bookkeeping never changes the system underneath: it is the System.v state of the same history (C15/C18 apply) *)
Theorem C17_base_is_system : forall k0, 1 <= k0 < W32 -> forall l, x_base (x_run all_fixes k0 l) = run_ops sys0 (map proj l).
Proof. intros k0 _ l. apply x_run_base. Qed.
Print Assumptions C17_base_is_system.

(* locality: when two groups of constraints share no consuming variable, an allocation has the bottleneck property on the
   whole system iff it has it on each group *)
Theorem C17_local_partial : forall tol l1 l2 vars val, separated l1 l2 vars ->
  bottleneck_b tol (mkMsys (l1 ++ l2) vars) val = bottleneck_b tol (mkMsys l1 vars) val && bottleneck_b tol (mkMsys l2 vars) val.
Proof. exact bottleneck_split. Qed.
Print Assumptions C17_local_partial.

(* hence: rates that are feasible and bottlenecked on the re-solved group, kept rates that were so on the other group, give
   an allocation that is feasible and bottlenecked on the whole system — the characterisation that a full recomputation meets *)
Theorem C17_selective_eq_full_partial : forall tol l1 l2 vars val, separated l1 l2 vars ->
  (alloc_feasible_b tol (mkMsys l1 vars) val && bottleneck_b tol (mkMsys l1 vars) val = true /\
   alloc_feasible_b tol (mkMsys l2 vars) val && bottleneck_b tol (mkMsys l2 vars) val = true) <->
  alloc_feasible_b tol (mkMsys (l1 ++ l2) vars) val && bottleneck_b tol (mkMsys (l1 ++ l2) vars) val = true.
Proof. exact selective_char_split. Qed.
Print Assumptions C17_selective_eq_full_partial.

(* the checkers used on the implementation's dumps decide closure *)
Theorem C17_oracle_sound_complete : forall en el M, find_open en el M = None <->
  (forall c v c', In c M -> In v (en c) -> In c' (el v) -> In c' M).
Proof. exact find_open_none_iff. Qed.
Print Assumptions C17_oracle_sound_complete.

(* the code before each of the three repairs (c05940b907, e1052b4b48, 142d91a19d) leaves a non-closed set; the current code does not *)
Theorem C17_pinned_code_refuted :
  closed_after (mkFixes false true true) witness_from = false /\ closed_after all_fixes witness_from = true /\
  closed_after (mkFixes true false true) witness_expand = false /\ closed_after all_fixes witness_expand = true /\
  closed_after (mkFixes true true false) witness_wrap = false /\ closed_after all_fixes witness_wrap = true.
Proof. vm_compute. repeat split; reflexivity. Qed.
Print Assumptions C17_pinned_code_refuted.

(* non-vacuity: the counter started 2 solves before its wrap; a change of one constraint drags in the constraint that shares a
   variable with it and not the third one; after the wrap the counter is 1 again and the same holds *)
Example C17_nonvacuous :
  let h := [XNewC (-1) true; XNewC (-1) true; XNewC (-1) true; XNewV 1; XNewV 1; XExpand 0 0 1; XExpand 1 0 1; XExpand 2 1 1; XSolve;
            XCBound 0] in
  let x1 := x_run all_fixes (W32 - 2) h in
  let x2 := x_run all_fixes (W32 - 2) (h ++ [XSolve; XCBound 1]) in
  (x_mod x1 = [0%nat; 1%nat] /\ x_cnt x1 = W32 - 1 /\ c_en (s_cn (x_base x1) 0) = [0%nat] /\ x_touched x1 = [0%nat]) /\
  (x_mod x2 = [1%nat; 0%nat] /\ x_cnt x2 = 1 /\ x_stamp x2 0%nat = 1) /\
  separated [mkMcn 1 true [(0%nat, 1%Q)]] [mkMcn 1 true [(1%nat, 1%Q)]] [mkMvar 1 (-1); mkMvar 1 (-1)].
Proof.
  vm_compute. repeat split; try reflexivity. intros v [A B]. destruct v as [|[|v]]; vm_compute in A, B; discriminate.
Qed.
