(** C27 — Values with units are parsed to the documented magnitudes.
    Only statements; proofs live in SGV.Xbt.UnitsProofs.  [table]/[default_unit]/[parse_impl] are built from
    Gen/UnitsTable.v, which gen/units.py regenerates from src/xbt/xbt_parse_units.cpp on every run;
    [doc_units]/[doc_default] are the hand-written documented units (SI and IEC prefixes, bits = 1/8 byte). *)
From SGV Require Import Base.Tactics Xbt.Strtod Xbt.Units Xbt.UnitsProofs.
From Coq Require Import QArith.
Local Open Scope Z_scope.

(* the unit table the source builds (constructor mirrored on the regenerated tuples) is, as a finite map over ALL
   strings, the documented one: same units, same multipliers, nothing else accepted *)
Theorem C27_table_is_documented : forall kind u, lookup (table kind) u = lookup (doc_units kind) u.
Proof. exact table_is_documented. Qed.
Print Assumptions C27_table_is_documented.

Theorem C27_default_unit_is_documented : forall kind, default_unit kind = doc_default kind.
Proof. exact default_is_documented. Qed.
Print Assumptions C27_default_unit_is_documented.

(* every decimal number (spaces, sign, digits, '.', digits, exponent: all lengths) followed by any documented unit
   of the kind is converted to value(number) * documented multiplier — exact rational arithmetic *)
Theorem C27_value : forall kind d u m,
  wf d -> erange (dvalue d) = false -> lookup (doc_units kind) u = Some m ->
  parse_impl kind (render d ++ u) = Val (dvalue d) m.
Proof. exact value_with_unit. Qed.
Print Assumptions C27_value.

(* a number without unit takes the default unit of the kind *)
Theorem C27_value_default_unit : forall kind d m,
  wf d -> erange (dvalue d) = false -> lookup (doc_units kind) (doc_default kind) = Some m ->
  parse_impl kind (render d) = Val (dvalue d) m.
Proof. exact value_default_unit. Qed.
Print Assumptions C27_value_default_unit.

(* a suffix that is not a documented unit of the kind is rejected (suffixes that strtod would read as more of the
   number — starting with a digit, '.', 'x', a sign, a space or an exponent — are excluded by unit_shape) *)
Theorem C27_unknown_unit_rejected : forall kind d u,
  wf d -> unit_shape u = true -> u <> [] -> lookup (doc_units kind) u = None ->
  parse_impl kind (render d ++ u) = Reject.
Proof. exact unknown_unit_rejected. Qed.
Print Assumptions C27_unknown_unit_rejected.

(* malformed numbers: a string that does not start with a digit, ".digit", inf or nan (after spaces and a sign) *)
Theorem C27_no_number_rejected : forall kind s, starts_number s = false -> parse_impl kind s = Reject.
Proof. exact no_number_rejected. Qed.
Print Assumptions C27_no_number_rejected.

(* numbers outside binary64's range (errno = ERANGE) are rejected whatever the unit *)
Theorem C27_range_rejected : forall kind d u,
  wf d -> unit_shape u = true -> erange (dvalue d) = true -> parse_impl kind (render d ++ u) = Reject.
Proof. exact range_rejected. Qed.
Print Assumptions C27_range_rejected.

(* the oracle run on the implementation's observations accepts only conforming ones *)
Theorem C27_oracle_sound : forall kind s o, c27_ok kind s o = true -> conforms (parse_impl kind s) o.
Proof. exact oracle_sound. Qed.
Print Assumptions C27_oracle_sound.

(* hypotheses are satisfiable: " -12.50e+3" followed by "kBps" *)
Example C27_nonvacuous :
  let d := {| d_sp := [32]; d_sign := Some true; d_ip := [49; 50]; d_dot := true; d_fp := [53; 48];
              d_exp := Some (101, Some false, [51]) |} in
  wf d /\ erange (dvalue d) = false /\ lookup (doc_units 2) [107; 66; 112; 115] = Some (1000 # 1) /\
  parse_impl 2 (render d ++ [107; 66; 112; 115]) = Val (-12500 # 1) (1000 # 1) /\
  unit_shape [75; 66; 112; 115] = true /\ lookup (doc_units 2) [75; 66; 112; 115] = None /\
  starts_number [46; 66] = false.
Proof.
  cbv zeta. split; [unfold wf, all; cbn [d_sp d_sign d_ip d_dot d_fp d_exp]; repeat split; discriminate|].
  repeat (split; [vm_compute; reflexivity|]). vm_compute. reflexivity.
Qed.

(* range: "1e309" is rejected; hexadecimal floats and inf are numbers for strtod and the model says so *)
Example C27_range_nonvacuous :
  let d := {| d_sp := []; d_sign := None; d_ip := [49]; d_dot := false; d_fp := []; d_exp := Some (101, None, [51; 48; 57]) |} in
  wf d /\ erange (dvalue d) = true.
Proof.
  cbv zeta. split; [unfold wf, all; cbn [d_sp d_sign d_ip d_dot d_fp d_exp]; repeat split; discriminate|].
  vm_compute. reflexivity.
Qed.
Example C27_hex_accepted : parse_impl 1 [48; 120; 49; 46; 56; 112; 49; 75; 105; 66] = Val (3 # 1) (1024 # 1).
Proof. vm_compute. reflexivity. Qed.
Example C27_inf_accepted : parse_impl 0 [45; 105; 110; 102; 115] = Inf true.
Proof. vm_compute. reflexivity. Qed.
