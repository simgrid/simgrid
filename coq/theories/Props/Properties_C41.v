(** C41 — Reported counter-examples are replayable: the recorded path survives RecordTrace::to_string followed by the
    RecordTrace(string) constructor.
    Statements; the proofs that are more than an instance of a lemma of SGV.Mc.RecordProofs live there. *)
From Coq Require Import NArith.
From SGV Require Import Base.Tactics Mc.Record Mc.RecordProofs.
Local Open Scope Z_scope.

(* any non-empty path, of any length, with actor ids and times_considered of any size *)
Theorem C41_path_codec : forall p, p <> [] -> parse (to_string p) = Some p.
Proof. exact path_codec. Qed.
Print Assumptions C41_path_codec.

(* the corner the statement excludes: a failure before the first transition is reported with the empty path, which the
   constructor refuses ("Could not parse record path"); simgrid then treats model-check/replay:'' as "no replay" *)
Theorem C41_empty_path_rejected : to_string [] = [] /\ parse [] = None.
Proof. split; reflexivity. Qed.
Print Assumptions C41_empty_path_rejected.

Example C41_nonvacuous :
  to_string [(1%N, 0%N); (3%N, 2%N); (10%N, 0%N)] = [49; 59; 51; 47; 50; 59; 49; 48] /\
  parse [49; 59; 51; 47; 50; 59; 49; 48] = Some [(1%N, 0%N); (3%N, 2%N); (10%N, 0%N)].
Proof. split; vm_compute; reflexivity. Qed.
