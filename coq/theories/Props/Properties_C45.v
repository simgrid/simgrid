(** C45 — Random draws are in range, unbiased and portable (src/xbt/random.cpp, XbtRandom).
    Statements; the proofs that are more than an instance of a lemma of SGV.Xbt.RandomProofs live there.
    [limit_of r] is the rejection bound max() - max() % range for a range of r values, [accept r v] what a raw 32-bit
    output v becomes (rejected / residue), [draw_int vals min max] is XbtRandom::uniform_int run on the stream [vals] of
    raw generator outputs. *)
From SGV Require Import Base.Tactics Xbt.Random Xbt.RandomProofs.
From Coq Require Import QArith.
Local Open Scope Z_scope.

(* for ALL ranges of 1 .. 2^32-1 values: the bound is a positive multiple of the range, and more than half of the
   raw outputs are accepted (so the loop ends with probability 1) *)
Theorem C45_limit_multiple : forall r, 1 <= r <= GMAX ->
  (r | limit_of r) /\ 0 < limit_of r <= GMAX /\ GMAX < 2 * limit_of r.
Proof. exact limit_multiple. Qed.
Print Assumptions C45_limit_multiple.

(* unbiased: the raw outputs that yield residue k are exactly k + j*r for 0 <= j < limit/r — the same number
   limit/r of preimages for every k *)
Theorem C45_unbiased : forall r k v, 1 <= r <= GMAX -> 0 <= k < r -> 0 <= v ->
  (accept r v = Some k <-> exists j, 0 <= j < limit_of r / r /\ v = k + j * r).
Proof. exact unbiased. Qed.
Print Assumptions C45_unbiased.

(* uniform_int returns min + residue of the first accepted raw output (unsigned/unsigned long/int casts included) *)
Theorem C45_draw_is_first_accepted : forall vals min max x rest,
  is_int min -> is_int max -> min <= max -> max - min < GMAX ->
  draw_int vals min max = Some (x, rest) ->
  exists rejected v, vals = rejected ++ v :: rest /\
    Forall (fun w => accept (max - min + 1) w = None) rejected /\ accept (max - min + 1) v = Some (x - min).
Proof. exact draw_int_spec. Qed.
Print Assumptions C45_draw_is_first_accepted.

Theorem C45_in_range : forall vals min max x rest,
  is_int min -> is_int max -> min <= max -> Forall raw vals ->
  draw_int vals min max = Some (x, rest) -> min <= x <= max.
Proof. exact draw_int_in_range. Qed.
Print Assumptions C45_in_range.

(* min = INT_MIN, max = INT_MAX: no rejection, a bijection of the 2^32 raw outputs *)
Theorem C45_full_range_case : forall v rest, raw v ->
  draw_int (v :: rest) INT_MIN INT_MAX = Some (v - 2 ^ 31, rest).
Proof. exact full_range_case. Qed.
Print Assumptions C45_full_range_case.

(* the draw is defined as soon as the stream holds one acceptable raw output (stream exhaustion is the only None) *)
Theorem C45_draw_defined : forall vals min max, is_int min -> is_int max -> min <= max ->
  Exists (fun v => v < limit_of (max - min + 1)) vals -> vals <> [] -> draw_int vals min max <> None.
Proof. exact draw_int_total. Qed.
Print Assumptions C45_draw_defined.

(* uniform_real: numerator in [0, divisor - 1], hence min + (max - min) * numerator / divisor in [min, max) — over Q;
   the binary64 evaluation of that expression is checked by the correspondence only (partial) *)
Theorem C45_real_in_range_partial : forall vals n rest mn mx,
  Forall raw vals -> draw_numerator vals = Some (n, rest) -> (mn <= mx)%Q ->
  0 <= n < GMAX /\ (mn <= real_q mn mx n)%Q /\ (real_q mn mx n <= mx)%Q /\ ((mn < mx)%Q -> (real_q mn mx n < mx)%Q).
Proof.
  intros vals n rest mn mx F D Hle. pose proof (numerator_range _ _ _ F D) as Hn.
  split; [exact Hn|]. now apply real_in_range.
Qed.
Print Assumptions C45_real_in_range_partial.

(* hypotheses are satisfiable: range of 6 values, a rejected raw output followed by an accepted one *)
Example C45_nonvacuous :
  limit_of 6 = 4294967292 /\ accept 6 4294967293 = None /\ accept 6 4294967291 = Some 5 /\
  draw_int [4294967293; 4294967291; 7] 1 6 = Some (6, [7]) /\
  draw_int [7] INT_MIN INT_MAX = Some (7 - 2 ^ 31, []) /\
  draw_numerator [4294967295; 12] = Some (12, []).
Proof. vm_compute. repeat split; reflexivity. Qed.

(* the sequence is defined by the model alone: first outputs of MT19937 seeded with 5489 *)
Example C45_mt19937_reference : run_c45_raw [5489; 3] = [3499211612; 581869302; 3890346734].
Proof. unfold run_c45_raw, mt_outputs, mt_init. rewrite mt_init_go_mask. vm_compute. reflexivity. Qed.
