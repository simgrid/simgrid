(** C38 — Model-checker reductions are sound.
    Statements; the proofs that are more than an instance of a lemma of SGV.Mc.ExploreProofs and SGV.Mc.SleepSet live there.
    What is proved: (1) the reference explorer (the oracle against which simgrid-mc is compared, program by program) returns
    exactly the outcomes of the reachable terminal states of the reference semantics and flags a deadlock / an assertion
    failure iff one is reachable (for every program and every fuel that suffices); (2) the classical sleep-set theorem on an
    abstract transition system with a commuting independence relation.  The race analyses of DPOR/SDPOR/ODPOR/UDPOR are not
    mechanised: their soundness is checked per generated program by checks/C38.py. *)
From SGV Require Import Base.Tactics Mc.McRef Mc.Explore Mc.ExploreProofs Mc.SleepSet.
Local Open Scope Z_scope.

(* the visited set is exactly the set of reachable states *)
Theorem C38_ref_states : forall fuel P R,
  explore fuel P = Some R -> forall s, In s (r_states R) <-> reachable P s.
Proof. intros fuel P R He. destruct (explore_inv _ _ _ He) as (V & HV & ->). exact HV. Qed.
Print Assumptions C38_ref_states.

(* the reported outcomes are exactly the outcomes of the reachable terminal states *)
Theorem C38_ref_complete : forall fuel P R,
  explore fuel P = Some R -> forall o, reachable_terminal P o <-> In o (r_outcomes R).
Proof. exact explore_outcomes. Qed.
Print Assumptions C38_ref_complete.

Theorem C38_ref_deadlock : forall fuel P R,
  explore fuel P = Some R -> (r_deadlock R = true <-> deadlock_reachable P).
Proof.
  intros fuel P R He. destruct (explore_inv _ _ _ He) as (V & HV & ->).
  exact (existsb_reachable P V _ _ HV (deadlocked_spec P)).
Qed.
Print Assumptions C38_ref_deadlock.

Theorem C38_ref_failure : forall fuel P R,
  explore fuel P = Some R -> (r_failure R = true <-> failure_reachable P).
Proof.
  intros fuel P R He. destruct (explore_inv _ _ _ He) as (V & HV & ->).
  exact (existsb_reachable P V _ _ HV (fun s => Z.eqb_eq (s_err s) 1)).
Qed.
Print Assumptions C38_ref_failure.

(* programs that leave the modelled fragment (unlock by a non-owner, join on oneself, ...) are recognised and skipped *)
Theorem C38_ref_invalid : forall fuel P R,
  explore fuel P = Some R -> (r_invalid R = true <-> invalid_reachable P).
Proof.
  intros fuel P R He. destruct (explore_inv _ _ _ He) as (V & HV & ->).
  exact (existsb_reachable P V _ _ HV (fun s => Z.eqb_eq (s_err s) 2)).
Qed.
Print Assumptions C38_ref_invalid.

(* sleep sets: with an independence relation that commutes and neither enables nor disables, the sleep-set pruned search
   visits a dead state (terminal or deadlock) iff it is reachable *)
Theorem C38_sleepset_sound :
  forall (St T : Type) (T_eq_dec : forall a b : T, {a = b} + {a <> b}) (step : St -> T -> option St) (en : St -> list T),
  (forall s t, In t (en s) <-> step s t <> None) ->
  forall indep : T -> T -> bool,
  (forall a b, indep a b = indep b a) ->
  (forall s a b s1 s2, indep a b = true -> step s a = Some s1 -> step s b = Some s2 ->
                       exists s3, step s1 b = Some s3 /\ step s2 a = Some s3) ->
  (forall s a b s1 s3, indep a b = true -> step s a = Some s1 -> step s1 b = Some s3 -> exists s2, step s b = Some s2) ->
  forall s d, dead St T en d ->
    ((exists w, run St T step s w = Some d) <-> visits St T step en indep s [] d).
Proof. exact sleep_sets_preserve_dead_states. Qed.
Print Assumptions C38_sleepset_sound.

(* ... and, with a non-empty sleep set, as long as no sleeping transition could have been moved to the front of the path *)
Theorem C38_sleepset_complete :
  forall (St T : Type) (T_eq_dec : forall a b : T, {a = b} + {a <> b}) (step : St -> T -> option St) (en : St -> list T),
  (forall s t, In t (en s) <-> step s t <> None) ->
  forall indep : T -> T -> bool,
  (forall a b, indep a b = indep b a) ->
  (forall s a b s1 s2, indep a b = true -> step s a = Some s1 -> step s b = Some s2 ->
                       exists s3, step s1 b = Some s3 /\ step s2 a = Some s3) ->
  (forall s a b s1 s3, indep a b = true -> step s a = Some s1 -> step s1 b = Some s3 -> exists s2, step s b = Some s2) ->
  forall w s Z d, run St T step s w = Some d -> dead St T en d ->
    (forall z, In z Z -> initb T T_eq_dec indep z w = false) -> visits St T step en indep s Z d.
Proof. exact sleep_set_search_complete. Qed.
Print Assumptions C38_sleepset_complete.

(** Non-vacuity *)
(* two actors locking two mutexes in opposite orders: 44 reachable states, a reachable deadlock, two outcomes *)
Definition ex_prog : prog := decode_prog
  [2; 1;1;1;1; 2;2;2;2; 5; 1;0;0; 1;1;0; 21;0;1; 2;1;0; 2;0;0;  5; 1;1;0; 1;0;0; 21;0;2; 2;0;0; 2;1;0].
Example C38_ref_nonvacuous :
  exists R, explore 1000 ex_prog = Some R /\ length (r_states R) = 44%nat /\ r_deadlock R = true /\ r_failure R = false
            /\ In [0;0;0;0;5;0;0;0] (r_outcomes R) /\ In [0;0;0;0;7;0;0;0] (r_outcomes R).
Proof. apply opt_ex. vm_compute. repeat split; auto. Qed.

(* the hypotheses of the sleep-set theorem are satisfiable: two independent one-shot transitions *)
Example C38_sleepset_nonvacuous :
  visits (bool * bool) bool ex_step ex_en ex_indep (false, false) [] (true, true) /\
  dead (bool * bool) bool ex_en (true, true).
Proof.
  split; [|reflexivity].
  apply (proj1 (C38_sleepset_sound _ _ Bool.bool_dec ex_step ex_en ex_en_spec ex_indep ex_indep_sym ex_indep_comm
                  ex_indep_back (false, false) (true, true) eq_refl)).
  exists [true; false]. reflexivity.
Qed.
