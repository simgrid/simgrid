(** C36 — Each rank has its own copy of global variables (mmap privatization logic).
    Statements; the proofs that are more than an instance of a lemma of SGV.Smpi.PrivProofs live there.

    [run_impl init t] = the values the reads of trace [t] return in the model of smpi_switch_data_segment (one window,
    one backing store per rank, smpi_loaded_page); [run_spec init t] = the value every read must return: the reading
    rank's own last write to that cell, or the initial value.  dlopen privatization (one copy of the binary per rank,
    made by the dynamic loader) has no logic to model: it is judged by runs only (checks/C36.py). *)
From SGV Require Import Base.Tactics Smpi.Priv Smpi.PrivProofs.
Local Open Scope Z_scope.

(* for ANY interleaving of rank slices, writes, reads and library switches to other actors' segments: if every access
   is made while the last switch was the hook for the running rank (ActorImpl::yield / switch-back), each read returns
   the reader's own last write *)
Theorem C36_read_own_last_write : forall init t,
  disciplined t = true -> run_impl init t = run_spec init t.
Proof.
  intros init t HD. apply (run_from_spec init t _ [] (-1) false); [|exact HD].
  split; [reflexivity|]. split; [reflexivity|discriminate].
Qed.
Print Assumptions C36_read_own_last_write.

(* what the specification says, spelled out: another rank's write is invisible, the own write is read back, and a
   cell never written by the rank still has its initial value *)
Theorem C36_spec_other_rank_invisible : forall hist r' a' v r a init,
  r' <> r -> own_last ((r', a', v) :: hist) r a init = own_last hist r a init.
Proof. exact own_last_other. Qed.
Print Assumptions C36_spec_other_rank_invisible.

Theorem C36_spec_own_write_read_back : forall hist r a v init, own_last ((r, a, v) :: hist) r a init = v.
Proof. exact own_last_same. Qed.
Print Assumptions C36_spec_own_write_read_back.

Theorem C36_spec_initial_value : forall hist r a init,
  (forall v, ~ In (r, a, v) hist) -> own_last hist r a init = init a.
Proof. exact own_last_never. Qed.
Print Assumptions C36_spec_initial_value.

(* the hypothesis is needed: one skipped hook, or one missing switch-back after touching another actor's segment, and
   a rank reads a foreign value *)
Theorem C36_skipped_hook_refuted :
  exists t, run_impl (fun _ => 0) t <> run_spec (fun _ => 0) t /\
            run_impl (fun _ => 0) t = [(0, 1, 20)] /\ run_spec (fun _ => 0) t = [(0, 1, 10)].
Proof.
  exists [ESwitch 0; EWrite 1 10; ESwitch 1; EWrite 1 20; ESkip 0; ERead 1].
  split; [vm_compute; discriminate|split; vm_compute; reflexivity].
Qed.
Print Assumptions C36_skipped_hook_refuted.

Theorem C36_foreign_not_restored_refuted :
  exists t, run_impl (fun _ => 0) t = [(0, 1, 20)] /\ run_spec (fun _ => 0) t = [(0, 1, 10)].
Proof.
  exists [ESwitch 1; EWrite 1 20; ESwitch 0; EWrite 1 10; EForeign 1; ERead 1].
  split; vm_compute; reflexivity.
Qed.
Print Assumptions C36_foreign_not_restored_refuted.

(* the oracle used on implementation observations is sound *)
Theorem C36_oracle_sound : forall x y, obs_eqb x y = true -> x = y.
Proof. exact obs_eqb_sound. Qed.
Print Assumptions C36_oracle_sound.

(* the hypothesis holds on a non-trivial interleaving: three ranks, interleaved writes to the same cell, a copy
   callback touching another segment followed by the switch back *)
Example C36_nonvacuous :
  let t := [ESwitch 0; EWrite 1 10; EWrite 2 11; ESwitch 1; EWrite 1 20; EForeign 0; ESwitch 1; ERead 1;
            ESwitch 2; ERead 1; EWrite 1 30; ESwitch 0; ERead 1; ERead 2; ESwitch 2; ERead 1] in
  disciplined t = true /\ run_impl (fun a => 7 * a) t = [(1, 1, 20); (2, 1, 7); (0, 1, 10); (0, 2, 11); (2, 1, 30)].
Proof. split; vm_compute; reflexivity. Qed.
