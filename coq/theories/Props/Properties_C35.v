(** C35 — Private parts of partially shared buffers are transferred exactly.
    Statements; the proofs that are more than an instance of a lemma of SGV.Smpi.BlocksProofs live there. *)
From SGV Require Import Base.Tactics Smpi.Blocks Smpi.BlocksProofs.
Local Open Scope Z_scope.

(* every byte of the message lying in a private block is kept (re-based at the message start), nothing else,
   whatever the offset of the message inside the allocation *)
Theorem C35_shift_covers : forall vec off size x,
  0 <= off -> 0 <= size ->
  (covered (shift vec off size) x <-> 0 <= x < size /\ covered vec (x + off)).
Proof. exact shift_covers. Qed.
Print Assumptions C35_shift_covers.

Theorem C35_merge_is_intersection : forall s d x,
  sorted s -> sorted d -> (covered (merge s d) x <-> covered s x /\ covered d x).
Proof. exact merge_is_intersection. Qed.
Print Assumptions C35_merge_is_intersection.

(* the blocks memcpy'd by the copy callback = bytes of the message private in both buffers *)
Theorem C35_private_bytes_copied : forall src dst soff doff size x,
  0 <= soff -> 0 <= doff -> 0 <= size -> sorted src -> sorted dst ->
  (covered (copied src dst soff doff size) x <->
   0 <= x < size /\ covered src (x + soff) /\ covered dst (x + doff)).
Proof. exact private_bytes_copied. Qed.
Print Assumptions C35_private_bytes_copied.

(* check_blocks() can never fire *)
Theorem C35_framed_blocks_in_buffer : forall vec off size b e,
  0 <= off -> 0 <= size -> Forall (fun be => fst be <= snd be) vec ->
  In (b, e) (shift vec off size) -> 0 <= b <= e /\ e <= size.
Proof. exact shift_in_frame. Qed.
Print Assumptions C35_framed_blocks_in_buffer.

(* end to end: between two SMPI_PARTIAL_SHARED_MALLOC allocations, exactly the message bytes that are outside the
   shared blocks of both allocations must be transferred *)
Theorem C35_end_to_end : forall ssize sshared dsize dshared soff doff size x,
  0 <= soff -> 0 <= doff -> 0 <= size -> 0 <= ssize -> 0 <= dsize ->
  sorted sshared -> sorted dshared ->
  (forall b e, In (b, e) sshared -> 0 <= b /\ e <= ssize) ->
  (forall b e, In (b, e) dshared -> 0 <= b /\ e <= dsize) ->
  (covered (e2e ssize sshared dsize dshared soff doff size) x <->
   0 <= x < size /\ (0 <= x + soff < ssize /\ ~ covered sshared (x + soff))
                 /\ (0 <= x + doff < dsize /\ ~ covered dshared (x + doff))).
Proof. exact e2e_spec. Qed.
Print Assumptions C35_end_to_end.

(* the function as pinned (unsigned underflow) violates the statement: the witness is the replay of the finding *)
Theorem C35_pinned_code_refuted :
  exists vec off size x, 0 <= x < size /\ covered_b vec (x + off) = true /\ covered_b (shift_orig vec off size) x = false.
Proof. exists [(10, 20)], 15, 10, 0. vm_compute. intuition congruence. Qed.
Print Assumptions C35_pinned_code_refuted.

(* hypotheses are satisfiable on a non-trivial layout *)
Example C35_nonvacuous :
  sorted [(4, 10); (16, 24)] /\ sorted [(0, 8); (12, 20)] /\
  copied [(4, 10); (16, 24)] [(0, 8); (12, 20)] 6 2 16 = [(0, 4); (10, 16)].
Proof. repeat split; try (apply sorted_b_sound); vm_compute; reflexivity. Qed.
