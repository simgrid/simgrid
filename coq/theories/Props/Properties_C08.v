(** C08 — Mailbox communications are exactly-once, FIFO and intact.
    Statements; the model is SGV.Kernel.Mailbox (CommImpl::isend/irecv, MailboxImpl::find_matching_comm,
    set_receiver, iprobe); the proofs that are more than an instance of a lemma of SGV.Kernel.MailboxProofs live there.
    A history [ops] is any sequence of send / receive / set_receiver / iprobe requests on one mailbox, in the order the
    kernel handles them, whatever the number of actors, the filters (accept all | label = p | tag = k on either side),
    sizes and rates; blocking, asynchronous and detached sends are the same kernel request (CommImpl::isend).
    Mailboxes do not interact. *)
From SGV Require Import Base.Tactics Kernel.Mailbox Kernel.MailboxProofs.
From Coq Require Import Permutation.
Local Open Scope Z_scope.

(* Every request is accounted for exactly once: the sends of the history are, as a multiset, the sends that were
   paired plus those still queued; the same for receives; a pair is always a send and a receive of this history that
   accept each other, and the receive obtains that send's payload and size (a pair carries the send record).
   No side condition. *)
Theorem C08_exactly_once : forall ops,
  let res := run mbox_init ops in
  Permutation (sends_of ops) (map fst (matches_of (snd res)) ++ pending_sends (fst res)) /\
  Permutation (recvs_of ops) (map snd (matches_of (snd res)) ++ pending_recvs (fst res)) /\
  (forall s r, In (s, r) (matches_of (snd res)) ->
     In s (sends_of ops) /\ In r (recvs_of ops) /\ compat s r = true).
Proof. exact exactly_once. Qed.
Print Assumptions C08_exactly_once.

Theorem C08_no_duplicate_delivery : forall ops,
  NoDup (map cid (sends_of ops)) -> NoDup (map cid (recvs_of ops)) ->
  let ms := matches_of (snd (run mbox_init ops)) in
  NoDup (map cid (map fst ms)) /\ NoDup (map cid (map snd ms)).
Proof. exact no_duplicate_delivery. Qed.
Print Assumptions C08_no_duplicate_delivery.

(* FULL STATEMENT (refuted below): the three theorems that follow without the hypothesis
   [no_pending_send_at_set_receiver].  What is missing: histories in which set_receiver is called while a send is
   queued in the mailbox (KNOWN_FINDINGS: set-receiver-with-pending-send). *)

(* A receive obtains the oldest pending send that both sides accept, and is queued only when there is none. *)
Theorem C08_oldest_accepted_partial : forall pre r post,
  wf 0 (pre ++ ORecv r :: post) ->
  no_pending_send_at_set_receiver mbox_init (pre ++ ORecv r :: post) = true ->
  let m := fst (run mbox_init pre) in recv_outcome m r (snd (step m (ORecv r))).
Proof. exact oldest_accepted_partial. Qed.
Print Assumptions C08_oldest_accepted_partial.

(* At no time are a queued send and a queued receive that accept each other left unpaired. *)
Theorem C08_no_missed_match_partial : forall ops,
  wf 0 ops -> no_pending_send_at_set_receiver mbox_init ops = true ->
  let m := fst (run mbox_init ops) in
  forall s r, In s (pending_sends m) -> In r (pending_recvs m) -> compat s r = false.
Proof. exact no_missed_match_partial. Qed.
Print Assumptions C08_no_missed_match_partial.

(* Messages of one sender to one mailbox (same label, tag and filter) are paired in send order: when the later one is
   paired, the earlier one has been paired before. *)
Theorem C08_pairwise_fifo_partial : forall ops,
  wf 0 ops -> no_pending_send_at_set_receiver mbox_init ops = true ->
  forall s1 s2, In s1 (sends_of ops) -> sender_equiv s1 s2 -> cid s1 < cid s2 ->
  forall l1 r2 l2, matches_of (snd (run mbox_init ops)) = l1 ++ (s2, r2) :: l2 -> exists r1, In (s1, r1) l1.
Proof. intros ops W S s1 s2 H. exact (fifo_gen ops mbox_init 0 inv_init W S s1 s2 (or_intror H)). Qed.
Print Assumptions C08_pairwise_fifo_partial.

(* the side condition holds for every mailbox without set_receiver and for every mailbox whose permanent receiver is
   declared before any traffic: there the three theorems above are the full statement *)
Theorem C08_side_condition_ordinary : forall ops m,
  no_set_receiver ops = true -> no_pending_send_at_set_receiver m ops = true.
Proof. exact no_set_receiver_side. Qed.
Print Assumptions C08_side_condition_ordinary.
Theorem C08_side_condition_receiver_first : forall p ops,
  no_set_receiver ops = true -> no_pending_send_at_set_receiver mbox_init (OSetRecv p :: ops) = true.
Proof. intros. cbn. apply no_set_receiver_side. assumption. Qed.
Print Assumptions C08_side_condition_receiver_first.

(* the code as it stands violates FIFO / oldest-first outside the side condition: put 1; set_receiver; put 2; get; get
   pairs the first get with put 2 (done_comm_queue_ is searched first) *)
Theorem C08_fifo_refuted :
  wf 0 cx_ops /\ In cx_s1 (sends_of cx_ops) /\ sender_equiv cx_s1 cx_s2 /\ cid cx_s1 < cid cx_s2 /\
  matches_of (snd (run mbox_init cx_ops)) = [] ++ (cx_s2, cx_r3) :: [(cx_s1, cx_r4)].
Proof. repeat split; vm_compute; intuition congruence. Qed.
Print Assumptions C08_fifo_refuted.
(* ... and a receive can be left waiting while a send it accepts sits in comm_queue_ *)
Theorem C08_missed_match_refuted :
  wf 0 cy_ops /\ let m := fst (run mbox_init cy_ops) in
  In cy_s1 (pending_sends m) /\ In cy_r3 (pending_recvs m) /\ compat cy_s1 cy_r3 = true.
Proof. split; [vm_compute; intuition congruence|]. cbv zeta. repeat split; vm_compute; auto. Qed.
Print Assumptions C08_missed_match_refuted.

(* iprobe changes neither queue nor the receiver *)
Theorem C08_iprobe_pure_on_queues : forall m c, fst (step m (OProbe c)) = m.
Proof. exact iprobe_pure. Qed.
Print Assumptions C08_iprobe_pure_on_queues.

(* the oracle run on implementation logs is sound for the relational reading of the property text *)
Theorem C08_oracle_once_sound : forall ops dels, log_once ops dels = true -> Spec_once ops dels.
Proof. exact oracle_once_sound. Qed.
Print Assumptions C08_oracle_once_sound.
Theorem C08_oracle_oldest_sound : forall ops dels, log_oldest ops dels = true -> Spec_oldest ops dels.
Proof. exact oracle_oldest_sound. Qed.
Print Assumptions C08_oracle_oldest_sound.
Theorem C08_oracle_no_missed_sound : forall ops dels, log_no_missed ops dels = true -> Spec_no_missed ops dels.
Proof. exact oracle_no_missed_sound. Qed.
Print Assumptions C08_oracle_no_missed_sound.

(* hypotheses are satisfiable on a non-trivial history: permanent receiver declared first, filters on both sides,
   two senders; the tagged receive overtakes nothing it does not accept *)
Definition nv_ops :=
  [OSetRecv (Some 2);
   OSend (mkComm 1 0 0 5 FAll 1 100); OSend (mkComm 2 1 1 6 FAll 2 200); OSend (mkComm 3 0 0 5 FAll 3 300);
   ORecv (mkComm 4 2 2 0 (FTag 6) 0 0); ORecv (mkComm 5 2 2 0 (FLabel 0) 0 0); ORecv (mkComm 6 2 2 0 FAll 0 0);
   ORecv (mkComm 7 2 2 0 (FTag 9) 0 0); OSend (mkComm 8 1 1 9 (FLabel 2) 8 10)].
Example C08_nonvacuous :
  wf 0 nv_ops /\ no_pending_send_at_set_receiver mbox_init nv_ops = true /\
  map (fun p => (cid (fst p), cid (snd p))) (matches_of (snd (run mbox_init nv_ops))) = [(2, 4); (1, 5); (3, 6); (8, 7)] /\
  sender_equiv (mkComm 1 0 0 5 FAll 1 100) (mkComm 3 0 0 5 FAll 3 300).
Proof. repeat split; vm_compute; intuition congruence. Qed.
