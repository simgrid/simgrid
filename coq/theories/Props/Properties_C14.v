(** C14 — Real runs conform to the reference interleaving semantics.
    Only statements; model in SGV.Kernel.Ref, proofs in SGV.Kernel.RefProofs. *)
From SGV Require Import Base.Tactics Kernel.Ref Kernel.RefProofs.
Local Open Scope Z_scope.

(* The explorer that judges the implementation's final observation is sound and complete for the inductive
   reachability relation of the reference semantics (any unblocked actor takes its next operation; FIFO objects):
   whenever it answers (fuel not exhausted) its answer is exactly the set of reachable terminal states. *)
Theorem C14_explorer_sound_complete : forall fuel P T,
  explore fuel P = Some T -> forall s, reachable_terminal P s <-> In s T.
Proof. exact explore_correct. Qed.
Print Assumptions C14_explorer_sound_complete.

(* A terminal state with an unfinished actor is exactly a reference deadlock (every unfinished actor is blocked on a
   synchronisation object and has no timer armed), unless the run crashed on an assertion. *)
Theorem C14_deadlock_iff_terminal_unfinished : forall P s, st_crash s = false ->
  ((terminal P s /\ exists a, unfinished P s a) <-> Ref_deadlock P s).
Proof. exact deadlock_iff. Qed.
Print Assumptions C14_deadlock_iff_terminal_unfinished.

(* the boolean the oracle compares with the implementation's deadlock report decides Ref_deadlock *)
Theorem C14_deadlock_decided : forall P s, deadlock_b P s = true <-> Ref_deadlock P s.
Proof. exact deadlock_b_spec. Qed.
Print Assumptions C14_deadlock_decided.

(* Replaying a schedule (the order in which the implementation started its operations) yields a reachable state:
   an implementation run whose schedule replays to its own final observation is a reference execution. *)
Theorem C14_replay_sound : forall P sched s, replay P sched (init P) = Some s -> reachable P s.
Proof. intros P sched s H. exact (replay_reachable P sched (init P) s (reachable_init P) H). Qed.
Print Assumptions C14_replay_sound.

(* The model of EngineImpl::run (sub-rounds, simcalls handled in list order, answered actors appended in answer
   order) is one interleaving of the reference semantics and stops in a reachable terminal state. *)
Theorem C14_engine_refines : forall fuel P s tr, engine_run fuel P = Some (s, tr) ->
  replay P tr (init P) = Some s /\ reachable_terminal P s.
Proof. exact engine_run_refines. Qed.
Print Assumptions C14_engine_refines.

(* a program with no reachable deadlock never gets one reported, whatever the schedule *)
Theorem C14_deadlock_free_never_reports : forall P sched s,
  (forall t, reachable P t -> ~ Ref_deadlock P t) ->
  replay P sched (init P) = Some s -> deadlock_b P s = false.
Proof. exact no_deadlock_never_reported. Qed.
Print Assumptions C14_deadlock_free_never_reports.

(* A timed acquisition that times out leaves the waiting queue of its semaphore alone: exactly that waiter is removed,
   the waiters before and after it keep their relative order, the value is unchanged, the actor is answered. *)
Theorem C14_timeout_keeps_order : forall a i d s q1 q2, (i < length (st_s s))%nat ->
  s_q (nth i (st_s s) dS) = q1 ++ a :: q2 -> ~ In a q1 -> ~ In a q2 ->
  let '(s', ws) := fire a (AcquireT i d) s in
  nth i (st_s s') dS = mkS (s_val (nth i (st_s s) dS)) (q1 ++ q2) /\ ws = [a].
Proof. exact fire_acquire_keeps_order. Qed.
Print Assumptions C14_timeout_keeps_order.

(* non-vacuity: the AB/BA program has two reachable terminal states, one of which is a deadlock, and the engine
   model runs into it *)
Definition abba := mkP 2 [] 0 [] 0 [[Lock 0; Lock 1; Unlock 1; Unlock 0]; [Lock 1; Lock 0; Unlock 0; Unlock 1]].
Example C14_nonvacuous :
  (exists T, explore 100 abba = Some T /\ length T = 2%nat /\ existsb (deadlock_b abba) T = true
             /\ existsb (fun s => negb (deadlock_b abba s)) T = true) /\
  (exists s tr, engine_run 100 abba = Some (s, tr) /\ tr = [0; 1; 0; 1]%nat /\ deadlock_b abba s = true).
Proof.
  split.
  - apply opt_ex. vm_compute. repeat split; reflexivity.
  - (* the run is replaced by its value, computed once, before the witnesses are read off it *)
    pattern (engine_run 100 abba). eapply eq_ind_r; [|vm_compute; reflexivity].
    do 2 eexists. split; [reflexivity|]. vm_compute. split; reflexivity.
Qed.

(* non-vacuity of the timed part: S = Sem(0); A: acquire_timeout(10 s), release; B: sleep 1 s, acquire, release;
   C: sleep 2 s, acquire.  The dates force the queue [A; B; C]; A times out, B then C are served: the timed reference has
   exactly one terminal state, every actor finished, A answered 1 (timed out), no deadlock.  The same program with an
   untimed operation added (a fourth actor doing Put on a mailbox nobody reads) is read without dates: the timeout and the
   queueing order are free, several terminal states. *)
Definition tdemo := mkP 0 [0] 0 [] 0 [[AcquireT 0 80; Release 0]; [Sleep 8; Acquire 0; Release 0]; [Sleep 16; Acquire 0]].
Definition udemo := mkP 0 [0] 0 [] 1 [[AcquireT 0 80; Release 0]; [Sleep 8; Acquire 0; Release 0]; [Sleep 16; Acquire 0]; [Put 0 1]].
Example C14_timed_nonvacuous :
  (exists s, explore 1000 tdemo = Some [s] /\ deadlock_b tdemo s = false /\ st_now s = 80 /\
             map a_pc (st_a s) = [2; 3; 2]%nat /\ map a_log (st_a s) = [[0; 1]; [0; 0; 0]; [0; 0]]) /\
  (exists T, explore 4000 udemo = Some T /\ (1 < length T)%nat /\ existsb (deadlock_b udemo) T = true).
Proof.
  split.
  - pattern (explore 1000 tdemo). eapply eq_ind_r; [|vm_compute; reflexivity].
    eexists. split; [reflexivity|]. vm_compute. repeat split; reflexivity.
  - apply opt_ex. vm_compute. split; [apply le_n | reflexivity].
Qed.
