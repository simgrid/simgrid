(** C43 — Checker and application agree on every transition.
    Statements; the proofs that are more than an instance of a lemma of SGV.Mc.SerCodecProofs (any table) and
    SGV.Mc.SerCodecTable (the tables that gen/ser.py regenerates from the observers' serialize() and the Transition
    constructors on every run) live there. *)
From SGV Require Import Base.Tactics Mc.SerCodec Mc.SerCodecProofs Gen.SerSpec Mc.SerCodecRun Mc.SerCodecTable.
Local Open Scope Z_scope.

(* Channel::pack<T> / unpack<T> round trip for every primitive the protocol uses (bool, integers of any width and
   sign, pointers, strings shorter than 65535 without NUL), values unbounded *)
Theorem C43_prim_roundtrip : forall v r, wf_pval v -> dec_wire (shape v) (enc_pval v ++ r) = Some (v, r).
Proof.
  intros v r H. rewrite dec_wire_enc by (auto using wire_compat_refl).
  rewrite reinterp_same by auto. reflexivity.
Qed.
Print Assumptions C43_prim_roundtrip.

(* n little-endian bytes carry exactly the value modulo 2^(8n) *)
Theorem C43_bytes_mod : forall n z r, dec_le n (enc_le n z ++ r) = Some (z mod width n, r).
Proof. exact dec_enc_le. Qed.
Print Assumptions C43_bytes_mod.

(* for every observer and every type tag it can send while the checker is attached, the checker knows the tag and
   unpacks the same sequence of wire items (same sizes and kinds; only the sign of an integer may differ) *)
Theorem C43_field_sequences_agree : forall o tag its,
  In (o, tag, its) app_table -> memb tag nomc_tags = false ->
  exists c, checker_seq tag = Some c /\ seq_compat its c = true.
Proof. exact field_sequences_agree. Qed.
Print Assumptions C43_field_sequences_agree.

(* hence: whatever well-typed transition the application serializes (including TestAny/WaitAny lists), the checker
   decodes the same type and the same fields, consumes exactly the bytes sent, and never waits for more *)
Theorem C43_decode_encode : forall t r,
  app_typed app_table nested_tags t -> wf_tval t -> memb (fst t) nomc_tags = false ->
  dec_tval checker_seq (enc_tval t ++ r) = Some (reinterp_tval checker_seq t, r).
Proof. intros t r. apply decode_encode; [exact tables_agree_now|exact nested_ok_now]. Qed.
Print Assumptions C43_decode_encode.

(* "the same fields": a field read with the type it was packed with is unchanged; one read with the other sign is
   unchanged whenever it fits the positive half *)
Theorem C43_same_type_exact : forall c v, shape v = c -> wf_pval v -> reinterp c v = v.
Proof. exact reinterp_same. Qed.
Print Assumptions C43_same_type_exact.
Theorem C43_sign_change_small : forall n s sg z, 0 <= z < width n / 2 -> reinterp (WInt n sg) (VInt n s z) = VInt n sg z.
Proof. exact reinterp_small. Qed.
Print Assumptions C43_sign_change_small.

(* the code as pinned violated the statement: the message-queue observers' bytes make the checker wait for ever *)
Theorem C43_pinned_messqueue_refuted :
  seq_compat [IP WPtr; IP WPtr] pinned_send_seq = false /\
  wf_tval pinned_mess_value /\ dec_tval pinned_chk (enc_tval pinned_mess_value) = None.
Proof.
  split; [reflexivity|]. split; [|vm_compute; reflexivity].
  split; [vm_compute; reflexivity|]. repeat constructor; vm_compute; congruence.
Qed.
Print Assumptions C43_pinned_messqueue_refuted.

(* the hypotheses of C43_decode_encode hold on a WaitAny over two communications, and it decodes to itself *)
Definition c43_wait (c : Z) : nat * list pval :=
  (13%nat, [VBool false; VInt 4 false c; VInt 8 true 2; VInt 8 true (-1); VInt 4 false 7; VStr [119; 97]]).
Definition c43_waitany : tval := (6%nat, [FSub [c43_wait 1; c43_wait 2]; FP (VStr [119; 97; 105; 116])]).
Example C43_nonvacuous :
  memb 6 nomc_tags = false /\ wf_tval c43_waitany /\
  dec_tval checker_seq (enc_tval c43_waitany) = Some (c43_waitany, []).
Proof.
  split; [vm_compute; reflexivity|]. split; [|vm_compute; reflexivity].
  unfold wf_tval, c43_waitany, c43_wait, wf_simple; cbn [fst snd].
  repeat match goal with
         | |- _ /\ _ => split
         | |- Forall _ [] => constructor
         | |- Forall _ (_ :: _) => constructor
         | |- True => exact I
         | |- wf_fval _ => cbn [wf_fval wf_simple fst snd]
         | |- wf_simple _ => unfold wf_simple; cbn [fst snd]
         | |- wf_pval _ => cbn [wf_pval]
         | |- (_ <= _)%Z => vm_compute; congruence
         | |- (_ < _)%Z => vm_compute; reflexivity
         end.
Qed.
