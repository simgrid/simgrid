(** C29 — Every collective algorithm computes the MPI result.
    Statements; the proofs that are more than an instance of a lemma of SGV.Smpi.CollSchedProofs and SGV.Smpi.CollSpecProofs
    live there. *)
From SGV Require Import Base.Tactics Smpi.CollSched Smpi.CollSchedProofs Smpi.CollSpec Smpi.CollSpecProofs Gen.CollList.
From Coq Require Import Permutation.
From Coq Require String.
Local Open Scope Z_scope.

(* running a schedule commutes with the homomorphism from the free commutative monoid (multisets of provenance labels) *)
Theorem C29_hom_run : forall (M : CMonoid) (v : label -> car M) S (lab : cell -> list label) c,
  eqv M (run_sched S (fun c => hom M v (lab c)) c) (hom M v (run_sched (M:=Free) S lab c)).
Proof. exact hom_run. Qed.
Print Assumptions C29_hom_run.

(* THE LIFTING: if on provenance labels a schedule leaves in the output cells the multisets MPI specifies, then for every
   commutative monoid M (every datatype and associative-commutative operator) and every input data v it leaves there the
   M-fold of the specified contributions.  Unbounded in data and operator. *)
Theorem C29_free_monoid_lifting : forall (M : CMonoid) (v : label -> car M) S (lab spec : cell -> list label) (out : cell -> Prop),
  (forall c, out c -> Permutation (run_sched (M:=Free) S lab c) (spec c)) ->
  forall c, out c -> eqv M (run_sched S (fun c => hom M v (lab c)) c) (hom M v (spec c)).
Proof. exact free_monoid_lifting. Qed.
Print Assumptions C29_free_monoid_lifting.

(* hom is the only monoid homomorphism extending v: "the M-fold of the contributions" is well defined *)
Theorem C29_hom_unique : forall (M : CMonoid) (v : label -> car M) (h : list label -> car M),
  eqv M (h []) (unit M) -> (forall l1 l2, eqv M (h (l1 ++ l2)) (op M (h l1) (h l2))) -> (forall x, eqv M (h [x]) (v x)) ->
  forall l, eqv M (h l) (hom M v l).
Proof. exact hom_unique. Qed.
Print Assumptions C29_hom_unique.

(* the fold does not depend on the order in which contributions were combined *)
Theorem C29_hom_perm : forall (M : CMonoid) (v : label -> car M) l1 l2,
  Permutation l1 l2 -> eqv M (hom M v l1) (hom M v l2).
Proof. exact hom_perm. Qed.
Print Assumptions C29_hom_perm.

(* the verified oracle: accepts exactly the buffers MPI defines, cell by cell, as multisets of contributions *)
Theorem C29_coll_ok_correct : forall kind np root count rank obs,
  coll_ok kind np root count rank obs = true <->
  cells_equiv (expand obs) (expand (spec_runs kind np root count rank)).
Proof. intros; apply obs_ok_correct. Qed.
Print Assumptions C29_coll_ok_correct.

Theorem C29_barrier_ok_correct : forall enters exits,
  barrier_ok enters exits = true <-> (forall e x, In e enters -> In x exits -> e <= x).
Proof. exact barrier_ok_correct. Qed.
Print Assumptions C29_barrier_ok_correct.

(* the compact counter-vector encoding used by the harness (per rank: number of contributions, sum of their indices)
   determines the multiset whenever the specified multiset has at most one contribution per rank *)
Theorem C29_compact_faithful : forall spec m,
  NoDup (map fst spec) -> (forall r, cnt m r = cnt spec r /\ isum m r = isum spec r) -> Permutation m spec.
Proof. exact compact_faithful. Qed.
Print Assumptions C29_compact_faithful.

(* the MPI definitions, cell by cell *)
Theorem C29_spec_bcast : forall np root count rank k, 0 <= k < count ->
  nth (Z.to_nat k) (expand (spec_runs 0 np root count rank)) [] = [(root, k)].
Proof. exact spec_bcast. Qed.
Print Assumptions C29_spec_bcast.
Theorem C29_spec_allreduce : forall np root count rank k, 0 <= k < count ->
  nth (Z.to_nat k) (expand (spec_runs 2 np root count rank)) [] = map (fun q => (q, k)) (zseq np).
Proof. exact spec_allreduce. Qed.
Print Assumptions C29_spec_allreduce.
Theorem C29_spec_reduce : forall np root count rank k, 0 <= k < count ->
  nth (Z.to_nat k) (expand (spec_runs 1 np root count root)) [] = map (fun q => (q, k)) (zseq np) /\
  (rank <> root -> expand (spec_runs 1 np root count rank) = []).
Proof. exact spec_reduce. Qed.
Print Assumptions C29_spec_reduce.
Theorem C29_spec_scan : forall np root count rank k, 0 <= k < count ->
  nth (Z.to_nat k) (expand (spec_runs 14 np root count rank)) [] = map (fun q => (q, k)) (zseq (rank + 1)).
Proof. exact spec_scan. Qed.
Print Assumptions C29_spec_scan.
Theorem C29_spec_scatter : forall np root count rank k, 0 <= k < count ->
  nth (Z.to_nat k) (expand (spec_runs 5 np root count rank)) [] = [(root, rank * count + k)].
Proof. exact spec_scatter. Qed.
Print Assumptions C29_spec_scatter.

(* T: every collective of the algorithm table regenerated from smpi_coll.cpp / smpi_nbc_impl.cpp has a specification
   (a new collective or a renamed one makes this fail; the python side checks that every algorithm was exercised) *)
Theorem C29_every_listed_collective_has_a_spec :
  forallb (fun c => negb (match kinds_of_name c with [] => true | _ => false end))
          (map fst coll_algorithms ++ coll_single ++ coll_nonblocking) = true.
Proof. vm_compute. reflexivity. Qed.
Print Assumptions C29_every_listed_collective_has_a_spec.

(* non-vacuity: a concrete 3-rank allreduce schedule satisfies the hypothesis of the lifting, hence sums (and any other
   commutative operator) come out right for all inputs *)
Example C29_lifting_nonvacuous : forall v : label -> Z, forall c, (c = 10 \/ c = 11 \/ c = 12) ->
  run_sched (M:=Zsum) demo_allreduce (fun c => hom Zsum v (demo_lab c)) c = v (0,0) + (v (1,0) + (v (2,0) + 0)).
Proof.
  intros v c Hc.
  exact (free_monoid_lifting Zsum v demo_allreduce demo_lab demo_spec (fun c => c = 10 \/ c = 11 \/ c = 12) demo_free_ok c Hc).
Qed.
Example C29_checker_nonvacuous :
  coll_ok 3 3 1 2 1 [mkrun 2 true [(0,0)]; mkrun 2 true [(1,0)]; mkrun 1 true [(2,0)]; mkrun 1 true [(2,1)]] = true /\
  coll_ok 2 3 0 2 0 [mkrun 2 true [(2,0);(0,0);(1,0)]] = true /\
  coll_ok 2 3 0 2 0 [mkrun 2 true [(0,0);(1,0)]] = false /\
  coll_ok 10 2 0 1 1 [mkrun 3 true [(0,1)]; mkrun 1 false [(-1,-1)]; mkrun 1 true [(1,2)]; mkrun 1 false [(-1,-1)]] = true.
Proof. vm_compute. repeat split. Qed.
Example C29_compact_nonvacuous :
  NoDup (map fst [(0,5);(1,5);(2,5)]) /\ (forall r, cnt [(2,5);(0,5);(1,5)] r = cnt [(0,5);(1,5);(2,5)] r).
Proof.
  split; [repeat constructor; cbn [In map fst]; lia |].
  intros r; unfold cnt; cbn [map fold_right fst]. destruct (0 =? r), (1 =? r), (2 =? r); reflexivity.
Qed.
