(** C40 — ODPOR explores each Mazurkiewicz class once: the decision procedure for the equivalence.
    Statements; model SGV.Mc.Mazur; the proofs that are more than an instance of a lemma of SGV.Mc.MazurProofs live there.

    Words are executions (lists of letters = transition occurrences); [swap1 dep] swaps two adjacent letters with
    [dep a b = false]; [equiv dep] is the equivalence it generates (reflexive-symmetric-transitive closure).  The
    dependency relation is arbitrary, only symmetric and reflexive (the checker's dispatch_depends is: same actor => true,
    and it symmetrises by construction). *)
From SGV Require Import Base.Tactics Mc.Mazur Mc.MazurProofs.
Local Open Scope nat_scope.

(* two executions have the same normal form exactly when they are equivalent: counting distinct normal forms counts
   the Mazurkiewicz classes *)
Theorem C40_normal_form_complete : forall dep, (forall a b, dep a b = dep b a) -> (forall a, dep a a = true) ->
  forall t1 t2, nf dep t1 = nf dep t2 <-> equiv dep t1 t2.
Proof. exact nf_complete. Qed.
Print Assumptions C40_normal_form_complete.

(* the normal form is a member of the class *)
Theorem C40_normal_form_in_class : forall dep, (forall a b, dep a b = dep b a) -> (forall a, dep a a = true) ->
  forall t, equiv dep t (nf dep t).
Proof. intros dep _ _. exact (nf_equiv dep). Qed.
Print Assumptions C40_normal_form_in_class.

(* MazurkiewiczTraces::are_equivalent (the checker's debug-optimality test) decides the same relation *)
Theorem C40_checker_test_is_equivalence : forall dep, (forall a b, dep a b = dep b a) -> (forall a, dep a a = true) ->
  forall fuel u v, length u < fuel -> (are_equivalent dep fuel u v = true <-> equiv dep u v).
Proof. exact are_equivalent_spec. Qed.
Print Assumptions C40_checker_test_is_equivalence.

(* non-vacuity: letters 0..3, 0-1 and 2-3 dependent (two actors), everything else independent *)
Definition ex_dep (a b : nat) : bool := (a / 2 =? b / 2).
Example C40_nonvacuous :
  (forall a b, ex_dep a b = ex_dep b a) /\ (forall a, ex_dep a a = true) /\
  nf ex_dep [2; 0; 3; 1] = [0; 1; 2; 3] /\ nf ex_dep [0; 2; 1; 3] = [0; 1; 2; 3] /\
  nf ex_dep [1; 0; 2; 3] = [1; 0; 2; 3] /\                       (* 1 before 0: another class *)
  are_equivalent ex_dep 5 [2; 0; 3; 1] [0; 2; 1; 3] = true /\ are_equivalent ex_dep 5 [1; 0; 2; 3] [0; 1; 2; 3] = false.
Proof.
  split; [|split].
  - intros a b. unfold ex_dep. apply Nat.eqb_sym.
  - intros a. unfold ex_dep. apply Nat.eqb_refl.
  - vm_compute. repeat split.
Qed.
