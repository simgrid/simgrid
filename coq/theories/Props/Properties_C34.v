(** C34 — RMA windows behave like shared memory under their locks.
    Statements; the proofs that are more than an instance of a lemma of SGV.Smpi.RmaProofs live there.
    PARTIAL: the request machinery of smpi_win.cpp is not modelled, only the effect of each operation on window memory;
    the model is tied to the implementation by running generated programs (harness/smpi_c34.c) whose epochs are
    checked, by the verified commute_b, to have a unique result. *)
From SGV Require Import Base.Tactics Smpi.Rma Smpi.RmaProofs.
From Coq Require Import Permutation.
Local Open Scope Z_scope.

(* the memory of a window depends only on the operations addressed to it, in their order *)
Theorem C34_window_sees_its_operations : forall tr m t x, exec tr m t x = exec (proj t tr) m t x.
Proof. intros; apply exec_proj_gen; reflexivity. Qed.
Print Assumptions C34_window_sees_its_operations.

(* exclusive locks: if every target sees its critical sections one after the other in lock-acquisition order, whatever
   the interleaving of operations on different targets, the final memory is that of the serial execution *)
Theorem C34_exclusive_serial : forall tr secs m,
  well_targeted secs ->
  (forall t, proj t tr = flat_map (fun s => if fst s =? t then snd s else []) secs) ->
  meq (exec tr m) (exec (serial_of secs) m).
Proof.
  intros tr secs m Hw H. apply exclusive_serial. intros t. rewrite H. symmetry. now apply proj_serial.
Qed.
Print Assumptions C34_exclusive_serial.

(* fence / lock_all epochs: pairwise commuting operations give an order-independent memory *)
Theorem C34_commuting_epoch : forall l l', Permutation l l' ->
  (forall a b, In a l -> In b l -> commute a b) -> forall m, meq (exec l m) (exec l' m).
Proof. exact commuting_epoch. Qed.
Print Assumptions C34_commuting_epoch.

(* the decidable criterion (different targets, disjoint written cells, or accumulates with the same
   associative-commutative operator) implies commutation *)
Theorem C34_commute_b_sound : forall a b, commute_b a b = true -> commute a b.
Proof. exact commute_b_sound. Qed.
Print Assumptions C34_commute_b_sound.

(* hence the expected memory of every generated epoch is unique *)
Theorem C34_checked_epoch_order_independent : forall l l', all_commute_b l = true -> Permutation l l' ->
  forall m, meq (exec l m) (exec l' m).
Proof. intros l l' H HP m. apply commuting_epoch; [exact HP | now apply all_commute_b_sound]. Qed.
Print Assumptions C34_checked_epoch_order_independent.

(* non-vacuity: two origins accumulate SUM into overlapping cells of rank 1 while a third puts elsewhere *)
Example C34_nonvacuous :
  let a := mkop 2 1 0 0 [5; 6] 0 in let b := mkop 3 1 1 0 [7; 8] 0 in let c := mkop 0 1 4 5 [9] 0 in
  all_commute_b [a; b; c] = true /\
  map (exec [a; b; c] init_mem 1) [0; 1; 2; 3; 4] = [105; 114; 110; 103; 9] /\
  map (exec [c; b; a] init_mem 1) [0; 1; 2; 3; 4] = [105; 114; 110; 103; 9] /\
  commute_b (mkop 0 1 0 5 [1] 0) (mkop 0 1 0 5 [2] 0) = false.
Proof. vm_compute. repeat split. Qed.
Example C34_exclusive_nonvacuous :
  let s1 := (1, [mkop 0 1 0 5 [7] 0; mkop 2 1 0 1 [3] 0]) in let s2 := (2, [mkop 0 2 0 5 [1] 0]) in
  let s3 := (1, [mkop 4 1 0 5 [50] 21]) in
  let tr := [mkop 0 1 0 5 [7] 0; mkop 0 2 0 5 [1] 0; mkop 2 1 0 1 [3] 0; mkop 4 1 0 5 [50] 21] in
  (forall t, proj t tr = flat_map (fun s => if fst s =? t then snd s else []) [s1; s2; s3]) /\
  exec tr init_mem 1 0 = 50.
Proof.
  cbn zeta. split; [| vm_compute; reflexivity].
  intros t. destruct (Z.eq_dec t 1) as [-> | N1]; [vm_compute; reflexivity |].
  destruct (Z.eq_dec t 2) as [-> | N2]; [vm_compute; reflexivity |].
  unfold proj, on_target. cbn [filter flat_map otgt fst snd].
  rewrite !(proj2 (Z.eqb_neq 1 t)), !(proj2 (Z.eqb_neq 2 t)) by lia. reflexivity.
Qed.
