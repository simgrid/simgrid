(** C33 — Cartesian topologies follow MPI rules.
    Statements; the proofs that are more than an instance of a lemma of SGV.Smpi.TopoProofs / TopoSubProofs live there.
    All theorems hold for every number of dimensions and every extent (no bound); [allpos dims] = every extent is
    positive. *)
From SGV Require Import Base.Tactics Smpi.Topo Smpi.TopoProofs Smpi.TopoSubProofs.
Local Open Scope Z_scope.

(* Cart_coords then Cart_rank is the identity on ranks *)
Theorem C33_rank_coords_inverse : forall dims pers r,
  allpos dims -> length pers = length dims -> 0 <= r < prodl dims ->
  rank dims pers (coords (prodl dims) dims r) = Some r.
Proof. exact rank_coords. Qed.
Print Assumptions C33_rank_coords_inverse.

(* Cart_rank then Cart_coords is the identity on in-range coordinates, and the rank is a valid one:
   together with the previous theorem, a bijection between [0, prod dims) and the coordinate box *)
Theorem C33_coords_rank_inverse : forall dims pers cs,
  allpos dims -> length pers = length dims -> inrange dims cs ->
  exists r, rank dims pers cs = Some r /\ 0 <= r < prodl dims /\ coords (prodl dims) dims r = cs.
Proof. exact coords_rank. Qed.
Print Assumptions C33_coords_rank_inverse.

(* arbitrary coordinates: [norm] is MPI's rule (periodic dimensions are taken modulo the extent, the others must be
   in range); the rank returned is the one whose coordinates are the wrapped ones, an error otherwise *)
Theorem C33_rank_periodic_wrap : forall dims pers cs,
  allpos dims -> length pers = length dims -> length cs = length dims ->
  match rank dims pers cs with
  | Some r => exists l, norm dims pers cs = Some l /\ 0 <= r < prodl dims /\ coords (prodl dims) dims r = l
  | None => norm dims pers cs = None
  end.
Proof. exact rank_wrap. Qed.
Print Assumptions C33_rank_periodic_wrap.

(* Cart_shift on the process of rank r, any direction k, any displacement: (source, dest) are MPI's neighbours.
   [target … x] = the rank whose k-th coordinate is x (mod the extent when periodic), MPI_PROC_NULL when the
   dimension is not periodic and x falls off the edge *)
Theorem C33_shift : forall dims pers r t k disp,
  allpos dims -> length pers = length dims -> 0 <= r < prodl dims -> (k < length dims)%nat ->
  cart_create dims pers r = Some t ->
  let cs := coords (prodl dims) dims r in
  shift t r k disp = Some (target dims pers cs k (nth k cs 0 - disp), target dims pers cs k (nth k cs 0 + disp)).
Proof. exact shift_spec. Qed.
Print Assumptions C33_shift.

(* … and when it is not PROC_NULL the neighbour is a valid rank whose coordinates differ only in direction k *)
Theorem C33_shift_neighbour_coords : forall dims pers cs k x,
  allpos dims -> inrange dims cs -> (k < length dims)%nat ->
  (nth k pers false = true \/ 0 <= x < nth k dims 0) ->
  let r' := target dims pers cs k x in
  0 <= r' < prodl dims /\ coords (prodl dims) dims r' = upd k (x mod nth k dims 0) cs.
Proof. exact target_coords. Qed.
Print Assumptions C33_shift_neighbour_coords.

(* Dims_create (repaired code): the product is the number of nodes and given entries are kept *)
Theorem C33_dims_create_product : forall nnodes dims res,
  1 <= nnodes -> dims_create nnodes dims = DC_ok res -> prodl res = nnodes /\ respects dims res.
Proof. exact dims_create_ok. Qed.
Print Assumptions C33_dims_create_product.

(* the fuel given to the factorisation loops of the model always suffices *)
Theorem C33_dims_create_terminates : forall fixed nnodes dims, dims_create_gen fixed nnodes dims <> DC_fuel.
Proof. exact dims_create_no_fuel. Qed.
Print Assumptions C33_dims_create_terminates.

(* Cart_sub (repaired code), seen from the process of rank r of the old communicator: the new topology has exactly
   the kept extents and periods, the process' coordinates are its kept old coordinates, they are the coordinates of
   its rank in the new communicator (Comm::split by dropped coordinates, key = old rank), whose size is the product
   of the kept extents *)
Theorem C33_sub_keeps_dims : forall dims pers rem r,
  allpos dims -> length rem = length dims -> 0 <= r < prodl dims ->
  let nd := select rem dims in
  let cs := select rem (coords (prodl dims) dims r) in
  sub dims pers rem r = Some {| c_nn := prodl nd; c_dims := nd; c_pers := select rem pers; c_pos := cs |}
  /\ sub_size dims rem r = prodl nd
  /\ 0 <= sub_rank dims rem r < prodl nd
  /\ coords (prodl nd) nd (sub_rank dims rem r) = cs.
Proof. exact sub_spec. Qed.
Print Assumptions C33_sub_keeps_dims.

(* the code as pinned violates the statement; the witnesses are the replays of the findings.
   A 2x3 grid, keep dimension 0: rank 2 gets an uninitialised topology *)
Theorem C33_sub_pinned_refuted :
  exists dims pers rem r, allpos dims /\ 0 <= r < prodl dims /\
    option_map c_dims (sub_orig dims pers rem r) <> Some (select rem dims).
Proof. exists [2; 3], [false; true], [true; false], 2. vm_compute. repeat split; try discriminate. Qed.
Print Assumptions C33_sub_pinned_refuted.

(* the code as pinned tests divisibility against nnodes instead of what is left: 12 nodes, dims (4,6,0) *)
Theorem C33_dims_create_pinned_refuted :
  exists nnodes dims res, 1 <= nnodes /\ dims_create_orig nnodes dims = DC_ok res /\ prodl res <> nnodes.
Proof. exists 12, [4; 6; 0], [4; 6; 1]. vm_compute. repeat split; discriminate. Qed.
Print Assumptions C33_dims_create_pinned_refuted.

(* hypotheses are satisfiable on non-trivial instances *)
Example C33_nonvacuous :
  allpos [2; 3; 4] /\ inrange [2; 3; 4] [1; 2; 3] /\
  rank [2; 3; 4] [false; true; false] [1; 5; 3] = Some 23 /\
  coords 24 [2; 3; 4] 23 = [1; 2; 3] /\
  option_map (fun t => (shift t 23 1 2, shift t 23 0 1)) (cart_create [2; 3; 4] [false; true; false] 23)
    = Some (Some (15, 19), Some (11, PROC_NULL)) /\
  dims_create 60 [0; 5; 0] = DC_ok [4; 5; 3] /\
  option_map c_pos (sub [2; 3; 4] [false; true; false] [true; false; true] 23) = Some [1; 3].
Proof. cbn [allpos inrange]. repeat split; try lia; vm_compute; reflexivity. Qed.
