(** C13 — Workflow dependencies are respected.  Only statements; proofs live in SGV.Kernel.DagProofs.
    Model: SGV.Kernel.Dag (s4u::Activity add_successor / remove_successor / start / complete / release_dependencies,
    set_host / set_source+set_destination / set_disk, and the event loop for activities on dedicated resources).
    Dates are integer ticks (2^-k s). *)
From SGV Require Import Base.Tactics Kernel.Dag Kernel.DagProofs.
Local Open Scope Z_scope.

(* "An activity with predecessors starts only after all of them have finished and it is assigned": for every script
   (any operations in any order, any number of activities, any durations), in the state it reaches, every started or
   finished activity is assigned and each predecessor declared by add_successor (and not removed) is FINISHED with a
   finish date <= the activity's start date. *)
Theorem C13_start_guard : forall ops s, run ops = Ok s -> forall b,
  a_state (acts s b) = STARTED \/ a_state (acts s b) = FINISHED ->
  a_assigned (acts s b) = true /\
  exists ts, a_tstart (acts s b) = Some ts /\ ts <= now s /\
    forall p, In p (a_gpreds (acts s b)) ->
      a_state (acts s p) = FINISHED /\ exists tf, a_tfinish (acts s p) = Some tf /\ tf <= ts.
Proof. exact start_guard. Qed.
Print Assumptions C13_start_guard.

(* "each starts at the latest finish date of its predecessors": for every script (remove_successor included) a started
   activity started exactly at the latest of: the finish dates of its declared predecessors, its latest assignment,
   its latest explicit start request (absent dates count as 0, the origin of the clock).  In particular an activity
   that was assigned and requested before its last predecessor finished starts at that predecessor's finish date. *)
Theorem C13_start_at_max_pred_finish : forall ops s, run ops = Ok s -> forall b ts, a_tstart (acts s b) = Some ts ->
  ts = Z.max (Z.max (max_list (map (fun p => odef (a_tfinish (acts s p))) (a_gpreds (acts s b))))
                    (odef (a_tassign (acts s b)))) (odef (a_treq (acts s b))).
Proof. exact start_at_max. Qed.
Print Assumptions C13_start_at_max_pred_finish.

(* "In an acyclic workflow where every activity is assigned and nothing fails, every activity finishes": from any state
   reached by a script in which every activity is assigned, every not-yet-started activity still waits for a dependency,
   dependencies are unfinished activities that list it as successor, and the dependency relation decreases some rank
   (acyclic), Engine::run() leaves every activity FINISHED.  (Failures do not exist in this model.) *)
Theorem C13_acyclic_all_finish : forall ops s rank, run ops = Ok s -> settled s rank ->
  forall s', step s Run = Ok s' -> forall b, (b < nacts s')%nat -> a_state (acts s' b) = FINISHED.
Proof. exact acyclic_all_finish. Qed.
Print Assumptions C13_acyclic_all_finish.

(* The oracle: a log (script operations and on_start / on_completion signals, oldest first) accepted by the monitor
   satisfies, at every start signal of b at date d: b was assigned before; every predecessor a declared before and not
   removed since has a completion signal before, dated <= d; and, on logs without remove_successor, d is the max of
   the predecessors' completion dates, the assignment date and the first start request. *)
Theorem C13_monitor_sound : forall tr, trace_ok tr = true ->
  forall pre b d post, tr = pre ++ EvStart b d :: post ->
  (exists ta, assign_date (rev pre) b = Some ta /\
     (has_remove (rev pre) = false ->
      d = Z.max (Z.max (max_list (map (fun a => odef (finish_date (rev pre) a)) (preds_in (rev pre) b))) ta)
                (odef (req_date (rev pre) b)))) /\
  (forall a, In a (preds_in (rev pre) b) -> exists f, finish_date (rev pre) a = Some f /\ f <= d).
Proof. exact monitor_sound. Qed.
Print Assumptions C13_monitor_sound.

(* meaning of the monitor's vocabulary: dates come from the log, declared dependencies are seen *)
Theorem C13_monitor_reads_log : forall past a b t,
  (assign_date past b = Some t -> In (EvOp (Assign b) t) past) /\
  (finish_date past a = Some t -> In (EvFinish a t) past) /\
  (forall newer older, (forall t', ~ In (EvOp (RemoveSucc a b) t') newer) ->
     In a (preds_in (newer ++ EvOp (AddSucc a b) t :: older) b)).
Proof.
  intros past a b t. split; [apply assign_date_in|]. split; [apply finish_date_in|].
  intros newer older H. apply preds_in_add; exact H.
Qed.
Print Assumptions C13_monitor_reads_log.

(* non-vacuity: two parents and a child; the child is assigned late (date 1536 > both parents' finish dates) *)
Definition ex_ops : list op :=
  [Create KExec 1024; Create KExec 2048; Create KExec 1024; AddSucc 0 2; AddSucc 1 2; Assign 0; Assign 1;
   Start 0; Start 1; Start 2; RunUntil 2560; Assign 2; Run].
Example C13_nonvacuous :
  exists s, run ex_ops = Ok s /\
    a_state (acts s 2) = FINISHED /\ a_gpreds (acts s 2) = [1; 0]%nat /\
    a_tfinish (acts s 0) = Some 1024 /\ a_tfinish (acts s 1) = Some 2048 /\
    a_tstart (acts s 2) = Some 2560 /\ a_tfinish (acts s 2) = Some 3584 /\
    trace_ok (rev (trace s)) = true.
Proof. apply res_ex. vm_compute. repeat split; reflexivity. Qed.

(* the hypotheses of C13_acyclic_all_finish hold on a real workflow: two running parents, one waiting child *)
Definition ex_ops2 : list op :=
  [Create KExec 1024; Create KComm 2048; Create KIo 1024; AddSucc 0 2; AddSucc 1 2; Assign 2; Assign 0; Assign 1; Start 0].
Example C13_liveness_nonvacuous : exists s, run ex_ops2 = Ok s /\ settled s (fun i => i) /\ nacts s = 3%nat /\
  a_state (acts s 2) = INITED /\ a_state (acts s 1) = STARTED.
Proof.
  apply res_ex. vm_compute. split; [|auto]. constructor; cbn [acts nacts].
  - intros b Hb. destruct b as [|[|[|b]]]; [reflexivity..|lia].
  - intros b Hb. destruct b as [|[|[|b]]]; cbn; intros; try discriminate; lia.
  - intros b p Hp. destruct b as [|[|[|b]]]; cbn in Hp; try contradiction.
    destruct Hp as [<-|[<-|[]]]; cbn; repeat split; try discriminate; try lia; auto.
  - intros b. destruct b as [|[|[|b]]]; cbn; unfold good_state; cbn; auto.
Qed.
