(** C28 — MPI point-to-point matching and non-overtaking.
    Statements; the proofs that are more than an instance of a lemma of SGV.Smpi.MatchProofs live there. *)
From SGV Require Import Base.Tactics Smpi.Match Smpi.MatchProofs.
Local Open Scope Z_scope.

(* a receive matches a message iff communicator, source and tag are compatible, wildcards included
   (ANY_SOURCE only for a sender of the receiver's group, ANY_TAG only for tags >= 0) *)
Theorem C28_match_iff : forall s r g,
  (exists v, match_common s r g = Some v) <-> comm_ok s r /\ src_ok s r g /\ tag_ok s r.
Proof. exact match_iff. Qed.
Print Assumptions C28_match_iff.

Theorem C28_no_cross_comm : forall s r g,
  comm r <> UNDEFINED -> comm s <> UNDEFINED -> comm r <> comm s -> match_common s r g = None.
Proof.
  intros s r g H1 H2 H3. destruct (match_common s r g) eqn:E; [|reflexivity].
  destruct (proj1 (match_iff s r g) (ex_intro _ _ E)) as ([?|[?|?]] & _); contradiction.
Qed.
Print Assumptions C28_no_cross_comm.

(* on a match the status carries the sender's source and tag, and the truncation flag is raised exactly when a
   non-probe receive is smaller than the message *)
Theorem C28_truncation_flag : forall s r g a b t, match_common s r g = Some (a, b, t) ->
  a = src s /\ b = tag s /\ (t = true <-> probe r = false /\ size r < size s).
Proof. exact status_exact. Qed.
Print Assumptions C28_truncation_flag.

(* FULL STATEMENT (target): messages of one sender on one communicator that match a receive are received in send
   order whatever mailbox (small/large) they went to.
   PROVED HERE: for one (source, destination, tag) class - the granularity of the message_id_ counters - whatever each
   receive finds pending and in whichever order it scans the two mailboxes, match_recv accepts the messages in send
   order (ids c, c+1, ...), and a pending next-in-order message is always found.
   MISSING: (1) a wildcard-tag receive over messages of different tags that sit in different mailboxes (counters are
   per tag); (2) the receive-posted-first path, where match_send does not look at the counters.  Both are judged on
   real runs by the oracle of checks/C28.py. *)
Theorem C28_non_overtaking_partial : forall scans c,
  receive_all c scans = map (fun k => c + Z.of_nat k) (seq 0 (length (receive_all c scans))).
Proof. intros. apply receive_all_in_order. Qed.
Print Assumptions C28_non_overtaking_partial.

Theorem C28_next_message_found : forall c scan, In c scan -> pick c scan = Some c.
Proof. exact pick_finds. Qed.
Print Assumptions C28_next_message_found.

Example C28_nonvacuous :
  match_common (mkReq 0 3 7 100 false) (mkReq 0 ANY_SOURCE ANY_TAG 64 false) true = Some (3, 7, true) /\
  match_common (mkReq 0 3 (-2) 100 false) (mkReq 0 ANY_SOURCE ANY_TAG 64 false) true = None /\
  receive_all 0 [[1; 0]; [2]; [2; 1]; [2]] = [0; 1; 2].
Proof. vm_compute. repeat split; reflexivity. Qed.
