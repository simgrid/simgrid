(** C42 — Happens-before equals transitive dependency; racing events are exactly the races.
    Statements; the model is SGV.Mc.Hb (odpor::Execution); the proofs that are more than an instance of a lemma of
    SGV.Mc.HbProofs live there.

    An execution is any sequence of transitions; the code only observes the actor [aid h] of the h-th transition and
    [dep a b] = contents_[a].transition->dispatch_depends(transition b) for a < b, so the theorems quantify over
    arbitrary such functions (any length n, any number of actors).  The single hypothesis is the first statement of
    Transition::dispatch_depends: two transitions of the same actor are dependent. *)
From SGV Require Import Base.Tactics Mc.Hb Mc.HbProofs.
From Coq Require Import Relations.
Local Open Scope nat_scope.

(* dep_before dep a b := a < b /\ dep a b = true ;  same_actor_dependent aid dep n := forall a<b<n of one actor, dep a b *)

(* e1 --> e2 as answered by the clock vectors  <->  e1 occurs before e2 and a chain of pairwise dependent,
   increasing events leads from e1 to e2 *)
Theorem C42_hb_iff : forall aid dep n, same_actor_dependent aid dep n ->
  forall e1 e2, e2 < n ->
  (hb aid (exec_of aid dep n) e1 e2 = true <-> e1 < e2 /\ clos_trans nat (dep_before dep) e1 e2).
Proof. intros aid dep n H e1 e2 H2. exact (hb_iff aid dep n H n e1 e2 (le_n n) H2). Qed.
Print Assumptions C42_hb_iff.

(* get_racing_events_of(t) = the events e of other actors with e --> t and no event in between *)
Theorem C42_racing_exact : forall aid dep n, same_actor_dependent aid dep n ->
  forall t e, t < n ->
  (In e (racing aid (exec_of aid dep n) t) <->
   aid e <> aid t /\ clos_trans nat (dep_before dep) e t /\
   forall m, ~ (clos_trans nat (dep_before dep) e m /\ clos_trans nat (dep_before dep) m t)).
Proof. intros aid dep n H t e Ht. exact (racing_exact aid dep n H n t e (le_n n) Ht). Qed.
Print Assumptions C42_racing_exact.

(* the same set in the words of the property: maximal (for -->) predecessors of t among the events of other actors,
   not already ordered before the previous event of t's actor *)
Theorem C42_racing_maximal_predecessors : forall aid dep n, same_actor_dependent aid dep n ->
  forall t e, t < n ->
  (In e (racing aid (exec_of aid dep n) t) <->
   aid e <> aid t /\ clos_trans nat (dep_before dep) e t /\
   (forall p, prev_on aid (aid t) t = Some p -> ~ clos_trans nat (dep_before dep) e p) /\
   (forall e', aid e' <> aid t -> clos_trans nat (dep_before dep) e' t -> ~ clos_trans nat (dep_before dep) e e')).
Proof. intros aid dep n H t e Ht. exact (racing_maximal aid dep n H n t e (le_n n) Ht). Qed.
Print Assumptions C42_racing_maximal_predecessors.

(* prev_on is "the previous event of the same actor" *)
Theorem C42_prev_on_spec : forall aid t p, prev_on aid (aid t) t = Some p <->
  p < t /\ aid p = aid t /\ forall k, p < k -> k < t -> aid k <> aid t.
Proof. exact C42_prev_on. Qed.
Print Assumptions C42_prev_on_spec.

(* the list returned has no duplicates *)
Theorem C42_racing_nodup : forall aid dep n t, NoDup (racing aid (exec_of aid dep n) t).
Proof. exact racing_nodup. Qed.
Print Assumptions C42_racing_nodup.

(* non-vacuity: 3 actors, 6 events; 0:a0 1:a1 2:a2 3:a0 4:a1 5:a2; besides program order, 0-1, 1-2 and 3-5 are dependent *)
Definition ex_aid (h : nat) : nat := h mod 3.
Definition ex_dep (a b : nat) : bool :=
  (a mod 3 =? b mod 3) || existsb (fun p => (fst p =? a) && (snd p =? b)) [(0, 1); (1, 2); (3, 5)].
Example C42_nonvacuous :
  same_actor_dependent ex_aid ex_dep 6 /\
  hb ex_aid (exec_of ex_aid ex_dep 6) 0 5 = true /\      (* 0 -> 1 -> 2 -> 5 *)
  hb ex_aid (exec_of ex_aid ex_dep 6) 0 2 = true /\      (* transitively only *)
  hb ex_aid (exec_of ex_aid ex_dep 6) 1 3 = false /\
  racing ex_aid (exec_of ex_aid ex_dep 6) 5 = [3] /\     (* 1 --> 2 = previous event of actor 2: not a race *)
  racing ex_aid (exec_of ex_aid ex_dep 6) 2 = [1] /\
  racing ex_aid (exec_of ex_aid ex_dep 6) 4 = [].
Proof.
  split.
  - intros a b _ _ H. unfold ex_dep. apply orb_true_iff; left. apply Nat.eqb_eq. exact H.
  - vm_compute. repeat split.
Qed.
