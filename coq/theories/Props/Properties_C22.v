(** C22 — Availability profiles are applied exactly.  Statements; the proofs that are more than an instance of a lemma of
    SGV.Res.ProfileProofs live there. *)
From Coq Require Import QArith Qminmax Sorting.Sorted.
From SGV Require Import Base.Tactics Res.NetFormula Res.Profile Res.ProfileProofs.
Local Open Scope Q_scope.

(* for every non-empty deterministic pattern (absolute dates d_k, values v_k), every period P and every number of
   iterations: the k-th event of iteration j fires at j*P + d_k with value v_k
   ([spec_iters P pts 0 n] = [map (shift (j*P)) pts] for j = 0..n-1; [evq] = dates equal as rationals, same value) *)
Theorem C22_event_dates : forall period p0 rest n,
  Forall2 (Forall2 evq) (run_iters period (p0 :: rest) true n 0) (spec_iters period (p0 :: rest) 0 n).
Proof. intros. apply run_iters_spec. change (inject_Z (Z.of_nat 0)) with 0. ring. Qed.
Print Assumptions C22_event_dates.

(* the resource has, at date t, the value of the last event fired at a date <= t (the initial one before the first) *)
Theorem C22_value_at : forall evs init t,
  StronglySorted (fun x y : pt => fst x <= fst y) evs ->
  ((forall e, In e evs -> t < fst e) /\ value_at init evs t = init) \/
  exists pre e post, evs = pre ++ e :: post /\ fst e <= t /\ (forall x, In x post -> t < fst x) /\ value_at init evs t = snd e.
Proof. exact value_at_spec. Qed.
Print Assumptions C22_value_at.

Example C22_nonvacuous :
  map fst (fired 10 [(1, 1 # 2); (4, 1)] 3) = [1; 4; 11; 14; 21; 24] /\
  map snd (fired 10 [(1, 1 # 2); (4, 1)] 3) = [1 # 2; 1; 1 # 2; 1; 1 # 2; 1] /\
  Qeq_bool (value_at 1 (fired 10 [(1, 1 # 2); (4, 1)] 3) 12) (1 # 2) = true.
Proof. repeat split; vm_compute; reflexivity. Qed.
