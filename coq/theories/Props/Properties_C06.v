(** C06 — Condition variable semantics.
    Statements; model SGV.Kernel.CondVar (ConditionVariableImpl::signal/broadcast/acquire_async, the acquisition's
    wait_for/finish/cancel, with its own small non-recursive mutex: FIFO hand-off); the proofs that are more than an
    instance of a lemma of SGV.Kernel.CondVarProofs live there.
    A request is handled at a date [d]: first the timers that are due fire ([fire d]), then the request itself
    ([apply_op]).  All theorems hold for every state [s] (hence every history and every number of actors). *)
From SGV Require Import Base.Tactics Kernel.CondVar Kernel.CondVarProofs.
Local Open Scope Z_scope.

(* notify_one with nobody waiting is lost: nothing changes *)
Theorem C06_notify_one_lost : forall s, cwait s = [] -> signal s = (s, []).
Proof. exact notify_one_lost. Qed.
Print Assumptions C06_notify_one_lost.

(* notify_one wakes the longest-waiting actor (head of the FIFO) and nobody else; the woken actor re-locks the mutex:
   it returns at once when the mutex is free, otherwise it queues on the mutex *)
Theorem C06_notify_one : forall s a t r, cwait s = (a, t) :: r ->
  let s' := fst (signal s) in let o := snd (signal s) in
  cwait s' = r /\
  match owner s with
  | None => owner s' = Some a /\ mwait s' = mwait s /\ o = [WaitReturn a false]
  | Some b => owner s' = Some b /\ mwait s' = mwait s ++ [(a, MRelock false)] /\ o = []
  end.
Proof. exact notify_one_wakes_head. Qed.
Print Assumptions C06_notify_one.

(* notify_all wakes exactly the actors waiting at that moment, in FIFO order, and leaves the queue empty *)
Theorem C06_notify_all : forall s,
  let s' := fst (broadcast s) in let o := snd (broadcast s) in
  cwait s' = [] /\
  match owner s, cwait s with
  | Some b, l => owner s' = Some b /\ mwait s' = mwait s ++ relockers l /\ o = []
  | None, [] => s' = s /\ o = []
  | None, (a, _) :: r => owner s' = Some a /\ mwait s' = mwait s ++ relockers r /\ o = [WaitReturn a false]
  end.
Proof. exact notify_all_wakes_all. Qed.
Print Assumptions C06_notify_all.

(* a wait (notified or timed out) or a lock returns only to the actor that owns the mutex at that moment *)
Theorem C06_return_holds_mutex_timers : forall d s x,
  In x (grants (snd (fire d s))) -> owner (fst (fire d s)) = Some x.
Proof. exact timers_return_to_owner. Qed.
Print Assumptions C06_return_holds_mutex_timers.
Theorem C06_return_holds_mutex_request : forall dlf s d o x,
  In x (grants (snd (apply_op dlf s d o))) -> owner (fst (apply_op dlf s d o)) = Some x.
Proof. exact request_returns_to_owner. Qed.
Print Assumptions C06_return_holds_mutex_request.
Theorem C06_return_carries_queued_flag : forall s b k r, mwait s = (b, k) :: r ->
  snd (munlock s) = [ret b k] /\ owner (fst (munlock s)) = Some b.
Proof. exact unlock_returns_queued_flag. Qed.
Print Assumptions C06_return_carries_queued_flag.

(* wait_for(t) reports a timeout iff it was not notified within t:
   - when a request is handled at date d, exactly the waiters whose deadline is <= d have left the queue through their
     timer, the others are still queued in the same order;
   - those that leave through a timer report "timeout", those that leave through notify_one/notify_all report "no timeout";
   - hence a notify at date d can only wake waiters whose deadline is > d. *)
Theorem C06_wait_for_timers_exact : forall d s, cwait (fst (fire d s)) = keep d (cwait s).
Proof. exact timers_fire_exactly_when_due. Qed.
Print Assumptions C06_wait_for_timers_exact.
Theorem C06_wait_for_timeout_flag : forall d s,
  Forall (flag_ok true) (snd (fire d s)) /\
  exists added, mwait (fst (fire d s)) = mwait s ++ added /\ Forall (qflag_ok true) added.
Proof. intros. apply fire_n_flags. Qed.
Print Assumptions C06_wait_for_timeout_flag.
Theorem C06_wait_for_notified_flag : forall s,
  Forall (flag_ok false) (snd (signal s)) /\ Forall (flag_ok false) (snd (broadcast s)) /\
  (exists added, mwait (fst (broadcast s)) = mwait s ++ added /\ Forall (qflag_ok false) added).
Proof. exact notify_reports_no_timeout. Qed.
Print Assumptions C06_wait_for_notified_flag.
Theorem C06_wait_for_notified_before_deadline : forall s d a D r,
  cwait (fst (fire d s)) = (a, Some D) :: r -> d < D.
Proof.
  intros s d a D r H. pose proof (no_overdue_waiter_after_timers d s (a, Some D)) as N.
  rewrite H in N. specialize (N (or_introl eq_refl)). unfold overdue in N. cbn in N. lia.
Qed.
Print Assumptions C06_wait_for_notified_before_deadline.

(* the kernel as pinned (`timeout > 0`) never arms the timer of wait_for(0): lock; wait_for(0); 100 ticks later the
   caller is still queued and never returned.  Repaired code: it returns "timeout" holding the mutex. *)
Theorem C06_wait_for_zero_refuted :
  map fst (cwait (fst (crun_gen deadline_pinned cv_init cz_hist))) = [1] /\
  flat_map (fun oo => grants (fst oo) ++ grants (snd oo)) (snd (crun_gen deadline_pinned cv_init cz_hist)) = [1].
Proof. vm_compute. split; reflexivity. Qed.
Print Assumptions C06_wait_for_zero_refuted.
Theorem C06_wait_for_zero_repaired :
  cwait (fst (crun cv_init cz_hist)) = [] /\
  snd (crun cv_init cz_hist) = [([], [Acquired 1]); ([], []); ([WaitReturn 1 true], [])].
Proof. vm_compute. split; reflexivity. Qed.
Print Assumptions C06_wait_for_zero_repaired.

(* a history exercising every rule: two waiters, one with a timeout that fires while the mutex is held, notify_one then
   notify_all, FIFO hand-off of the mutex *)
Example C06_nonvacuous :
  snd (crun cv_init [(0, CLock 1); (0, CWait 1 None); (1, CLock 2); (1, CWait 2 (Some 5)); (2, CLock 3); (2, CWait 3 None);
                     (3, CLock 4); (7, CNotifyOne); (8, CNotifyAll); (9, CUnlock 4); (10, CUnlock 2); (11, CUnlock 1)]) =
  [([], [Acquired 1]); ([], []); ([], [Acquired 2]); ([], []); ([], [Acquired 3]); ([], []); ([], [Acquired 4]);
   ([], []); ([], []); ([], [WaitReturn 2 true]); ([], [WaitReturn 1 false]); ([], [WaitReturn 3 false])].
Proof. vm_compute. reflexivity. Qed.
