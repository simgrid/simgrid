(** C11 — Actor lifecycle (join, on_exit, daemons, kill time, suspend/resume). Statements only. *)
From Coq Require Import Sorted.
From SGV Require Import Base.Tactics Kernel.Engine Kernel.EngineProofs.
Local Open Scope Z_scope.

(* whatever the reason an actor ends for ([terminate] is the only way to SDead: normal return, kill, kill_all, exit,
   kill time, daemon sweep, deadlock), its on_exit callbacks run exactly once each, most recently registered first, at
   the current date, followed by the termination signal *)
Theorem C11_on_exit_once_reverse : forall s p a failed,
  get_actor p (actors s) = Some a ->
  log (terminate s p failed) = ETerm p (clock s) :: rev (exits p (clock s) failed (a_onexit a)) ++ log s.
Proof. exact terminate_spec. Qed.
Print Assumptions C11_on_exit_once_reverse.

(* ... and a dead actor has no callback, no kill timer and is no daemon any more *)
Theorem C11_dead_is_clean : forall a,
  a_st (bury a) = SDead /\ a_onexit (bury a) = [] /\ a_daemon (bury a) = false /\ a_kill (bury a) = None.
Proof. exact bury_spec. Qed.
Print Assumptions C11_dead_is_clean.

(* a suspended actor that gets scheduled executes nothing and observes nothing: it is parked until resume() *)
Theorem C11_suspended_no_progress : forall s p a r n,
  get_actor p (actors s) = Some a -> a_st a = SReady r n -> a_susp a = true ->
  log (run_actor s p) = log s /\ clock (run_actor s p) = clock s /\
  exists a', get_actor p (actors (run_actor s p)) = Some a' /\ a_st a' = SParked r /\ a_prog a' = a_prog a /\ a_idx a' = a_idx a.
Proof. exact suspended_no_progress. Qed.
Print Assumptions C11_suspended_no_progress.

(* kill time / join timeout: the clock never jumps over a pending date, and the kill timer fires as soon as date <= clock *)
Theorem C11_kill_time_not_jumped_over : forall s s' d,
  advance s = Some s' -> In d (all_dates s) -> stuck s' = false -> clock s' <= d.
Proof. exact advance_stops_at_earliest. Qed.
Print Assumptions C11_kill_time_not_jumped_over.

(* observations of whole runs are time-ordered and never dated after the clock (so nothing is observed after a death) *)
Theorem C11_log_ordered : forall fuel prec progs s ended,
  run fuel (init prec progs) = (s, ended) ->
  Forall (entry_ok prec) (log s) /\ StronglySorted not_before (log s) /\ Forall (le_clock (clock s)) (log s).
Proof. exact run_entries_ok. Qed.
Print Assumptions C11_log_ordered.

(* the code's defect (KNOWN_FINDINGS resume-reschedules-running-actor): suspend and resume of one actor handled in the same
   scheduling round; the model stops there with [race] set. Replayed on the real code: sleep_for(5 s) returns at once. *)
Theorem C11_resume_race_witness :
  race (fst (run 50 (init 4 [[OYield; OSleep 21474836480; OSleep 4294967296]; [OSuspend 1]; [OResume 1]]))) = true.
Proof. vm_compute. reflexivity. Qed.
Print Assumptions C11_resume_race_witness.

(* whole runs: join with timeout vs. death, on_exit order, daemon sweep, kill time, suspension *)
Example C11_nonvacuous :
  let S := 4294967296 in
  let '(s, fin) := run 80 (init 4 [[OOnExit 1; OOnExit 2; OSleep (2*S)]; [OJoin 1 (3*S); OJoin 1 (-1)]; [OJoin 1 S];
                                   [ODaemonize; OOnExit 9; OSleep (50*S)]; [OSetKillTime (4*S); OSleep (9*S)];
                                   [OSleep S; OSuspend 5; OSleep S; OResume 5]]) in
  fin = true /\ halted s = false /\ clock s = 4*S /\
  In (ERet 2 0 (OJoin 1 (3*S)) 0 (2*S) 0 false) (log s) /\ In (ERet 3 0 (OJoin 1 S) 0 S 0 false) (log s) /\
  In (EExit 4 9 (4*S) true) (log s) /\ In (ETerm 5 (4*S)) (log s).
Proof.
  intros S. eapply eval_pair; [vm_compute; reflexivity|]. intros s fin. repeat split.
  - now apply (nth_error_In _ 5).
  - now apply (nth_error_In _ 16).
  - now apply (nth_error_In _ 1).
  - now apply (nth_error_In _ 2).
Qed.

(** ------------------------------------------------------------------------------------------------------------------
    Auto-restart after a host reboot (model SGV.Kernel.Restart: host turn_off/turn_on, boot records, on_exit vectors as an
    explicit heap so that sharing between an actor and a record is expressible). All statements are about every history
    of kernel events (any number of reboots, registrations, kills, in any order). *)
From SGV Require Import Kernel.Restart Kernel.RestartProofs.

(* C11_restart: in every reachable state, for every actor (= incarnation) ever created: nothing of its callbacks has run
   while it lives; once it has ended, the callbacks observed in it are exactly the content of its own vector, each once,
   the most recently registered first, all at the date of its end -- whatever happened afterwards (later incarnations,
   reboots, registrations). An actor that does not exist yet has run nothing. *)
Theorem C11_restart : forall s a,
  reachable s -> In a (actors s) ->
  rev (exits (a_pid a) (log s)) =
    if a_alive a then [] else map (fun c => (c, a_end a)) (rev (lookup (a_pid a) (heap s))).
Proof. exact restart_exits. Qed.
Print Assumptions C11_restart.

Theorem C11_restart_nothing_before_creation : forall s p, reachable s -> next_pid s <= p -> exits p (log s) = [].
Proof. exact restart_no_exit_of_unborn. Qed.
Print Assumptions C11_restart_nothing_before_creation.

(* what "its own vector" contains: it changes only by a registration on that very actor while it lives -- never by a
   registration on another incarnation, a reboot, a death *)
Theorem C11_restart_callbacks_private : forall s e p,
  reachable s -> p < next_pid s ->
  lookup p (heap (kstep false s e)) =
    match e with
    | KOnExit q tag => if (q =? p) && alive_in s p then lookup p (heap s) ++ [tag] else lookup p (heap s)
    | _ => lookup p (heap s)
    end.
Proof. exact restart_private. Qed.
Print Assumptions C11_restart_callbacks_private.

(* ... and a re-created actor (HostImpl::turn_on folds this over the boot records) starts, in a vector of its own, with a
   copy of the recorded vector, with the recorded code and host, auto-restart again *)
Theorem C11_restart_recreates_recorded : forall s g,
  reachable s -> host_is_on (g_host g) s = true -> (forall o, g_list g = Some o -> o < next_pid s) ->
  let s' := create_arg false s g in
  lookup (next_pid s) (heap s') = match g_list g with Some o => lookup o (heap s) | None => [] end /\
  exists a, get_actor (next_pid s) (actors s') = Some a /\ a_alive a = true /\ a_list a = Some (next_pid s) /\
            a_code a = g_code g /\ a_host a = g_host g /\ (g_auto g = true -> a_auto a = true).
Proof. exact restart_recreate. Qed.
Print Assumptions C11_restart_recreates_recorded.

(* the record made by set_auto_restart shares the vector of the calling actor (the only sharing there is) *)
Theorem C11_restart_record : forall s p a x,
  reachable s -> get_actor p (actors s) = Some a -> a_alive a = true -> a_auto a = false ->
  get_host (a_host a) (hosts s) = Some x ->
  get_host (a_host a) (hosts (kstep false s (KSetAuto p))) =
    Some (mkH (h_id x) (h_on x) (h_boot x ++ [mkG (a_code a) (a_host a) true (Some p) (a_kill a)])).
Proof. exact restart_record. Qed.
Print Assumptions C11_restart_record.

Theorem C11_restart_no_sharing_between_actors : forall s,
  reachable s ->
  NoDup (map a_pid (actors s)) /\
  forall a, In a (actors s) -> a_list a = if a_alive a then Some (a_pid a) else None.
Proof. exact restart_no_sharing. Qed.
Print Assumptions C11_restart_no_sharing_between_actors.

(* [c11_demo]: three reboots of an auto-restart actor (callbacks 100, 101 registered by main before / after
   set_auto_restart; the restarted incarnations register 11 then 12, 21, 31) *)
Example C11_restart_nonvacuous :
  let s := krun false (kinit 1) c11_demo in
  map a_pid (actors s) = [1; 2; 3; 4; 5] /\ forallb (fun a => negb (a_alive a)) (actors s) = true /\
  rev (exits 3 (log s)) = [(12, 12); (11, 12); (101, 12); (100, 12)] /\
  rev (exits 4 (log s)) = [(21, 20); (101, 20); (100, 20)] /\
  rev (exits 5 (log s)) = [(31, 28); (101, 28); (100, 28)].
Proof. vm_compute. repeat split. Qed.

(* the statement is not a tautology of the modelling style: with "actor->on_exit = args->on_exit" in create(ProcessArg* )
   (share instead of copy) the callback registered once, by the second incarnation, runs again in the third and fourth *)
Theorem C11_restart_share_variant_refuted :
  let s := krun true (kinit 1) c11_demo in
  rev (exits 4 (log s)) = [(21, 20); (12, 20); (11, 20); (101, 20); (100, 20)] /\
  rev (exits 5 (log s)) = [(31, 28); (21, 28); (12, 28); (11, 28); (101, 28); (100, 28)].
Proof. vm_compute. split; reflexivity. Qed.
Print Assumptions C11_restart_share_variant_refuted.
