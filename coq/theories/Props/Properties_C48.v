(** C48 — Configuration flags parse and validate values (src/xbt/config.cpp).
    Only statements; proofs live in SGV.Xbt.ConfigProofs.  [set_string valid c name text] is
    simgrid::config::set_as_string (also reached from set_parse / --cfg) on the table c, [valid] the items' callbacks;
    [reg_cfg] is the table of the items and aliases the rebuilt library registers (Gen/CfgFlags.v, regenerated on
    every run by gen/cfg.py). *)
From SGV Require Import Base.Tactics Xbt.Strtod Xbt.Units Xbt.UnitsProofs Gen.CfgFlags Xbt.Config Xbt.ConfigProofs.
From Coq Require Import QArith.
Local Open Scope Z_scope.

(* a successful set, by name or alias: the name resolves to an item, the text parses at the item's type, the callback
   accepted it; afterwards the item holds exactly the parsed value, its callback ran exactly once more, every other
   item and the aliases are untouched *)
Theorem C48_set_get : forall valid c n s c', set_string valid c n s = Ok c' ->
  exists r it v, resolve c n = Some r /\ find_item (c_items c) r = Some it /\ parse (i_ty it) s = Some v /\
    valid r v = true /\ get c' n = Some v /\ calls c' r = calls c r + 1 /\
    (forall m, m <> r -> find_item (c_items c') m = find_item (c_items c) m) /\ c_aliases c' = c_aliases c.
Proof. exact set_get. Qed.
Print Assumptions C48_set_get.

Theorem C48_set_succeeds : forall valid c n s r it v,
  resolve c n = Some r -> find_item (c_items c) r = Some it -> parse (i_ty it) s = Some v -> valid r v = true ->
  exists c', set_string valid c n s = Ok c' /\ get c' n = Some v.
Proof. exact set_succeeds. Qed.
Print Assumptions C48_set_succeeds.

(* unparsable text: rejected by the parser's exception, nothing stored, no callback *)
Theorem C48_reject_unparsable : forall valid c n s r it,
  resolve c n = Some r -> find_item (c_items c) r = Some it -> parse (i_ty it) s = None ->
  set_string valid c n s = ErrParse.
Proof. exact reject_unparsable. Qed.
Print Assumptions C48_reject_unparsable.

Theorem C48_unknown_name : forall valid c n s,
  find_item (c_items c) n = None -> find_alias (c_aliases c) n = None -> set_string valid c n s = ErrUnknown.
Proof. exact unknown_name. Qed.
Print Assumptions C48_unknown_name.

(* the validation callback runs exactly once per parsed value, also when it rejects (the value is then already stored:
   content is assigned before update() in set_string_value — stated, not hidden) *)
Theorem C48_callback_once : forall valid c n s c', set_string valid c n s = ErrInvalid c' ->
  exists r it v, resolve c n = Some r /\ find_item (c_items c) r = Some it /\ parse (i_ty it) s = Some v /\
    valid r v = false /\ calls c' r = calls c r + 1 /\
    (forall m, m <> r -> find_item (c_items c') m = find_item (c_items c) m).
Proof. exact callback_runs_once_even_when_it_rejects. Qed.
Print Assumptions C48_callback_once.

Theorem C48_alias : forall valid c a r it s,
  find_item (c_items c) a = None -> find_alias (c_aliases c) a = Some r -> find_item (c_items c) r = Some it ->
  set_string valid c a s = set_string valid c r s.
Proof. exact alias_same. Qed.
Print Assumptions C48_alias.

(* T: in the table the library registers now, every item name resolves to itself and every alias to an existing item
   (no alias is shadowed by an item name, no duplicate) *)
Theorem C48_registered_names_resolve :
  (forall n t, In (n, t) cfg_items -> resolve reg_cfg n = Some n) /\
  (forall a r, In (a, r) cfg_aliases -> resolve reg_cfg a = Some r /\ exists t, In (r, t) cfg_items).
Proof. exact registered_names_resolve. Qed.
Print Assumptions C48_registered_names_resolve.

(* the parsers: booleans are the 8 literals case-insensitively, nothing else *)
Theorem C48_parse_bool_spec : forall s b,
  parse_bool s = Some b <->
  (if b then In (map lower s) true_lits else In (map lower s) false_lits /\ ~ In (map lower s) true_lits).
Proof. exact parse_bool_spec. Qed.
Print Assumptions C48_parse_bool_spec.

(* integers: every decimal numeral [spaces][sign]d1..dn (d1 <> 0, any length) is its value when it fits an int,
   rejected otherwise; trailing characters are rejected (full consumption) *)
Theorem C48_parse_int_decimal : forall sp sg ds,
  all is_space sp -> all is_digit ds -> ds <> [] -> hd 0 ds <> 48 ->
  parse_int (int_text sp sg ds) =
  if (int_val sg ds <? INT_MIN) || (INT_MAX <? int_val sg ds) then None else Some (int_val sg ds).
Proof. exact parse_int_dec. Qed.
Print Assumptions C48_parse_int_decimal.

Theorem C48_parse_int_trailing_rejected : forall sp sg ds g,
  all is_space sp -> all is_digit ds -> ds <> [] -> hd 0 ds <> 48 -> hd_not is_digit g -> g <> [] ->
  parse_int (int_text sp sg ds ++ g) = None.
Proof. exact parse_int_trailing_rejected. Qed.
Print Assumptions C48_parse_int_trailing_rejected.

(* doubles: every decimal number of the C27 grammar is its exact value (then rounded by strtod: not modelled),
   out-of-range numbers and trailing characters are rejected *)
Theorem C48_parse_double_decimal : forall d, wf d ->
  parse_double (render d) = if erange (dvalue d) then None else Some (DFin (dvalue d)).
Proof. exact parse_double_dec. Qed.
Print Assumptions C48_parse_double_decimal.

Theorem C48_parse_double_trailing_rejected : forall d u, wf d -> unit_shape u = true -> u <> [] ->
  parse_double (render d ++ u) = None.
Proof. exact parse_double_trailing_rejected. Qed.
Print Assumptions C48_parse_double_trailing_rejected.

(* hypotheses are satisfiable on the test table: set by alias, rejected value, unknown name, rejecting callback *)
Example C48_nonvacuous :
  (exists c', set_string test_valid test_cfg n_int_old [45; 52; 50] = Ok c' /\ get c' n_int = Some (VInt (-42)) /\
              calls c' n_int = 2 /\ get c' n_pos = Some (VInt 1)) /\
  set_string test_valid test_cfg n_int [52; 50; 120] = ErrParse /\
  set_string test_valid test_cfg [116; 47; 110; 111; 112; 101] [49] = ErrUnknown /\
  (exists c', set_string test_valid test_cfg n_pos [48] = ErrInvalid c' /\ calls c' n_pos = 2) /\
  parse TBool [79; 102; 70] = Some (VBool false) /\ parse TInt [48; 120; 49; 70] = Some (VInt 31) /\
  parse TInt [50; 49; 52; 55; 52; 56; 51; 54; 52; 56] = None /\ parse TDouble [49; 101; 45; 51; 32] = None.
Proof. repeat split; try (eexists; split; [vm_compute; reflexivity|]); vm_compute; repeat split; reflexivity. Qed.
