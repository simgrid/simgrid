(** C37 — Trace replay reproduces the online simulated time: the codec core.
    Statements; the proofs that are more than an instance of a lemma of SGV.Smpi.TiCodecProofs live there.

    [encode fixed n c] = (action name, argument tokens) of the TI line the tracer writes for call [c] in a world of [n]
    ranks; [decode dflt n name tokens] = the arguments the replay parser of that action reads.  [fixed = true] is the
    code of the current tree (three repairs), [fixed = false] the pinned code.  The equality of the simulated dates
    themselves is established by the correspondence runs of checks/C37.py, not by a theorem. *)
From SGV Require Import Base.Tactics Smpi.TiCodec Smpi.TiCodecProofs.
Local Open Scope Z_scope.

(* every supported call, all argument values in the ranges of the C prototypes, any number of ranks >= 2, whatever the
   default datatype: the replay parser reads back exactly the call that was traced *)
Theorem C37_roundtrip : forall dflt n c,
  wf n c = true ->
  decode dflt n (fst (encode true n c)) (snd (encode true n c)) = Some (norm n c).
Proof. exact roundtrip_fixed. Qed.
Print Assumptions C37_roundtrip.

(* the line grammar is unambiguous: two calls printing the same line are the same replay action *)
Theorem C37_encode_injective : forall n c1 c2,
  wf n c1 = true -> wf n c2 = true -> encode true n c1 = encode true n c2 -> norm n c1 = norm n c2.
Proof.
  intros n c1 c2 H1 H2 He.
  pose proof (roundtrip_fixed 6 n c1 H1) as R1. pose proof (roundtrip_fixed 6 n c2 H2) as R2.
  rewrite He, R2 in R1. now injection R1.
Qed.
Print Assumptions C37_encode_injective.

(* the pinned code round-trips only under the side condition it silently assumed (receive counts > 0, amounts with at
   most 6 significant digits, no MPI_Reduce_scatter_block) *)
Theorem C37_roundtrip_pinned_partial : forall dflt n c,
  wf n c = true -> wf_pinned c = true ->
  decode dflt n (fst (encode false n c)) (snd (encode false n c)) = Some (norm n c).
Proof. intros dflt n c H1 H2. rewrite (pinned_same_line n c H2). now apply roundtrip_fixed. Qed.
Print Assumptions C37_roundtrip_pinned_partial.

(* and fails outside it: the three witnesses are replayed on the real code by the corpus of checks/C37.py *)
Theorem C37_pinned_gather_refuted :
  exists n c, wf n c = true /\
    decode 6 n (fst (encode false n c)) (snd (encode false n c)) <> Some (norm n c) /\
    decode 6 n (fst (encode false n c)) (snd (encode false n c)) = Some (CGather 100 2 0 0 6).
Proof. exists 4, (CGather 100 0 2 0 0). split; [reflexivity|]. split; [vm_compute; discriminate|vm_compute; reflexivity]. Qed.
Print Assumptions C37_pinned_gather_refuted.

Theorem C37_pinned_sleep_refuted :
  exists n c, wf n c = true /\
    decode 6 n (fst (encode false n c)) (snd (encode false n c)) = Some (CSleep 1234570) /\ norm n c = CSleep 1234567.
Proof. exists 4, (CSleep 1234567). repeat split; vm_compute; reflexivity. Qed.
Print Assumptions C37_pinned_sleep_refuted.

Theorem C37_pinned_rsblock_refuted :
  exists n c, wf n c = true /\
    decode 6 n (fst (encode false n c)) (snd (encode false n c)) = Some (CReducescatter [0; 0; 0; 0] 0 0) /\
    norm n c = CReducescatter [5; 5; 5; 5] 0 0.
Proof. exists 4, (CRsBlock 5 0). repeat split; vm_compute; reflexivity. Qed.
Print Assumptions C37_pinned_rsblock_refuted.

(* the pinned print() is ambiguous on TIData objects that tracers do build: a gather traced on a non-root rank with
   recvcount 0 prints the argument tokens of a different gather *)
Theorem C37_pinned_print_ambiguous :
  exists d1 d2, d1 <> d2 /\ print false d1 = print false d2 /\
    d1 = snd (trace false 4 (CGather 100 0 2 0 0)) /\ d2 = Coll 0 (-1) 100 2 (Some 0) None.
Proof.
  exists (Coll 2 (-1) 100 0 (Some 0) (Some 0)), (Coll 0 (-1) 100 2 (Some 0) None).
  split; [discriminate|]. repeat split; vm_compute; reflexivity.
Qed.
Print Assumptions C37_pinned_print_ambiguous.

(* hypotheses are satisfiable on non-trivial calls, including the regions the pinned code got wrong *)
Example C37_roundtrip_nonvacuous :
  wf 4 (CAlltoallv 10 [1; 2; 3; 4] 28 [1; 5; 9; 13] 6 6) = true /\
  wf 4 (CGather 100 0 2 0 0) = true /\ wf 4 (CRsBlock 5 0) = true /\ wf 4 (CSleep 1234567) = true /\
  snd (encode true 4 (CGather 100 0 2 0 0)) = [TI 100; TI 0; TI 2; TI 0; TI 0] /\
  decode 6 4 KGather [TI 100; TI 0; TI 2; TI 0; TI 0] = Some (CGather 100 0 2 0 0).
Proof. repeat split; vm_compute; reflexivity. Qed.
Example C37_injective_nonvacuous :
  wf 3 (CGatherv 7 [0; 0; 0] 1 0 0) = true /\ wf 3 (CBcast 5000 2 0) = true /\
  encode true 3 (CGatherv 7 [0; 0; 0] 1 0 0) <> encode true 3 (CBcast 5000 2 0).
Proof. repeat split; vm_compute; discriminate. Qed.
Example C37_pinned_partial_nonvacuous :
  wf 4 (CGather 100 100 2 0 0) = true /\ wf_pinned (CGather 100 100 2 0 0) = true /\
  wf_pinned (CSleep 250000) = true /\ wf_pinned (CSleep 1234567) = false.
Proof. repeat split; vm_compute; reflexivity. Qed.
