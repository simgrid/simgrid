(** C32 — Groups and communicators follow MPI rules.
    Statements; the proofs that are more than an instance of a lemma of SGV.Smpi.GroupProofs{,2,3} live there.
    A group is the list of its members in rank order; all theorems hold for groups and worlds of any size.
    [mem a g] = membership test. *)
From SGV Require Import Base.Tactics Smpi.Group Smpi.GroupProofs Smpi.GroupProofs2 Smpi.GroupProofs3.
From Coq Require Import Permutation Sorting.Sorted.
Local Open Scope Z_scope.

(* union: all of the first group, then the members of the second that are not in the first, in their order *)
Theorem C32_union : forall g1 g2, group_union g1 g2 = g1 ++ filter (fun a => negb (mem a g1)) g2.
Proof. exact union_spec. Qed.
Print Assumptions C32_union.

(* intersection (repaired code): members of the first group that are in the second, ordered as in the FIRST group *)
Theorem C32_intersection_first_order : forall g1 g2, intersection g1 g2 = filter (fun a => mem a g2) g1.
Proof. exact intersection_spec. Qed.
Print Assumptions C32_intersection_first_order.

Theorem C32_difference_first_order : forall g1 g2, difference g1 g2 = filter (fun a => negb (mem a g2)) g1.
Proof. exact difference_spec. Qed.
Print Assumptions C32_difference_first_order.

(* the results are groups again (no duplicate) and have the set-theoretic members *)
Theorem C32_union_NoDup : forall g1 g2, NoDup g1 -> NoDup g2 ->
  NoDup (group_union g1 g2) /\ (forall a, In a (group_union g1 g2) <-> In a g1 \/ In a g2).
Proof. intros g1 g2 H1 H2. split; [apply union_NoDup; assumption|intros; apply union_members]. Qed.
Print Assumptions C32_union_NoDup.

(* incl: rank i of the new group is the process of rank ranks[i] of the old one; no duplicates *)
Theorem C32_incl : forall g ranks, NoDup g -> valid_ranks g ranks ->
  g_size (incl g ranks) = Z.of_nat (length ranks) /\
  (forall i, 0 <= i < Z.of_nat (length ranks) -> g_actor (incl g ranks) i = g_actor g (nth (Z.to_nat i) ranks (-1))) /\
  NoDup (incl g ranks).
Proof. intros g ranks Hg Hv. destruct (incl_spec g ranks Hv). repeat split; try assumption. apply incl_NoDup; assumption. Qed.
Print Assumptions C32_incl.

(* excl (as PMPI_Group_excl does it, shortcuts included): the members whose rank is not listed, order preserved *)
Theorem C32_excl : forall g ranks, valid_ranks g ranks ->
  p_excl g ranks = keep_from 0 (fun i => negb (mem i ranks)) g.
Proof. exact p_excl_spec. Qed.
Print Assumptions C32_excl.

(* range_incl / range_excl: the triplet (first, last, stride) denotes first, first+stride, ...,
   first + floor((last-first)/stride)*stride; the loops never run out of fuel on valid triplets *)
Theorem C32_range_incl : forall g ranges, Forall (valid_range (g_size g)) ranges ->
  range_incl g ranges = Some (incl g (flat_map range_spec ranges)).
Proof. intros g ranges H. unfold range_incl. rewrite range_ranks_spec by assumption. reflexivity. Qed.
Print Assumptions C32_range_incl.

Theorem C32_range_excl : forall g ranges, Forall (valid_range (g_size g)) ranges ->
  range_excl g ranges = Some (keep_from 0 (fun i => negb (mem i (flat_map range_spec ranges))) g).
Proof.
  intros g ranges H. unfold range_excl. rewrite range_ranks_spec by assumption. cbn [option_map]. rewrite excl_spec. reflexivity.
Qed.
Print Assumptions C32_range_excl.

(* Group_rank / translate_ranks: the rank of a member is its position, MPI_UNDEFINED for a non-member;
   translate_ranks answers, for each rank of group1, the rank of that process in group2 *)
Theorem C32_rank : forall g a,
  (In a g -> 0 <= g_rank g a < g_size g /\ g_actor g (g_rank g a) = a) /\ (~ In a g -> g_rank g a = UNDEF).
Proof. exact g_rank_spec. Qed.
Print Assumptions C32_rank.

Theorem C32_translate : forall g1 g2 ranks,
  Forall (fun r => r = PNULL \/ 0 <= r < g_size g1) ranks ->
  translate g1 ranks g2 = Some (map (fun r => if r =? PNULL then PNULL else g_rank g2 (g_actor g1 r)) ranks).
Proof. exact translate_spec. Qed.
Print Assumptions C32_translate.

(* compare: IDENT iff same members in the same order, SIMILAR iff same members in another order, else UNEQUAL *)
Theorem C32_compare : forall g1 g2, NoDup g1 -> NoDup g2 ->
  (compare g1 g2 = IDENT /\ g1 = g2) \/
  (compare g1 g2 = SIMILAR /\ Permutation g1 g2 /\ g1 <> g2) \/
  (compare g1 g2 = UNEQUAL /\ ~ Permutation g1 g2).
Proof. exact compare_spec. Qed.
Print Assumptions C32_compare.

(* Comm_split, seen from rank r with a defined colour: the new communicator contains exactly the ranks of that colour,
   once each, ordered by key and then by old rank.  [cks] = the (colour, key) of every rank *)
Theorem C32_split_order : forall cks r, 0 <= r < Z.of_nat (length cks) -> col cks r <> UNDEF ->
  exists l, split_ranks cks r = Some l /\ NoDup l /\
    (forall j, In j l <-> 0 <= j < Z.of_nat (length cks) /\ col cks j = col cks r) /\
    StronglySorted (fun a b => ple (key cks a, a) (key cks b, b)) l.
Proof. exact split_spec. Qed.
Print Assumptions C32_split_order.

(* the code as pinned orders the intersection as the second group *)
Theorem C32_intersection_pinned_refuted :
  exists g1 g2, NoDup g1 /\ NoDup g2 /\ intersection_orig g1 g2 <> filter (fun a => mem a g2) g1.
Proof.
  exists [0; 1; 2], [2; 1; 0]. repeat split.
  - repeat constructor; cbn; lia.
  - repeat constructor; cbn; lia.
  - vm_compute. discriminate.
Qed.
Print Assumptions C32_intersection_pinned_refuted.

Example C32_nonvacuous :
  valid_ranks [10; 11; 12; 13; 14] [4; 0; 2] /\ incl [10; 11; 12; 13; 14] [4; 0; 2] = [14; 10; 12] /\
  Forall (valid_range 6) [(4, 0, -3); (5, 5, 1)] /\ range_incl [0; 1; 2; 3; 4; 5] [(4, 0, -3); (5, 5, 1)] = Some [4; 1; 5] /\
  intersection [0; 1; 2; 5] [5; 2; 1; 7] = [1; 2; 5] /\ compare [0; 1; 2] [2; 1; 0] = SIMILAR /\
  split_ranks [(1, 5); (0, 5); (1, 2); (UNDEF, 9); (0, 1); (1, 0)] 0 = Some [5; 2; 0].
Proof.
  repeat split; try reflexivity.
  - repeat constructor; cbn [In]; lia.
  - repeat apply Forall_cons; try apply Forall_nil; cbn; lia.
  - repeat apply Forall_cons; try apply Forall_nil; cbn; lia.
Qed.
