(** C47 — Paje traces are well formed.  Statements; the proofs that are more than an instance of a lemma of
    SGV.Instr.PajeProofs live there. *)
From Coq Require Import Sorting.Sorted Permutation.
From SGV Require Import Base.Tactics Instr.Paje Instr.PajeProofs.
Local Open Scope Z_scope.

(* the checker decides the relational specification (types/values/containers declared before use, no use of a container
   that is not alive, non-decreasing timestamps, no pop on an empty stack) *)
Theorem C47_checker_sound_complete : forall tr, paje_ok tr = true <-> WellFormed tr.
Proof. intro tr. apply paje_run_WF. Qed.
Print Assumptions C47_checker_sound_complete.

(* the diagnostic run used on the trace files reports nothing exactly when the checker accepts *)
Theorem C47_complaints_iff : forall tr s i, complaints s i tr = [] <-> paje_run s tr = true.
Proof. exact complaints_nil_iff. Qed.
Print Assumptions C47_complaints_iff.

(* what well-formedness gives: the timestamps of the file are sorted *)
Theorem C47_wellformed_timestamps_sorted : forall tr, WellFormed tr -> StronglySorted Z.le (stamps tr).
Proof. intros tr H. exact (proj1 (wf_timestamps_sorted tr init H)). Qed.
Print Assumptions C47_wellformed_timestamps_sorted.

(* ... and a container that is not alive (never created, or destroyed) is not used unless created (again) first *)
Theorem C47_wellformed_no_use_unless_alive : forall tr s c pre e post,
  WF s tr -> ~ Alive s c -> tr = pre ++ e :: post -> uses e c -> exists x, In x pre /\ creates x c.
Proof. exact wf_no_use_unless_alive. Qed.
Print Assumptions C47_wellformed_no_use_unless_alive.

(* the buffer: insertion is stable and keeps the buffer sorted *)
Theorem C47_buffer_sorted : forall (A : Type) (e : Z * A) buf, sorted A buf -> sorted A (insert A e buf) /\ Permutation (e :: buf) (insert A e buf).
Proof. intros A e buf H. split; [apply insert_sorted; exact H|apply insert_perm]. Qed.
Print Assumptions C47_buffer_sorted.

Theorem C47_buffer_stable : forall (A : Type) (e : Z * A) buf,
  exists l1 l2, buf = l1 ++ l2 /\ insert A e buf = l1 ++ e :: l2 /\ Forall (fun x => fst e < fst x) l2 /\
                match rev l1 with [] => True | x :: _ => fst x <= fst e end.
Proof. exact insert_spec. Qed.
Print Assumptions C47_buffer_stable.

(* the file written by any sequence of insertions and (forced or not) dumps is sorted PROVIDED no event is inserted
   with a timestamp smaller than one already written ([ops_ok]).
   FULL STATEMENT (refuted, C47_dump_not_monotone_refuted): the same without [ops_ok]. Missing: SimGrid creates
   resource-utilisation events in the past and forces dumps at container destructions (recorded finding). *)
Theorem C47_dump_monotone_partial : forall (A : Type) ops,
  ops_ok A [] [] ops -> sorted A (snd (brun A [] [] ops)).
Proof.
  intros A ops H. apply (dump_monotone A ops [] []); [constructor|constructor|intros x y []|exact H].
Qed.
Print Assumptions C47_dump_monotone_partial.

Theorem C47_dump_not_monotone_refuted : exists ops : list (bop Z), ~ sorted Z (snd (brun Z [] [] ops)).
Proof.
  exists [Ins Z (3, 0); Dump Z true 3; Ins Z (1, 1); Dump Z true 5]. cbn. intro H. inv H. inv H3. cbn in H1. lia.
Qed.
Print Assumptions C47_dump_not_monotone_refuted.

Example C47_nonvacuous :
  paje_ok [DefType 0 1 0; DefType 2 2 1; DefValue 3 2; Create 0 1 1 0; Push 5 2 1 3; Pop 7 2 1; Destroy 7 1 1] = true /\
  paje_ok [DefType 0 1 0; DefType 2 2 1; DefValue 3 2; Create 0 1 1 0; Pop 7 2 1] = false /\
  ops_ok Z [] [] [Ins Z (3, 0); Ins Z (1, 1); Dump Z false 2; Ins Z (2, 2); Dump Z true 9] /\
  map snd (snd (brun Z [] [] [Ins Z (3, 0); Ins Z (1, 1); Dump Z false 2; Ins Z (2, 2); Dump Z true 9])) = [1; 2; 0].
Proof. repeat split; try (vm_compute; reflexivity); cbn; intros; try tauto; try lia.
  destruct H as [<-|[]]; cbn; lia. Qed.
