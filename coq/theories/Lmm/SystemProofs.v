(** Lmm/SystemProofs.v — the invariants of System::check_concurrency hold after every history (C18).
    Structure ([inv_struct]): every operation changes the record of one variable at a time, and each constraint record
    follows by one [edit] of its two lists ([struct_step]).  No starvation ([just]): every live staged variable uses a
    full constraint, or one that on_disabled_var is still to revisit. *)
From SGV Require Import Base.PlainLia Base.Facts Lmm.System.
From Coq Require Import QArith.
Local Open Scope Z_scope.

Lemma upd_same : forall A (f : nat -> A) i x, upd f i x i = x.
Proof. intros. unfold upd. now rewrite Nat.eqb_refl. Qed.
Lemma upd_other : forall A (f : nat -> A) i j x, j <> i -> upd f i x j = f j.
Proof. intros. unfold upd. destruct (Nat.eqb_spec j i); [contradiction|reflexivity]. Qed.
Lemma upd_forall : forall A (P : nat -> A -> Prop) f i x, P i x -> (forall j, j <> i -> P j (f j)) -> forall j, P j (upd f i x j).
Proof. intros A P f i x Hx Hf j. unfold upd. destruct (Nat.eqb_spec j i); [subst j; exact Hx|apply Hf; assumption]. Qed.
Lemma upd_proj : forall A B (p : A -> B) f i x, p x = p (f i) -> forall j, p (upd f i x j) = p (f j).
Proof. intros A B p f i x H. apply (upd_forall A (fun j y => p y = p (f j))); [exact H|reflexivity]. Qed.

Lemma in_cons_eq : forall (v u : nat) l, In v (u :: l) <-> v = u \/ In v l.
Proof. intros. cbn. split; intros [H|H]; auto. Qed.
Lemma in_erase : forall v u l, In u (erase v l) <-> In u l /\ u <> v.
Proof. intros. split; [apply in_remove|intros [H1 H2]; apply in_in_remove; assumption]. Qed.
Lemma erase_notin : forall v l, ~ In v l -> erase v l = l.
Proof. intros. apply notin_remove. assumption. Qed.
Lemma nodup_erase : forall v l, NoDup l -> NoDup (erase v l).
Proof.
  intros v l H. induction H as [|a l Hn Hd IH]; cbn; [constructor|].
  destruct (Nat.eq_dec v a); [exact IH|].
  constructor; [|exact IH]. intro Hin. apply in_erase in Hin. tauto.
Qed.
Lemma lookup_none : forall c es, lookup c es = None <-> ~ In c (map fst es).
Proof.
  induction es as [|[c' w] r IH]; cbn; [tauto|].
  destruct (Nat.eqb_spec c' c) as [->|n]; [split; [discriminate|intro H; destruct H; now left]|rewrite IH; tauto].
Qed.
Lemma lookup_some_in : forall c es w, lookup c es = Some w -> In c (map fst es).
Proof.
  intros c es w H. destruct (in_dec Nat.eq_dec c (map fst es)) as [Hi|Hn]; [exact Hi|].
  apply lookup_none in Hn. congruence.
Qed.
Lemma lookup_app_new : forall c c' w es, lookup c' (es ++ [(c, w)]) =
   match lookup c' es with Some x => Some x | None => if Nat.eqb c c' then Some w else None end.
Proof.
  induction es as [|[a x] r IH]; cbn; [reflexivity|]. destruct (Nat.eqb a c'); [reflexivity|exact IH].
Qed.
Lemma map_fst_set_w : forall c w es, map fst (set_w c w es) = map fst es.
Proof.
  induction es as [|[a x] r IH]; cbn; [reflexivity|]. destruct (Nat.eqb a c); cbn; [|rewrite IH]; reflexivity.
Qed.
Lemma lookup_set_w : forall c w c' es, In c (map fst es) ->
  lookup c' (set_w c w es) = if Nat.eqb c c' then Some w else lookup c' es.
Proof.
  induction es as [|[a x] r IH]; cbn; [tauto|]. intros H. destruct (Nat.eqb_spec a c) as [->|n]; cbn.
  - destruct (Nat.eqb c c'); reflexivity.
  - destruct H as [H|H]; [contradiction|]. rewrite (IH H). destruct (Nat.eqb_spec a c') as [->|_]; [|reflexivity].
    destruct (Nat.eqb_spec c c'); [congruence|reflexivity].
Qed.
Lemma in_del_key : forall c c' es, In c' (map fst (del_key c es)) <-> In c' (map fst es) /\ c' <> c.
Proof.
  induction es as [|[a x] r IH]; cbn; [tauto|]. destruct (Nat.eqb_spec a c) as [->|n]; cbn; rewrite IH.
  - split; [intros [H1 H2]; split; [right; exact H1|exact H2]|intros [[H|H] H2]; [congruence|split; assumption]].
  - split.
    + intros [H|[H1 H2]]; [subst a; split; [left; reflexivity|exact n]|split; [right; exact H1|exact H2]].
    + intros [[H|H] H2]; [left; exact H|right; split; assumption].
Qed.
Lemma nodup_del_key : forall c es, NoDup (map fst es) -> NoDup (map fst (del_key c es)).
Proof.
  induction es as [|[a x] r IH]; cbn; intro H; [constructor|]. inv H.
  destruct (Nat.eqb a c); [auto|]. cbn. constructor; [|auto]. rewrite in_del_key. tauto.
Qed.
Lemma lookup_del_key : forall c c' es, lookup c' (del_key c es) = if Nat.eqb c c' then None else lookup c' es.
Proof.
  induction es as [|[a x] r IH]; cbn; [destruct (Nat.eqb c c'); reflexivity|]. destruct (Nat.eqb_spec a c) as [->|n]; cbn; rewrite IH.
  - destruct (Nat.eqb c c'); reflexivity.
  - destruct (Nat.eqb_spec a c') as [->|_]; [|reflexivity]. destruct (Nat.eqb_spec c c'); [congruence|reflexivity].
Qed.

(* one pass over the elements of a variable = a pointwise update (constraints of a variable are distinct) *)
Lemma apply_elems_notin : forall g es cn c, ~ In c (map fst es) -> apply_elems g es cn c = cn c.
Proof.
  unfold apply_elems. induction es as [|[a w] r IH]; cbn; intros cn c H; [reflexivity|].
  rewrite IH by tauto. apply upd_other. intro; subst; tauto.
Qed.
Lemma apply_elems_spec : forall g es cn c, NoDup (map fst es) ->
  apply_elems g es cn c = match lookup c es with Some w => g w (cn c) | None => cn c end.
Proof.
  unfold apply_elems. induction es as [|[a w] r IH]; cbn; intros cn c H; [reflexivity|]. inv H.
  destruct (Nat.eqb_spec a c) as [->|n].
  - fold (apply_elems g r (upd cn c (g w (cn c)))). rewrite apply_elems_notin by assumption. apply upd_same.
  - rewrite IH by assumption. rewrite upd_other by congruence. reflexivity.
Qed.
Definition count_w (wt : nat -> Q) (l : list nat) : Z := fold_right (fun v a => share (wt v) + a) 0 l.
Lemma count_cons : forall wt a l, count_w wt (a :: l) = share (wt a) + count_w wt l.
Proof. reflexivity. Qed.
Lemma count_ext : forall wt wt' l, (forall v, In v l -> wt v = wt' v) -> count_w wt l = count_w wt' l.
Proof.
  induction l as [|a l IH]; intro H; [reflexivity|]. rewrite !count_cons. rewrite H by now left. rewrite IH; [reflexivity|].
  intros; apply H; now right.
Qed.
Lemma erase_cons : forall v a l, erase v (a :: l) = if Nat.eq_dec v a then erase v l else a :: erase v l.
Proof. reflexivity. Qed.
Lemma count_erase : forall wt v l, NoDup l -> In v l -> count_w wt (erase v l) = count_w wt l - share (wt v).
Proof.
  intros wt v l H. induction H as [|a l Ha Hd IH]; [cbn; tauto|]. intros Hin. rewrite erase_cons, count_cons.
  destruct (Nat.eq_dec v a) as [e|n].
  - subst a. rewrite erase_notin by assumption. lia.
  - destruct Hin as [Hin|Hin]; [congruence|]. rewrite count_cons, IH by assumption. lia.
Qed.
Lemma count_upd_one : forall wt wt' v l, NoDup l -> In v l -> (forall u, u <> v -> wt' u = wt u) ->
  count_w wt' l = count_w wt l - share (wt v) + share (wt' v).
Proof.
  intros wt wt' v l H. induction H as [|a l Ha Hd IH]; [cbn; tauto|]. intros Hin Hw. rewrite !count_cons.
  destruct Hin as [Hin|Hin].
  - subst a. rewrite (count_ext wt' wt l); [lia|]. intros u Hu. apply Hw. intro; subst; contradiction.
  - rewrite IH by assumption. rewrite (Hw a) by (intro; subst; contradiction). lia.
Qed.
Lemma count_snoc : forall wt l v, count_w wt (l ++ [v]) = count_w wt l + share (wt v).
Proof. induction l as [|a l IH]; intros; [cbn; lia|]. cbn [app]. rewrite !count_cons, IH. lia. Qed.
Lemma share_01 : forall w, share w = 0 \/ share w = 1.
Proof. intro. unfold share. destruct (_ <=? _); auto. Qed.

Lemma min_slack_aux_pos : forall cn es m, 0 < min_slack_aux cn es m ->
  0 < m /\ forall c, In c (map fst es) -> 0 < slack (cn c).
Proof.
  induction es as [|[c w] r IH]; cbn; intros m H; [split; [exact H|tauto]|].
  destruct (slack (cn c) <? m) eqn:E1.
  - destruct (slack (cn c) =? 0) eqn:E2; [lia|].
    apply IH in H. destruct H as [H1 H2]. split; [lia|]. intros c' [Hc|Hc]; [subst; exact H1|auto].
  - apply IH in H. destruct H as [H1 H2]. split; [exact H1|]. intros c' [Hc|Hc]; [subst; lia|auto].
Qed.
(* the result is the starting value or the slack of one of the constraints (the early return gives the zero slack it met) *)
Lemma min_slack_aux_attained : forall cn es m,
  min_slack_aux cn es m = m \/ exists c, In c (map fst es) /\ min_slack_aux cn es m = slack (cn c).
Proof.
  induction es as [|[c w] r IH]; cbn; intros m; [now left|].
  destruct (slack (cn c) <? m) eqn:E1.
  - destruct (slack (cn c) =? 0) eqn:E2; [right; exists c; split; [now left|lia]|].
    destruct (IH (slack (cn c))) as [H|[c' [H1 H2]]]; right; [exists c; split; [now left|exact H]|exists c'; split; [now right|exact H2]].
  - destruct (IH m) as [H|[c' [H1 H2]]]; [now left|right; exists c'; split; [now right|exact H2]].
Qed.
Lemma can_enable_iff : forall s u, can_enable s u = true <-> qpos (v_staged (s_var s u)) = true /\ 0 < min_slack s u.
Proof. intros. unfold can_enable. rewrite andb_true_iff, Z.ltb_lt. tauto. Qed.

Definition wt_of (x : var) (c : nat) : Q := match lookup c (v_elems x) with Some w => w | None => 0%Q end.
(* [x] belongs in the enabled ([b = true]) or disabled ([b = false]) list of constraint [c] *)
Definition listed (b : bool) (x : var) (c : nat) : Prop :=
  v_alive x = true /\ qpos (v_pen x) = b /\ In c (map fst (v_elems x)).
(* what [x] adds to concurrency_current_ of [c] *)
Definition cnt (x : var) (c : nat) : Z := if qpos (v_pen x) then share (wt_of x c) else 0.

Record var_ok (x : var) : Prop := {
  k_nd_el : NoDup (map fst (v_elems x));
  k_sign : 0 <= Qnum (v_pen x) /\ 0 <= Qnum (v_staged x);
  k_st_pen : qpos (v_staged x) = true -> qpos (v_pen x) = false;
  k_dead : v_alive x <> true -> v_elems x = [] /\ qpos (v_staged x) = false;
  k_want : qpos (v_want x) = false -> qpos (v_pen x) = false /\ qpos (v_staged x) = false }.
Record cn_ok (var : nat -> var) (c : nat) (k : cnst) : Prop := {
  k_en : forall v, In v (c_en k) <-> listed true (var v) c;
  k_dis : forall v, In v (c_dis k) <-> listed false (var v) c;
  k_nd_en : NoDup (c_en k);
  k_nd_dis : NoDup (c_dis k);
  k_cur : c_cur k = count_w (fun v => wt_of (var v) c) (c_en k) }.
Arguments k_nd_el {x}. Arguments k_sign {x}. Arguments k_st_pen {x}. Arguments k_dead {x}. Arguments k_want {x}.
Arguments k_en {var c k}. Arguments k_dis {var c k}. Arguments k_nd_en {var c k}. Arguments k_nd_dis {var c k}.
Arguments k_cur {var c k}.

Lemma wt_of_lookup : forall x c w, lookup c (v_elems x) = Some w -> wt_of x c = w.
Proof. intros x c w H. unfold wt_of. now rewrite H. Qed.
Lemma wt_of_off : forall x c, ~ In c (map fst (v_elems x)) -> wt_of x c = 0%Q.
Proof. intros x c H. unfold wt_of. apply lookup_none in H. now rewrite H. Qed.
Lemma cnt_off : forall x c, ~ In c (map fst (v_elems x)) -> cnt x c = 0.
Proof. intros x c H. unfold cnt. rewrite (wt_of_off x c H). destruct (qpos (v_pen x)); reflexivity. Qed.
Lemma cnt_listed : forall x c, var_ok x -> (listed true x c -> cnt x c = share (wt_of x c)) /\ (~ listed true x c -> cnt x c = 0).
Proof.
  intros x c K. unfold listed, cnt. split; [intros [_ [-> _]]; reflexivity|]. intro H.
  destruct (qpos (v_pen x)); [|reflexivity].
  destruct (in_dec Nat.eq_dec c (map fst (v_elems x))) as [O|O]; [|rewrite (wt_of_off x c O); reflexivity].
  destruct (k_dead K) as [E _]; [tauto|]. rewrite E in O. destruct O.
Qed.
(* [l] holds the variables that satisfy some predicate; [was]/[now]: does [u] satisfy it before/after its change *)
Inductive edit (was now : Prop) (u : nat) (l : list nat) : list nat -> Prop :=
| ed_keep : (was <-> now) -> edit was now u l l
| ed_cons : ~ was -> now -> edit was now u l (u :: l)
| ed_snoc : ~ was -> now -> edit was now u l (l ++ [u])
| ed_erase : ~ now -> edit was now u l (erase u l).

Lemma edit_tracks : forall (P P' : nat -> Prop) u l l',
  NoDup l -> (forall v, In v l <-> P v) -> edit (P u) (P' u) u l l' -> (forall v, v <> u -> (P' v <-> P v)) ->
  NoDup l' /\ forall v, In v l' <-> P' v.
Proof.
  intros P P' u l l' N M E F. assert (Mu := M u).
  (* away from [u] membership in [l] decides [P'] as it decided [P] *)
  assert (G : forall v, v <> u -> (In v l <-> P' v)) by (intros v n; rewrite (F v n); apply M).
  destruct E as [Hk|Hw Hn|Hw Hn|Hn].
  - split; [exact N|]. intro v. destruct (Nat.eq_dec v u) as [->|n]; [rewrite Mu; exact Hk|exact (G v n)].
  - split; [constructor; [tauto|exact N]|]. intro v. rewrite in_cons_eq. destruct (Nat.eq_dec v u) as [->|n]; [tauto|].
    rewrite <- (G v n). tauto.
  - split; [apply NoDup_snoc; [exact N|tauto]|]. intro v. rewrite in_app_iff, in_cons_eq. cbn [In].
    destruct (Nat.eq_dec v u) as [->|n]; [tauto|]. rewrite <- (G v n). tauto.
  - split; [apply nodup_erase; exact N|]. intro v. rewrite in_erase. destruct (Nat.eq_dec v u) as [->|n]; [tauto|].
    rewrite <- (G v n). tauto.
Qed.
Lemma edit_count : forall (was now : Prop) u l l' (f f' : nat -> Q) a a',
  NoDup l -> (In u l <-> was) -> edit was now u l l' -> (forall v, v <> u -> f' v = f v) ->
  (was -> a = share (f u)) -> (~ was -> a = 0) -> (now -> a' = share (f' u)) -> (~ now -> a' = 0) ->
  count_w f' l' = count_w f l - a + a'.
Proof.
  intros was now u l l' f f' a a' N M E F A1 A0 B1 B0.
  assert (X : forall l0, ~ In u l0 -> count_w f' l0 = count_w f l0).
  { intros l0 H. apply count_ext. intros v Hv. apply F. intro; subst; contradiction. }
  destruct E as [Hk|Hw Hn|Hw Hn|Hn].
  - destruct (in_dec Nat.eq_dec u l) as [i|n].
    + assert (W := proj1 M i). rewrite (count_upd_one f f' u l N i F), (A1 W), (B1 (proj1 Hk W)). reflexivity.
    + assert (W : ~ was) by tauto. assert (W' : ~ now) by tauto. rewrite (X l n), (A0 W), (B0 W'). lia.
  - assert (n : ~ In u l) by tauto. rewrite count_cons, (X l n), (A0 Hw), (B1 Hn). lia.
  - assert (n : ~ In u l) by tauto. rewrite count_snoc, (X l n), (A0 Hw), (B1 Hn). lia.
  - rewrite X by (rewrite in_erase; tauto). rewrite (B0 Hn). destruct (in_dec Nat.eq_dec u l) as [i|n].
    + rewrite count_erase, (A1 (proj1 M i)) by assumption. lia.
    + assert (W : ~ was) by tauto. rewrite erase_notin, (A0 W) by exact n. lia.
Qed.

(* one constraint record before and after variable [u] went from [x] to [x'] *)
Record trans (u : nat) (x x' : var) (c : nat) (k k' : cnst) : Prop := {
  t_en : edit (listed true x c) (listed true x' c) u (c_en k) (c_en k');
  t_dis : edit (listed false x c) (listed false x' c) u (c_dis k) (c_dis k');
  t_cur : c_cur k' = c_cur k - cnt x c + cnt x' c }.

Lemma cnt_01 : forall x c, 0 <= cnt x c <= 1.
Proof. intros. unfold cnt. destruct (qpos (v_pen x)); [destruct (share_01 (wt_of x c))|]; lia. Qed.
Lemma cnt_pen0 : forall x c, qpos (v_pen x) = false -> cnt x c = 0.
Proof. intros x c H. unfold cnt. now rewrite H. Qed.

Lemma cn_ok_step : forall var var' u c k k', (forall v, v <> u -> var' v = var v) -> var_ok (var u) -> var_ok (var' u) ->
  cn_ok var c k -> trans u (var u) (var' u) c k k' -> cn_ok var' c k'.
Proof.
  intros var var' u c k k' V K K' O [Te Td Tc].
  assert (L : forall b v, v <> u -> (listed b (var' v) c <-> listed b (var v) c)) by (intros b v n; rewrite (V v n); tauto).
  destruct (edit_tracks (fun v => listed true (var v) c) (fun v => listed true (var' v) c) u (c_en k) (c_en k')) as [N1 M1];
    [apply (k_nd_en O)|apply (k_en O)|exact Te|apply L|].
  destruct (edit_tracks (fun v => listed false (var v) c) (fun v => listed false (var' v) c) u (c_dis k) (c_dis k')) as [N2 M2];
    [apply (k_nd_dis O)|apply (k_dis O)|exact Td|apply L|].
  split; try assumption.
  rewrite Tc, (k_cur O). symmetry.
  apply (edit_count (listed true (var u) c) (listed true (var' u) c) u (c_en k) (c_en k') (fun v => wt_of (var v) c)); cbv beta.
  - apply (k_nd_en O).
  - apply (k_en O).
  - exact Te.
  - intros v n. rewrite (V v n). reflexivity.
  - apply (cnt_listed (var u) c K).
  - apply (cnt_listed (var u) c K).
  - apply (cnt_listed (var' u) c K').
  - apply (cnt_listed (var' u) c K').
Qed.
Lemma trans_same : forall u x x' c k, (forall b, listed b x c <-> listed b x' c) -> cnt x c = cnt x' c -> trans u x x' c k k.
Proof. intros u x x' c k L C. split; [apply ed_keep; apply L|apply ed_keep; apply L|lia]. Qed.
Lemma trans_off : forall u x x' c k, ~ In c (map fst (v_elems x)) -> ~ In c (map fst (v_elems x')) -> trans u x x' c k k.
Proof. intros u x x' c k H H'. apply trans_same; [unfold listed; tauto|rewrite (cnt_off x c H), (cnt_off x' c H'); reflexivity]. Qed.
Lemma trans_keep : forall u x x' c k, v_alive x' = v_alive x -> qpos (v_pen x') = qpos (v_pen x) ->
  lookup c (v_elems x') = lookup c (v_elems x) -> trans u x x' c k k.
Proof.
  intros u x x' c k Ha Hp Hl.
  assert (O : In c (map fst (v_elems x')) <-> In c (map fst (v_elems x))).
  { destruct (lookup c (v_elems x)) eqn:E.
    - split; intros _; eapply lookup_some_in; eassumption.
    - apply lookup_none in E, Hl. tauto. }
  apply trans_same; [intro b; unfold listed; rewrite Ha, Hp, O; tauto|unfold cnt, wt_of; rewrite Hp, Hl; reflexivity].
Qed.

Record inv_struct (s : sys) : Prop := {
  i_var : forall v, var_ok (s_var s v);
  i_cn : forall c, cn_ok (s_var s) c (s_cn s c) }.
Arguments i_var {s}. Arguments i_cn {s}.

(* the one way the structure changes: variable [u] gets a new record and every constraint record follows *)
Lemma struct_step : forall s s' u, inv_struct s -> (forall v, v <> u -> s_var s' v = s_var s v) -> var_ok (s_var s' u) ->
  (forall c, trans u (s_var s u) (s_var s' u) c (s_cn s c) (s_cn s' c)) -> inv_struct s'.
Proof.
  intros s s' u I V K T. split.
  - intro v. destruct (Nat.eq_dec v u) as [->|n]; [exact K|rewrite (V v n); apply (i_var I)].
  - intro c. apply (cn_ok_step (s_var s) (s_var s') u c (s_cn s c)); [exact V|apply (i_var I)|exact K|apply (i_cn I)|apply T].
Qed.

Definition on (s : sys) (v c : nat) : Prop := In c (map fst (v_elems (s_var s v))).
Definition alive (s : sys) (v : nat) : Prop := v_alive (s_var s v) = true.
Definition stagedv (s : sys) (v : nat) : bool := qpos (v_staged (s_var s v)).

Definition lim_ok (s : sys) : Prop := forall c, 0 <= c_limit (s_cn s c) -> c_cur (s_cn s c) <= c_limit (s_cn s c).
Definition fullc (s : sys) (c : nat) : Prop := 0 <= c_limit (s_cn s c) /\ c_cur (s_cn s c) = c_limit (s_cn s c).
Definition stuck (s : sys) (u : nat) : Prop := exists c, on s u c /\ fullc s c.
Definition pend (P : list nat) (s : sys) (u : nat) : Prop :=
  exists c, In c P /\ on s u c /\ 0 <= c_limit (s_cn s c).
(* every live staged variable (but [x]) uses a full constraint, or is excused by [E] *)
Definition just_or (E : nat -> Prop) (x : option nat) (s : sys) : Prop :=
  forall u, Some u <> x -> alive s u -> stagedv s u = true -> stuck s u \/ E u.
(* the excuse: it uses one of the constraints [P] that on_disabled_var is still to revisit *)
Definition just (P : list nat) (x : option nat) (s : sys) : Prop := just_or (pend P s) x s.
Definition inv (s : sys) : Prop := inv_struct s /\ lim_ok s /\ just [] None s.

Lemma qpos_0 : qpos 0 = false. Proof. reflexivity. Qed.

(* what the primitives leave alone, whatever the state *)
Record wframe (s s' : sys) : Prop := {
  f_elems : forall v, v_elems (s_var s' v) = v_elems (s_var s v);
  f_alive : forall v, v_alive (s_var s' v) = v_alive (s_var s v);
  f_limit : forall c, c_limit (s_cn s' c) = c_limit (s_cn s c);
  f_nv : s_nv s' = s_nv s;
  f_nc : s_nc s' = s_nc s }.
Lemma wframe_refl : forall s, wframe s s.
Proof. intro s. split; reflexivity. Qed.
Lemma wframe_trans : forall s1 s2 s3, wframe s1 s2 -> wframe s2 s3 -> wframe s1 s3.
Proof. intros s1 s2 s3 [A1 A2 A3 A4 A5] [B1 B2 B3 B4 B5]. split; intros; congruence. Qed.
Lemma wframe_on : forall s s' v c, wframe s s' -> (on s' v c <-> on s v c).
Proof. intros s s' v c F. unfold on. rewrite (f_elems _ _ F). tauto. Qed.
Lemma wframe_alive : forall s s' v, wframe s s' -> (alive s' v <-> alive s v).
Proof. intros s s' v F. unfold alive. rewrite (f_alive _ _ F). tauto. Qed.
Lemma wframe_pend : forall P s s' u, wframe s s' -> pend P s u -> pend P s' u.
Proof.
  intros P s s' u F [c [A [B C]]]. exists c. rewrite (wframe_on _ _ _ _ F), (f_limit _ _ F). tauto.
Qed.

Lemma apply_elems_rel : forall (R : cnst -> cnst -> Prop) g, (forall k, R k k) -> (forall a b c, R a b -> R b c -> R a c) ->
  (forall w k, R k (g w k)) -> forall es cn c, R (cn c) (apply_elems g es cn c).
Proof.
  intros R g Rr Rt Rg. unfold apply_elems. induction es as [|e r IH]; intros cn c; [apply Rr|]. cbn [fold_left].
  eapply Rt; [|apply IH]. unfold upd. destruct (Nat.eqb_spec c (fst e)) as [->|_]; [apply Rg|apply Rr].
Qed.
(* enable_var, disable_var: one record is replaced, liveness and elements kept, and its constraints are edited in one pass *)
Lemma pass_wframe : forall s u x' g, v_alive x' = v_alive (s_var s u) -> v_elems x' = v_elems (s_var s u) ->
  (forall w k, c_limit (g w k) = c_limit k) ->
  wframe s (mkSys (s_nv s) (s_nc s) (upd (s_var s) u x') (apply_elems g (v_elems (s_var s u)) (s_cn s))).
Proof.
  intros s u x' g Ha He Hg. split; cbn [s_var s_cn s_nv s_nc]; try reflexivity.
  - apply (upd_proj _ _ v_elems). exact He.
  - apply (upd_proj _ _ v_alive). exact Ha.
  - intro c. symmetry. apply (apply_elems_rel (fun k k' => c_limit k = c_limit k')); congruence.
Qed.
Lemma enable_var_wframe : forall s u, wframe s (enable_var s u).
Proof. intros. apply pass_wframe; reflexivity. Qed.
Lemma disable_var_wframe : forall s u, wframe s (disable_var s u).
Proof. intros. apply pass_wframe; reflexivity. Qed.
Lemma set_var_wframe : forall s v y, v_alive y = v_alive (s_var s v) -> v_elems y = v_elems (s_var s v) -> wframe s (set_var s v y).
Proof.
  intros s v y Ha He. split; cbn [set_var s_var s_cn s_nv s_nc]; try reflexivity.
  - apply (upd_proj _ _ v_elems). exact He.
  - apply (upd_proj _ _ v_alive). exact Ha.
Qed.
Lemma try_enable_wframe : forall s u, wframe s (if can_enable s u then enable_var s u else s).
Proof. intros. destruct (can_enable s u); [apply enable_var_wframe|apply wframe_refl]. Qed.
Lemma odv_loop_wframe : forall c l s, wframe s (odv_loop c l s).
Proof.
  intros c. induction l as [|u r IH]; intro s; [apply wframe_refl|]. cbn [odv_loop]. assert (F := try_enable_wframe s u).
  destruct (_ =? _); [exact F|]. eapply wframe_trans; [exact F|apply IH].
Qed.
Lemma odv_wframe : forall s c, wframe s (on_disabled_var s c).
Proof. intros. unfold on_disabled_var. destruct (_ <? _); [apply wframe_refl|apply odv_loop_wframe]. Qed.
Lemma odv_all_wframe : forall es s, wframe s (odv_all s es).
Proof.
  unfold odv_all. induction es as [|e r IH]; intro s; [apply wframe_refl|]. cbn [fold_left].
  eapply wframe_trans; [apply odv_wframe|apply IH].
Qed.
Lemma enable_var_other : forall s u v, v <> u -> s_var (enable_var s u) v = s_var s v.
Proof. intros. apply upd_other. assumption. Qed.
Lemma disable_var_other : forall s u v, v <> u -> s_var (disable_var s u) v = s_var s v.
Proof. intros. apply upd_other. assumption. Qed.

(* transporting the justification of the staged variables to a new state *)
Lemma just_map : forall E E' x s s', just_or E x s ->
  (forall u, Some u <> x -> alive s' u -> stagedv s' u = true -> (alive s u /\ stagedv s u = true) \/ stuck s' u \/ E' u) ->
  (forall u c, Some u <> x -> on s u c -> fullc s c -> stuck s' u \/ E' u) ->
  (forall u, Some u <> x -> stagedv s' u = true -> E u -> stuck s' u \/ E' u) -> just_or E' x s'.
Proof.
  intros E E' x s s' J H1 H2 H3 u Hx Ha Hs. destruct (H1 u Hx Ha Hs) as [[Ha0 Hs0]|[H|H]]; [|now left|now right].
  destruct (J u Hx Ha0 Hs0) as [[c [A B]]|A]; [apply (H2 u c Hx A B)|apply (H3 u Hx Hs A)].
Qed.

Lemma staged_back : forall s s' v, (forall u, u <> v -> s_var s' u = s_var s u) -> stagedv s' v = false ->
  forall u, alive s' u -> stagedv s' u = true -> alive s u /\ stagedv s u = true.
Proof.
  intros s s' v V Hv u Ha Hs. destruct (Nat.eq_dec u v) as [->|n]; [congruence|]. unfold alive, stagedv in *.
  rewrite (V u n) in Ha, Hs. tauto.
Qed.

(* what on_disabled_var guarantees beside [wframe], on states that satisfy the invariants *)
Record keeps (s s' : sys) : Prop := {
  f_unstaged : forall v, stagedv s v = false -> s_var s' v = s_var s v;
  f_full : forall c, fullc s c -> fullc s' c }.
Lemma keeps_refl : forall s, keeps s s.
Proof. intro s. split; auto. Qed.
Lemma keeps_trans : forall s1 s2 s3, keeps s1 s2 -> keeps s2 s3 -> keeps s1 s3.
Proof.
  intros s1 s2 s3 A B. split.
  - intros v H. assert (H2 := f_unstaged _ _ A v H). rewrite <- H2. apply (f_unstaged _ _ B). unfold stagedv. rewrite H2. exact H.
  - intros c H. apply (f_full _ _ B), (f_full _ _ A), H.
Qed.
Lemma just_keeps : forall E E' x s s', wframe s s' -> keeps s s' -> just_or E x s ->
  (forall u, stagedv s' u = true -> E u -> stuck s' u \/ E' u) -> just_or E' x s'.
Proof.
  intros E E' x s s' F K J HE. apply (just_map E E' x s s' J).
  - intros u _ Ha Hs. left. split; [apply (wframe_alive _ _ _ F); exact Ha|].
    destruct (stagedv s u) eqn:E0; [reflexivity|]. unfold stagedv in *. rewrite (f_unstaged _ _ K u E0) in Hs. congruence.
  - intros u c _ A B. left. exists c. split; [apply (wframe_on _ _ _ _ F); exact A|apply (f_full _ _ K); exact B].
  - intros u _. apply HE.
Qed.

Lemma enable_var_cn : forall s u c, NoDup (map fst (v_elems (s_var s u))) -> s_cn (enable_var s u) c =
  match lookup c (v_elems (s_var s u)) with Some w => cn_enable u w (s_cn s c) | None => s_cn s c end.
Proof. intros. apply apply_elems_spec. assumption. Qed.

Lemma enable_var_trans : forall s u c, inv_struct s -> alive s u -> stagedv s u = true ->
  trans u (s_var s u) (s_var (enable_var s u) u) c (s_cn s c) (s_cn (enable_var s u) c).
Proof.
  intros s u c I Ha Hs. assert (K := i_var I u). assert (Hne := k_st_pen K Hs). unfold alive, stagedv in *.
  rewrite enable_var_cn by apply (k_nd_el K). unfold enable_var. cbn [s_var]. rewrite upd_same.
  destruct (lookup c (v_elems (s_var s u))) as [w|] eqn:El.
  - assert (O := lookup_some_in _ _ _ El). split; unfold listed, cnt; cbn [cn_enable c_en c_dis c_cur v_alive v_pen v_elems].
    + apply ed_cons; [intros [_ [H _]]; congruence|tauto].
    + apply ed_erase. intros [_ [H _]]. congruence.
    + rewrite Hne, Hs. unfold wt_of. cbn [v_elems]. rewrite El. lia.
  - apply lookup_none in El. apply trans_off; exact El.
Qed.
Lemma enable_var_struct : forall s u, inv_struct s -> alive s u -> stagedv s u = true -> inv_struct (enable_var s u).
Proof.
  intros s u I Ha Hs. assert (K := i_var I u).
  apply (struct_step s _ u I); [intros; apply enable_var_other; assumption| |intro c; apply enable_var_trans; assumption].
  unfold enable_var. cbn [s_var]. rewrite upd_same.
  split; cbn; [apply (k_nd_el K)|split; [apply (k_sign K)|lia]|discriminate|intro H; destruct (H Ha)|].
  intro H. destruct (k_want K H) as [_ H']. unfold stagedv in Hs. congruence.
Qed.

Lemma min_slack_pos : forall s u c, 0 < min_slack s u -> on s u c -> 0 < slack (s_cn s c).
Proof. intros s u c H Ho. apply min_slack_aux_pos in H. apply H. exact Ho. Qed.
Lemma slack_full : forall s c, fullc s c -> slack (s_cn s c) = 0.
Proof. intros s c [H1 H2]. unfold slack. destruct (c_limit (s_cn s c) <? 0) eqn:E; lia. Qed.

Lemma enable_var_lim : forall s u, inv_struct s -> lim_ok s -> 0 < min_slack s u -> lim_ok (enable_var s u).
Proof.
  intros s u I L Hm c. rewrite enable_var_cn by apply (k_nd_el (i_var I u)).
  destruct (lookup c (v_elems (s_var s u))) as [w|] eqn:El; [|apply L].
  cbn [cn_enable c_limit c_cur]. intro Hl. apply lookup_some_in in El.
  assert (Hs := min_slack_pos s u c Hm El). unfold slack in Hs.
  destruct (c_limit (s_cn s c) <? 0) eqn:E; [lia|]. destruct (share_01 w); lia.
Qed.
Lemma enable_var_keeps : forall s u, inv_struct s -> stagedv s u = true -> 0 < min_slack s u -> keeps s (enable_var s u).
Proof.
  intros s u I Hs Hm. split.
  - intros v Hv. apply enable_var_other. congruence.
  - intros c Hf. unfold fullc. rewrite enable_var_cn by apply (k_nd_el (i_var I u)).
    destruct (lookup c (v_elems (s_var s u))) as [w|] eqn:El; [|exact Hf].
    apply lookup_some_in in El. assert (H1 := min_slack_pos s u c Hm El). rewrite (slack_full s c Hf) in H1. lia.
Qed.

Lemma min_slack_nonneg : forall s u, lim_ok s -> 0 <= min_slack s u.
Proof.
  intros s u L. unfold min_slack.
  destruct (min_slack_aux_attained (s_cn s) (v_elems (s_var s u)) INT_MAX) as [E|[c [_ E]]]; rewrite E; [unfold INT_MAX; lia|].
  unfold slack. specialize (L c). destruct (c_limit (s_cn s c) <? 0) eqn:E0; [unfold INT_MAX; lia|lia].
Qed.
(* a variable is refused by can_enable only because one of its constraints is full *)
Lemma no_slack_stuck : forall s u, lim_ok s -> min_slack s u <= 0 -> stuck s u.
Proof.
  intros s u L Hm. unfold min_slack in Hm.
  destruct (min_slack_aux_attained (s_cn s) (v_elems (s_var s u)) INT_MAX) as [E|[c [Hc E]]]; rewrite E in Hm; [unfold INT_MAX in Hm; lia|].
  exists c. split; [exact Hc|]. unfold slack in Hm. unfold fullc. specialize (L c).
  destruct (c_limit (s_cn s c) <? 0) eqn:E0; [unfold INT_MAX in Hm; lia|]. lia.
Qed.

(* one iteration: afterwards [u] is enabled, or stuck *)
Lemma try_enable_ok : forall s u, inv_struct s -> lim_ok s -> alive s u ->
  let s1 := if can_enable s u then enable_var s u else s in
  inv_struct s1 /\ lim_ok s1 /\ keeps s s1 /\ (stagedv s1 u = true -> stuck s1 u).
Proof.
  intros s u I L Ha. cbv zeta. destruct (can_enable s u) eqn:Ec.
  - apply can_enable_iff in Ec. destruct Ec as [Es Hm].
    split; [apply enable_var_struct; assumption|]. split; [apply enable_var_lim; assumption|].
    split; [apply enable_var_keeps; assumption|].
    unfold stagedv, enable_var. cbn [s_var]. rewrite upd_same. discriminate.
  - refine (conj I (conj L (conj (keeps_refl s) _))). intro Hs. apply no_slack_stuck; [exact L|].
    destruct (Z.ltb_spec 0 (min_slack s u)) as [Hm|Hm]; [|exact Hm].
    rewrite (proj2 (can_enable_iff s u) (conj Hs Hm)) in Ec. discriminate.
Qed.

(* the excuse during the walk: the variable is on [c], in the part [l] of the disabled list still to be walked *)
Lemma odv_loop_ok : forall c P x l s,
  inv_struct s -> lim_ok s -> 0 <= c_limit (s_cn s c) -> (forall u, In u l -> alive s u) ->
  just_or (fun u => pend P s u \/ (on s u c /\ In u l)) x s ->
  inv_struct (odv_loop c l s) /\ lim_ok (odv_loop c l s) /\ just P x (odv_loop c l s) /\ keeps s (odv_loop c l s).
Proof.
  intros c P x. induction l as [|u r IH]; intros s I L Hl Hal J.
  - refine (conj I (conj L (conj _ (keeps_refl s)))).
    intros u Hx Ha Hs. destruct (J u Hx Ha Hs) as [H|[H|[_ []]]]; [now left|now right].
  - cbn [odv_loop]. assert (F1 := try_enable_wframe s u).
    destruct (try_enable_ok s u I L (Hal u (or_introl eq_refl))) as [I1 [L1 [K1 S1]]].
    set (s1 := if can_enable s u then enable_var s u else s) in *.
    assert (J1 : just_or (fun u' => pend P s1 u' \/ (on s1 u' c /\ In u' r)) x s1).
    { apply (just_keeps _ _ x s s1 F1 K1 J). intros u' Hs' [Hp|[Ho [<-|Hi]]].
      - right; left. apply (wframe_pend _ _ _ _ F1). exact Hp.
      - left. apply S1. exact Hs'.
      - right; right. split; [apply (wframe_on _ _ _ _ F1); exact Ho|exact Hi]. }
    destruct (c_cur (s_cn s1 c) =? c_limit (s_cn s1 c)) eqn:Efull.
    + refine (conj I1 (conj L1 (conj _ K1))).
      intros u' Hx Ha Hs. destruct (J1 u' Hx Ha Hs) as [H|[H|[A _]]]; [now left|now right|].
      left. exists c. split; [exact A|]. split; [rewrite (f_limit _ _ F1); exact Hl|lia].
    + destruct (IH s1 I1 L1) as [A [B [C D]]].
      * rewrite (f_limit _ _ F1). exact Hl.
      * intros u' Hu. apply (wframe_alive _ _ _ F1). apply Hal. now right.
      * exact J1.
      * refine (conj A (conj B (conj C _))). eapply keeps_trans; eassumption.
Qed.

Lemma on_disabled_var_ok : forall s c P x,
  inv_struct s -> lim_ok s -> just (c :: P) x s ->
  inv_struct (on_disabled_var s c) /\ lim_ok (on_disabled_var s c) /\ just P x (on_disabled_var s c) /\ keeps s (on_disabled_var s c).
Proof.
  intros s c P x I L J. unfold on_disabled_var. destruct (c_limit (s_cn s c) <? 0) eqn:E.
  - refine (conj I (conj L (conj _ (keeps_refl s)))).
    intros u Hx Ha Hs. destruct (J u Hx Ha Hs) as [H|[c' [[H|H] [H2 H3]]]]; [now left|subst; lia|].
    right. exists c'. repeat split; assumption.
  - apply odv_loop_ok; try assumption; [lia| |].
    + intros u Hu. apply (k_dis (i_cn I c)) in Hu. apply Hu.
    + intros u Hx Ha Hs. destruct (J u Hx Ha Hs) as [H|[c' [[H|H] [H2 H3]]]]; [now left| |right; left; exists c'; repeat split; assumption].
      subst c'. right; right. split; [exact H2|]. apply (k_dis (i_cn I c)). repeat split; try assumption.
      apply (k_st_pen (i_var I u)). exact Hs.
Qed.

Lemma odv_all_ok : forall es s P x,
  inv_struct s -> lim_ok s -> just (map fst es ++ P) x s ->
  inv_struct (odv_all s es) /\ lim_ok (odv_all s es) /\ just P x (odv_all s es) /\ keeps s (odv_all s es).
Proof.
  unfold odv_all. induction es as [|[c w] r IH]; intros s P x I L J.
  - refine (conj I (conj L (conj J (keeps_refl s)))).
  - cbn [fold_left fst]. cbn [map fst app] in J.
    destruct (on_disabled_var_ok s c (map fst r ++ P) x I L J) as [I1 [L1 [J1 F1]]].
    destruct (IH _ P x I1 L1 J1) as [I2 [L2 [J2 F2]]].
    refine (conj I2 (conj L2 (conj J2 _))). eapply keeps_trans; eassumption.
Qed.

Lemma disable_var_cn : forall s u c, NoDup (map fst (v_elems (s_var s u))) -> s_cn (disable_var s u) c =
  match lookup c (v_elems (s_var s u)) with Some w => cn_disable u w (s_cn s c) | None => s_cn s c end.
Proof. intros. apply apply_elems_spec. assumption. Qed.

Lemma disable_var_trans : forall s u c, inv_struct s -> alive s u -> qpos (v_pen (s_var s u)) = true ->
  trans u (s_var s u) (s_var (disable_var s u) u) c (s_cn s c) (s_cn (disable_var s u) c).
Proof.
  intros s u c I Ha He. assert (K := i_var I u). unfold alive in *.
  rewrite disable_var_cn by apply (k_nd_el K). unfold disable_var. cbn [s_var]. rewrite upd_same.
  destruct (lookup c (v_elems (s_var s u))) as [w|] eqn:El.
  - assert (O := lookup_some_in _ _ _ El). split; unfold listed, cnt; cbn [cn_disable c_en c_dis c_cur v_alive v_pen v_elems].
    + apply ed_erase. intros [_ [H _]]. discriminate.
    + apply ed_snoc; [intros [_ [H _]]; congruence|tauto].
    + rewrite He, qpos_0, (wt_of_lookup _ c w El). lia.
  - apply lookup_none in El. apply trans_off; exact El.
Qed.
Lemma disable_var_struct : forall s u, inv_struct s -> alive s u -> qpos (v_pen (s_var s u)) = true -> inv_struct (disable_var s u).
Proof.
  intros s u I Ha He. assert (K := i_var I u).
  apply (struct_step s _ u I); [intros; apply disable_var_other; assumption| |intro c; apply disable_var_trans; assumption].
  unfold disable_var. cbn [s_var]. rewrite upd_same.
  split; cbn; [apply (k_nd_el K)|lia|discriminate|intro H; destruct (H Ha)|tauto].
Qed.
Lemma disable_var_lim : forall s u, inv_struct s -> lim_ok s -> lim_ok (disable_var s u).
Proof.
  intros s u I L c. rewrite disable_var_cn by apply (k_nd_el (i_var I u)).
  destruct (lookup c (v_elems (s_var s u))) as [w|] eqn:El; [|apply L].
  cbn [cn_disable c_limit c_cur]. intro Hl. specialize (L c Hl). destruct (share_01 w); lia.
Qed.
(* after disable_var, the staged variables that lost their full constraint use a constraint of the disabled variable *)
Lemma disable_var_just : forall s u P, just P None s -> (forall c, on s u c -> In c P) -> just P None (disable_var s u).
Proof.
  intros s u P J HP. assert (F := disable_var_wframe s u). apply (just_map _ _ _ s _ J).
  - intros v _ Ha Hs. left. apply (staged_back s _ u (disable_var_other s u)); [|exact Ha|exact Hs].
    unfold stagedv, disable_var. cbn [s_var]. rewrite upd_same. reflexivity.
  - intros v c _ O B. destruct (in_dec Nat.eq_dec c (map fst (v_elems (s_var s u)))) as [i|n].
    + right. exists c. rewrite (wframe_on _ _ _ _ F), (f_limit _ _ F). split; [apply HP; exact i|split; [exact O|apply B]].
    + left. exists c. split; [apply (wframe_on _ _ _ _ F); exact O|].
      unfold fullc, disable_var. cbn [s_cn]. rewrite apply_elems_notin by exact n. exact B.
  - intros v _ _ H. right. apply (wframe_pend _ _ _ _ F). exact H.
Qed.

Lemma set_var_struct : forall s v y, inv_struct s -> var_ok y ->
  v_alive y = v_alive (s_var s v) -> v_elems y = v_elems (s_var s v) -> qpos (v_pen y) = qpos (v_pen (s_var s v)) ->
  inv_struct (set_var s v y).
Proof.
  intros s v y I K Ha He Hp. apply (struct_step s _ v I); cbn [set_var s_var s_cn]; [intros; apply upd_other; assumption| |];
    rewrite upd_same; [exact K|].
  intro c. apply trans_keep; [exact Ha|exact Hp|rewrite He; reflexivity].
Qed.
Lemma set_var_just : forall s v y P x, just P x s -> v_alive y = v_alive (s_var s v) -> v_elems y = v_elems (s_var s v) ->
  (qpos (v_staged y) = true -> stagedv s v = true \/ exists c, In c (map fst (v_elems y)) /\ fullc s c) ->
  just P x (set_var s v y).
Proof.
  intros s v y P x J Ha He Hst. assert (F := set_var_wframe s v y Ha He). apply (just_map _ _ _ s _ J).
  - intros u _ Hau Hsu. destruct (Nat.eq_dec u v) as [->|n].
    + unfold stagedv, set_var in Hsu. cbn [s_var] in Hsu. rewrite upd_same in Hsu. destruct (Hst Hsu) as [H|[c [A B]]].
      * left. split; [apply (wframe_alive _ _ _ F); exact Hau|exact H].
      * right; left. exists c. split; [unfold on, set_var; cbn [s_var]; rewrite upd_same; exact A|exact B].
    + left. unfold alive, stagedv, set_var in *. cbn [s_var] in *. rewrite upd_other in Hau, Hsu by exact n. tauto.
  - intros u c _ A B. left. exists c. split; [apply (wframe_on _ _ _ _ F); exact A|exact B].
  - intros u _ _ H. right. apply (wframe_pend _ _ _ _ F). exact H.
Qed.
Lemma just_nil : forall P x s, just [] None s -> just P x s.
Proof. intros P x s J u _ Ha Hs. destruct (J u ltac:(discriminate) Ha Hs) as [H|[c [[] _]]]. now left. Qed.

Lemma qpos_Qeq : forall a b, Qeq_bool a b = true -> qpos a = qpos b.
Proof.
  intros a b H. apply Qeq_bool_iff in H. unfold Qeq in H. unfold qpos.
  destruct (0 <? Qnum a) eqn:E1, (0 <? Qnum b) eqn:E2; try reflexivity; nia.
Qed.
Lemma qpos_false_zero : forall a b, 0 <= Qnum a -> 0 <= Qnum b -> qpos a = false -> qpos b = false -> Qeq_bool a b = true.
Proof.
  intros a b Ha Hb H1 H2. apply Qeq_bool_iff. unfold Qeq. unfold qpos in *.
  assert (Qnum a = 0) by lia. assert (Qnum b = 0) by lia. rewrite H, H0. reflexivity.
Qed.

Lemma set_staged_wframe : forall s v p, wframe s (set_staged s v p).
Proof. intros. apply set_var_wframe; reflexivity. Qed.
Lemma set_want_wframe : forall s v p, wframe s (set_want s v p).
Proof. intros. apply set_var_wframe; reflexivity. Qed.
Lemma update_penalty_core_wframe : forall f1 f2 s v p, wframe s (update_penalty_core f1 f2 s v p).
Proof.
  intros. unfold update_penalty_core. cbv zeta.
  destruct (Qeq_bool _ _); [destruct (_ && _); [apply set_staged_wframe|apply wframe_refl]|].
  destruct (_ && _).
  { destruct (_ =? _); [|eapply wframe_trans; [|apply enable_var_wframe]]; apply set_staged_wframe. }
  destruct (_ && _); [|apply set_var_wframe; reflexivity].
  destruct f1; [eapply wframe_trans; [|apply odv_all_wframe]|]; apply disable_var_wframe.
Qed.
Lemma update_penalty_wframe : forall f1 f2 s v p, wframe s (update_penalty f1 f2 s v p).
Proof.
  intros. unfold update_penalty. destruct (qpos p); eapply wframe_trans.
  - apply set_want_wframe.
  - apply update_penalty_core_wframe.
  - apply update_penalty_core_wframe.
  - apply set_want_wframe.
Qed.

Lemma update_penalty_core_inv : forall s v p, inv s -> alive s v -> 0 <= Qnum p ->
  (qpos p = true -> qpos (v_want (s_var s v)) = true) ->
  let s' := update_penalty_core true true s v p in
  inv s' /\ (qpos p = false -> qpos (v_pen (s_var s' v)) = false /\ stagedv s' v = false).
Proof.
  intros s v p [I [L J]] Ha Hp Hw. assert (K := i_var I v). unfold alive in Ha. unfold update_penalty_core. cbv zeta.
  destruct (Qeq_bool p (v_pen (s_var s v))) eqn:Eq.
  {    assert (Hpp := qpos_Qeq _ _ Eq). cbn [andb]. destruct (qpos p) eqn:Ep; cbn [negb].
    - split; [exact (conj I (conj L J))|discriminate].
    - unfold set_staged. split; [split; [|split; [exact L|]]|].
      + apply set_var_struct; try reflexivity; [exact I|].
        split; cbn; [apply (k_nd_el K)|split; [apply (k_sign K)|lia]|discriminate|intro H; destruct (H Ha)|].
        intro H. split; [apply (k_want K H)|reflexivity].
      + apply set_var_just; try reflexivity; [exact J|]. cbn. discriminate.
      + intros _. unfold stagedv. cbn [set_var s_var]. rewrite upd_same. cbn. split; [congruence|reflexivity]. }
  destruct (qpos p) eqn:Ep; cbn [andb negb].
  { destruct (qpos (v_pen (s_var s v))) eqn:Een; cbn [negb andb].
    - (* both positive: change the penalty *)
      split; [split; [|split; [exact L|]]|discriminate].
      + apply set_var_struct; try reflexivity; [exact I| |cbn; congruence].
        split; cbn; [apply (k_nd_el K)|split; [exact Hp|apply (k_sign K)]| |intro H; destruct (H Ha)|].
        * intro H. apply (k_st_pen K) in H. congruence.
        * intro H. rewrite (Hw eq_refl) in H. discriminate.
      + apply set_var_just; try reflexivity; [exact J|]. cbn. intro H. now left.
    - (* enabling *)
      unfold set_staged. set (y := mkVar _ _ _ _ _). set (s1 := set_var s v y).
      assert (I1 : inv_struct s1).
      { apply set_var_struct; try reflexivity; [exact I|].
        split; cbn; [apply (k_nd_el K)|split; [apply (k_sign K)|exact Hp]|intros _; exact Een|intro H; destruct (H Ha)|].
        intro H. rewrite (Hw eq_refl) in H. discriminate. }
      assert (L1 : lim_ok s1) by exact L.
      assert (F1 : wframe s s1) by (apply set_var_wframe; reflexivity).
      assert (Hs1 : stagedv s1 v = true) by (unfold stagedv, s1; cbn; rewrite upd_same; exact Ep).
      destruct (min_slack s1 v =? 0) eqn:Em.
      + split; [split; [exact I1|split; [exact L1|]]|discriminate].
        apply set_var_just; try reflexivity; [exact J|]. intros _. right.
        destruct (no_slack_stuck s1 v L1 ltac:(lia)) as [c [A B]]. exists c. split; [|exact B].
        unfold on, s1 in A. cbn [set_var s_var] in A. rewrite upd_same in A. exact A.
      + assert (Hm : 0 < min_slack s1 v) by (pose proof (min_slack_nonneg s1 v L1); lia).
        assert (Ha1 : alive s1 v) by (apply (wframe_alive _ _ _ F1); exact Ha).
        assert (F2 := wframe_trans _ _ _ F1 (enable_var_wframe s1 v)).
        split; [split; [apply enable_var_struct; assumption|split; [apply enable_var_lim; assumption|]]|discriminate].
        apply (just_map _ _ _ s _ J).
        * intros u _ Hau Hsu. left. eapply (staged_back s _ v); [| |exact Hau|exact Hsu].
          { intros u' n. rewrite enable_var_other by exact n. apply upd_other. exact n. }
          { unfold stagedv, enable_var. cbn [s_var]. rewrite upd_same. reflexivity. }
        * intros u c _ A B. left. exists c. split; [apply (wframe_on _ _ _ _ F2); exact A|].
          apply (f_full _ _ (enable_var_keeps s1 v I1 Hs1 Hm)). exact B.
        * intros u _ _ [c [[] _]]. }
  destruct (qpos (v_pen (s_var s v))) eqn:Een; cbn [negb andb].
  - (* disabling *)
    set (s1 := disable_var s v).
    assert (I1 : inv_struct s1) by (apply disable_var_struct; assumption).
    assert (L1 : lim_ok s1) by (apply disable_var_lim; assumption).
    assert (J1 : just (map fst (v_elems (s_var s1 v)) ++ []) None s1).
    { apply disable_var_just; [apply just_nil; exact J|]. intros c O. rewrite app_nil_r. apply (wframe_on _ _ _ _ (disable_var_wframe s v)). exact O. }
    destruct (odv_all_ok (v_elems (s_var s1 v)) s1 [] None I1 L1 J1) as [I2 [L2 [J2 K2]]].
    split; [split; [exact I2|split; assumption]|]. intros _.
    unfold stagedv. rewrite (f_unstaged _ _ K2 v); unfold stagedv, s1, disable_var; cbn [s_var]; rewrite upd_same; split; reflexivity.
  - (* both non positive and different: impossible *)
    exfalso. assert (H := qpos_false_zero p (v_pen (s_var s v)) Hp (proj1 (k_sign K)) Ep Een). congruence.
Qed.

Lemma qnz_qpos : forall q, 0 <= Qnum q -> qnz q = qpos q.
Proof. unfold qnz, qpos. intros. destruct (Qnum q =? 0) eqn:E, (0 <? Qnum q) eqn:F; cbn; try reflexivity; lia. Qed.

(* add_elem and detach: only the element of [v] on [c] changes *)
Record elem_frame (v c : nat) (s s' : sys) : Prop := {
  e_nv : s_nv s' = s_nv s;
  e_nc : s_nc s' = s_nc s;
  e_other : forall u, u <> v -> s_var s' u = s_var s u;
  e_alive : v_alive (s_var s' v) = v_alive (s_var s v);
  e_pen : v_pen (s_var s' v) = v_pen (s_var s v);
  e_staged : v_staged (s_var s' v) = v_staged (s_var s v);
  e_want : v_want (s_var s' v) = v_want (s_var s v);
  e_cn : forall c', c' <> c -> s_cn s' c' = s_cn s c';
  e_limit : c_limit (s_cn s' c) = c_limit (s_cn s c) }.
Lemma elem_frame_alive : forall v c s s' u, elem_frame v c s s' -> (alive s' u <-> alive s u).
Proof.
  intros v c s s' u F. unfold alive. destruct (Nat.eq_dec u v) as [->|n]; [rewrite (e_alive _ _ _ _ F)|rewrite (e_other _ _ _ _ F u n)]; tauto.
Qed.
Lemma elem_frame_staged : forall v c s s' u, elem_frame v c s s' -> stagedv s' u = stagedv s u.
Proof.
  intros v c s s' u F. unfold stagedv. destruct (Nat.eq_dec u v) as [->|n]; [rewrite (e_staged _ _ _ _ F)|rewrite (e_other _ _ _ _ F u n)]; reflexivity.
Qed.
Lemma elem_frame_limit : forall v c s s' c', elem_frame v c s s' -> c_limit (s_cn s' c') = c_limit (s_cn s c').
Proof. intros v c s s' c' F. destruct (Nat.eq_dec c' c) as [->|n]; [apply (e_limit _ _ _ _ F)|rewrite (e_cn _ _ _ _ F c' n); reflexivity]. Qed.

Lemma add_elem_frame : forall s c v w, elem_frame v c s (add_elem s c v w).
Proof.
  intros. unfold add_elem. cbv zeta.
  destruct (lookup c (v_elems (s_var s v))); split; cbn [s_nv s_nc s_var s_cn]; rewrite ?upd_same; try reflexivity;
    try (intros; apply upd_other; assumption).
  destruct (qnz _); reflexivity.
Qed.
Lemma add_elem_on : forall s c v w u c', on (add_elem s c v w) u c' <-> on s u c' \/ (u = v /\ c' = c).
Proof.
  intros. destruct (Nat.eq_dec u v) as [->|n].
  - unfold on, add_elem. cbv zeta. destruct (lookup c (v_elems (s_var s v))) eqn:El; cbn [s_var]; rewrite upd_same; cbn [v_elems].
    + rewrite map_fst_set_w. apply lookup_some_in in El. split; [tauto|]. intros [H|[_ ->]]; assumption.
    + rewrite map_app, in_app_iff. cbn. intuition.
  - unfold on. rewrite (e_other _ _ _ _ (add_elem_frame s c v w) u n). tauto.
Qed.

Lemma share_plus_mono : forall w0 w, 0 <= Qnum w -> share w0 <= share (Qplus w0 w).
Proof.
  intros [n0 d0] [n d] H. unfold share. cbn in *.
  destruct (Z.pos d0 <=? n0) eqn:E1; destruct (Z.pos (d0 * d) <=? n0 * Z.pos d + n * Z.pos d0) eqn:E2; try lia.
  exfalso. rewrite Pos2Z.inj_mul in E2. nia.
Qed.
Lemma share_qmax_mono : forall w0 w, share w0 <= share (qmax w0 w).
Proof.
  intros w0 w. unfold qmax. destruct (Qle_bool w w0) eqn:E; [lia|].
  assert (H : ~ (w <= w0)%Q) by (intro H; apply Qle_bool_iff in H; congruence).
  apply Qnot_le_lt in H. unfold Qlt in H. destruct w0 as [n0 d0], w as [n d]. unfold share. cbn in *.
  destruct (Z.pos d0 <=? n0) eqn:E1; destruct (Z.pos d <=? n) eqn:E2; try lia. exfalso. nia.
Qed.

(* the element on [c] is created, or its weight grows *)
Lemma add_elem_trans : forall s c v w c', inv_struct s -> alive s v ->
  trans v (s_var s v) (s_var (add_elem s c v w) v) c' (s_cn s c') (s_cn (add_elem s c v w) c').
Proof.
  intros s c v w c' I Ha. assert (K := i_var I v). unfold alive in Ha.
  unfold add_elem. cbv zeta. rewrite (qnz_qpos _ (proj1 (k_sign K))).
  destruct (lookup c (v_elems (s_var s v))) as [w0|] eqn:El; cbn [s_var s_cn]; rewrite upd_same;
    apply (upd_forall cnst (fun c' k' => trans v (s_var s v) _ c' (s_cn s c') k')).
  - assert (O := lookup_some_in _ _ _ El). split; unfold listed, cnt, wt_of; cbn [c_en c_dis c_cur v_alive v_pen v_elems].
    + apply ed_keep. rewrite map_fst_set_w. reflexivity.
    + apply ed_keep. rewrite map_fst_set_w. reflexivity.
    + rewrite El, lookup_set_w, Nat.eqb_refl by exact O. destruct (qpos (v_pen (s_var s v))); lia.
  - intros j n. apply trans_keep; try reflexivity. cbn [v_elems].
    rewrite lookup_set_w by (eapply lookup_some_in; eassumption). destruct (Nat.eqb_spec c j); [congruence|reflexivity].
  - assert (O := proj1 (lookup_none _ _) El).
    assert (O' : In c (map fst (v_elems (s_var s v) ++ [(c, w)]))) by (rewrite map_app, in_app_iff; right; now left).
    destruct (qpos (v_pen (s_var s v))) eqn:Ev; split; unfold listed, cnt, wt_of; cbn [c_en c_dis c_cur v_alive v_pen v_elems];
      rewrite ?Ev, ?lookup_app_new, ?El, ?Nat.eqb_refl.
    + apply ed_cons; [intros [_ [_ H]]; exact (O H)|exact (conj Ha (conj eq_refl O'))].
    + apply ed_keep. split; intros [_ [H _]]; discriminate.
    + change (share 0) with 0. lia.
    + apply ed_keep. split; intros [_ [H _]]; discriminate.
    + apply ed_snoc; [intros [_ [_ H]]; exact (O H)|exact (conj Ha (conj eq_refl O'))].
    + lia.
  - intros j n. apply trans_keep; try reflexivity. cbn [v_elems].
    rewrite lookup_app_new. destruct (lookup j (v_elems (s_var s v))); [reflexivity|]. destruct (Nat.eqb_spec c j); [congruence|reflexivity].
Qed.
Lemma add_elem_struct : forall s c v w, inv_struct s -> alive s v -> inv_struct (add_elem s c v w).
Proof.
  intros s c v w I Ha. assert (K := i_var I v). assert (F := add_elem_frame s c v w).
  apply (struct_step s _ v I); [apply (e_other _ _ _ _ F)| |intro c'; apply add_elem_trans; assumption].
  split; rewrite ?(e_pen _ _ _ _ F), ?(e_staged _ _ _ _ F), ?(e_want _ _ _ _ F), ?(e_alive _ _ _ _ F);
    [|apply (k_sign K)|apply (k_st_pen K)|intro H; destruct (H Ha)|apply (k_want K)].
  unfold add_elem. cbv zeta. destruct (lookup c (v_elems (s_var s v))) eqn:El; cbn [s_var]; rewrite upd_same; cbn [v_elems].
  - rewrite map_fst_set_w. apply (k_nd_el K).
  - rewrite map_app. apply NoDup_snoc; [apply (k_nd_el K)|apply lookup_none; exact El].
Qed.
Lemma add_elem_mono : forall s c v w, 0 <= Qnum w -> cnt (s_var s v) c <= cnt (s_var (add_elem s c v w) v) c.
Proof.
  intros s c v w Hw. unfold cnt. rewrite (e_pen _ _ _ _ (add_elem_frame s c v w)). destruct (qpos _); [|lia].
  unfold wt_of, add_elem. cbv zeta. destruct (lookup c (v_elems (s_var s v))) eqn:El; cbn [s_var]; rewrite upd_same; cbn [v_elems].
  - rewrite lookup_set_w, Nat.eqb_refl by (eapply lookup_some_in; eassumption).
    destruct (c_shared _); [apply share_plus_mono; exact Hw|apply share_qmax_mono].
  - rewrite lookup_app_new, El, Nat.eqb_refl. destruct (share_01 w) as [-> | ->]; cbn; lia.
Qed.

Lemma expand_wframe : forall s c v w, wframe (add_elem s c v w) (expand s c v w).
Proof.
  intros. unfold expand. cbv zeta. destruct (_ && _); [|apply wframe_refl].
  eapply wframe_trans; [apply disable_var_wframe|]. eapply wframe_trans; [apply odv_all_wframe|apply set_staged_wframe].
Qed.

Lemma expand_inv : forall s c v w, inv s -> alive s v -> 0 <= Qnum w -> inv (expand s c v w).
Proof.
  intros s c v w [I [L J]] Ha Hw. assert (K := i_var I v).
  assert (F := add_elem_frame s c v w). assert (I2 := add_elem_struct s c v w I Ha).
  assert (T2 := fun c' => t_cur _ _ _ _ _ _ (add_elem_trans s c v w c' I Ha)). assert (M2 := add_elem_mono s c v w Hw).
  unfold expand. cbv zeta. rewrite (qnz_qpos _ (proj1 (k_sign K))). set (s2 := add_elem s c v w) in *.
  assert (Hrec : forall u, alive s2 u -> stagedv s2 u = true -> alive s u /\ stagedv s u = true).
  { intros u. rewrite (elem_frame_alive _ _ _ _ u F), (elem_frame_staged _ _ _ _ u F). tauto. }
  assert (Hon : forall u c', on s u c' -> on s2 u c') by (intros u c' O; apply add_elem_on; left; exact O).
  destruct (qpos (v_pen (s_var s v)) && (slack (s_cn s2 c) <? 0)) eqn:Eb.
  - (* the constraint overflows: the variable is disabled, the constraints it leaves are revisited, and it is staged *)
    apply andb_prop in Eb. destruct Eb as [Ev Esl].
    assert (Hsl : 0 <= c_limit (s_cn s c) /\ c_limit (s_cn s c) < c_cur (s_cn s2 c)).
    { unfold slack in Esl. rewrite (e_limit _ _ _ _ F) in Esl. destruct (c_limit (s_cn s c) <? 0) eqn:E; [unfold INT_MAX in Esl; lia|lia]. }
    assert (Ha2 : alive s2 v) by (apply (elem_frame_alive _ _ _ _ v F); exact Ha).
    assert (Hev2 : qpos (v_pen (s_var s2 v)) = true) by (rewrite (e_pen _ _ _ _ F); exact Ev).
    assert (F3 := disable_var_wframe s2 v). assert (I3 := disable_var_struct s2 v I2 Ha2 Hev2).
    assert (T3 := fun c' => t_cur _ _ _ _ _ _ (disable_var_trans s2 v c' I2 Ha2 Hev2)). set (s3 := disable_var s2 v) in *.
    assert (Hv3 : s_var s3 v = mkVar (v_alive (s_var s2 v)) 0 0 (v_want (s_var s2 v)) (v_elems (s_var s2 v))) by apply upd_same.
    assert (Hs3 : stagedv s3 v = false) by (unfold stagedv; rewrite Hv3; reflexivity).
    (* without [v], no counter is above what it was before the call *)
    assert (Hcur3 : forall c', c_cur (s_cn s3 c') = c_cur (s_cn s c') - cnt (s_var s v) c').
    { intro c'. rewrite T3, T2, (cnt_pen0 (s_var s3 v)) by (rewrite Hv3; reflexivity). lia. }
    assert (Hlim3 : forall c', c_limit (s_cn s3 c') = c_limit (s_cn s c')).
    { intro c'. rewrite (f_limit _ _ F3). apply (elem_frame_limit _ _ _ _ c' F). }
    assert (L3 : lim_ok s3).
    { intros c'. rewrite Hcur3, Hlim3. intro Hl. specialize (L c' Hl). pose proof (cnt_01 (s_var s v) c'). lia. }
    assert (Hfull3 : fullc s3 c).
    { unfold fullc. rewrite Hcur3, Hlim3. specialize (T2 c). specialize (L c (proj1 Hsl)).
      pose proof (cnt_01 (s_var s v) c). pose proof (cnt_01 (s_var s2 v) c). lia. }
    assert (J3 : just (map fst (v_elems (s_var s3 v)) ++ []) None s3).
    { apply (just_map _ _ _ s _ J).
      - intros u _ Hau Hsu. left. destruct (staged_back s2 s3 v (disable_var_other s2 v) Hs3 u Hau Hsu). apply Hrec; assumption.
      - intros u c' _ O B. assert (O3 : on s3 u c') by (apply (wframe_on _ _ _ _ F3), Hon, O).
        destruct (in_dec Nat.eq_dec c' (map fst (v_elems (s_var s3 v)))) as [i|n].
        + right. exists c'. rewrite app_nil_r, Hlim3. split; [exact i|split; [exact O3|apply B]].
        + left. exists c'. split; [exact O3|]. unfold fullc. rewrite Hcur3, Hlim3, cnt_off; [rewrite Z.sub_0_r; exact B|].
          intro i. apply n. apply (wframe_on _ _ v c' F3), Hon, i.
      - intros u _ _ [c' [[] _]]. }
    destruct (odv_all_ok (v_elems (s_var s3 v)) s3 [] None I3 L3 J3) as [I4 [L4 [J4 K4]]].
    assert (F4 := odv_all_wframe (v_elems (s_var s3 v)) s3). set (s4 := odv_all s3 (v_elems (s_var s3 v))) in *.
    assert (Hv4 : s_var s4 v = s_var s3 v) by apply (f_unstaged _ _ K4), Hs3.
    unfold set_staged. set (y := mkVar _ _ _ _ _).
    split; [|split; [exact L4|]].
    + apply set_var_struct; try reflexivity; [exact I4|]. unfold y. rewrite Hv4, Hv3.
      split; cbn; [apply (k_nd_el (i_var I2 v))|split; [lia|apply (k_sign K)]|reflexivity|intro H; destruct (H Ha2)|].
      rewrite (e_want _ _ _ _ F). intro H. split; [reflexivity|apply (k_want K H)].
    + apply set_var_just; try reflexivity; [exact J4|]. intros _. right. exists c. split; [|apply (f_full _ _ K4); exact Hfull3].
      apply (wframe_on _ _ _ _ F4), (wframe_on _ _ _ _ F3), add_elem_on. right. split; reflexivity.
  - assert (L2 : lim_ok s2).
    { intros c' Hl. destruct (Nat.eq_dec c' c) as [->|n]; [|rewrite (e_cn _ _ _ _ F c' n) in *; apply L; exact Hl].
      destruct (qpos (v_pen (s_var s v))) eqn:Ev.
      - cbn [andb] in Eb. unfold slack in Eb. destruct (c_limit (s_cn s2 c) <? 0) eqn:E; lia.
      - rewrite (e_limit _ _ _ _ F) in *. rewrite T2, !cnt_pen0 by (rewrite ?(e_pen _ _ _ _ F); exact Ev). specialize (L c Hl). lia. }
    split; [exact I2|split; [exact L2|]]. apply (just_map _ _ _ s _ J).
    + intros u _ Hau Hsu. left. apply Hrec; assumption.
    + intros u c' _ O [B1 B2]. left. exists c'. split; [apply Hon; exact O|].
      destruct (Nat.eq_dec c' c) as [->|n]; [|unfold fullc; rewrite (e_cn _ _ _ _ F c' n); split; assumption].
      specialize (L2 c). unfold fullc. rewrite (e_limit _ _ _ _ F) in *. specialize (T2 c). lia.
    + intros u _ _ [c' [[] _]].
Qed.

Lemma detach_frame : forall s v c w, elem_frame v c s (detach s v c w).
Proof.
  intros. unfold detach. split; cbn [s_nv s_nc s_var s_cn]; rewrite ?upd_same; try reflexivity; intros; apply upd_other; assumption.
Qed.
Lemma detach_on : forall s v c w u c', on (detach s v c w) u c' <-> on s u c' /\ ~ (u = v /\ c' = c).
Proof.
  intros. unfold on. destruct (Nat.eq_dec u v) as [->|n].
  - unfold detach. cbn [s_var]. rewrite upd_same. cbn [v_elems]. rewrite in_del_key. tauto.
  - rewrite (e_other _ _ _ _ (detach_frame s v c w) u n). tauto.
Qed.
Lemma del_key_off : forall c es, ~ In c (map fst (del_key c es)).
Proof. intros c es H. apply in_del_key in H. destruct H as [_ H]. exact (H eq_refl). Qed.
Lemma detach_trans : forall s v c w c', lookup c (v_elems (s_var s v)) = Some w ->
  trans v (s_var s v) (s_var (detach s v c w) v) c' (s_cn s c') (s_cn (detach s v c w) c').
Proof.
  intros s v c w c' El. unfold detach. cbn [s_var s_cn]. rewrite upd_same.
  apply (upd_forall cnst (fun c' k' => trans v (s_var s v) _ c' (s_cn s c') k')).
  - split; unfold listed, cnt, wt_of; cbn [c_en c_dis c_cur v_alive v_pen v_elems]; rewrite ?lookup_del_key, ?Nat.eqb_refl, ?El.
    + apply ed_erase. intros [_ [_ H]]. exact (del_key_off _ _ H).
    + apply ed_erase. intros [_ [_ H]]. exact (del_key_off _ _ H).
    + change (share 0) with 0. destruct (qpos (v_pen (s_var s v))); lia.
  - intros j n. apply trans_keep; try reflexivity. cbn [v_elems]. rewrite lookup_del_key. destruct (Nat.eqb_spec c j); [congruence|reflexivity].
Qed.
Lemma detach_struct : forall s v c w, inv_struct s -> alive s v -> lookup c (v_elems (s_var s v)) = Some w -> inv_struct (detach s v c w).
Proof.
  intros s v c w I Ha El. assert (K := i_var I v).
  apply (struct_step s _ v I); [apply (e_other _ _ _ _ (detach_frame s v c w))| |intro c'; apply detach_trans; exact El].
  unfold detach. cbn [s_var]. rewrite upd_same.
  split; cbn; [apply nodup_del_key, (k_nd_el K)|apply (k_sign K)|apply (k_st_pen K)|intro H; destruct (H Ha)|apply (k_want K)].
Qed.

Lemma del_key_notin : forall c es, ~ In c (map fst es) -> del_key c es = es.
Proof.
  induction es as [|[a x] r IH]; cbn; intro H; [reflexivity|]. destruct (Nat.eqb_spec a c); [subst; tauto|].
  rewrite IH by tauto. reflexivity.
Qed.

(* the freed variable [v] is exempted: it may be staged while its elements go one by one *)
Lemma free_loop_ok : forall es s v,
  inv_struct s -> lim_ok s -> just (map fst es) (Some v) s -> alive s v -> v_elems (s_var s v) = es ->
  let s' := fold_left (fun s e => on_disabled_var (detach s v (fst e) (snd e)) (fst e)) es s in
  inv_struct s' /\ lim_ok s' /\ just [] (Some v) s' /\ v_elems (s_var s' v) = [].
Proof.
  induction es as [|[c w] r IH]; intros s v I L J Ha He; [exact (conj I (conj L (conj J He)))|].
  cbn [fold_left fst snd].
  assert (Hnd : NoDup (map fst ((c, w) :: r))) by (rewrite <- He; apply (k_nd_el (i_var I v))). inv Hnd.
  assert (El : lookup c (v_elems (s_var s v)) = Some w) by (rewrite He; cbn; now rewrite Nat.eqb_refl).
  assert (F := detach_frame s v c w). assert (I1 := detach_struct s v c w I Ha El).
  assert (T1 := t_cur _ _ _ _ _ _ (detach_trans s v c w c El)). set (s1 := detach s v c w) in *.
  assert (Hel1 : v_elems (s_var s1 v) = r).
  { unfold s1, detach. cbn [s_var]. rewrite upd_same. cbn [v_elems]. rewrite He. cbn. rewrite Nat.eqb_refl. apply del_key_notin. assumption. }
  assert (L1 : lim_ok s1).
  { intro c'. destruct (Nat.eq_dec c' c) as [->|n]; [|rewrite (e_cn _ _ _ _ F c' n); apply L].
    rewrite (e_limit _ _ _ _ F), T1, (cnt_off (s_var s1 v)) by (rewrite Hel1; assumption).
    intro Hl. specialize (L c Hl). pose proof (cnt_01 (s_var s v) c). lia. }
  assert (J1 : just (c :: map fst r) (Some v) s1).
  { assert (O1 : forall u c', Some u <> Some v -> on s u c' -> on s1 u c').
    { intros u c' Hx O. unfold on. rewrite (e_other _ _ _ _ F u) by congruence. exact O. }
    apply (just_map _ _ _ s _ J).
    - intros u Hx Hau Hsu. left. unfold alive, stagedv in *. rewrite (e_other _ _ _ _ F u) in Hau, Hsu by congruence. tauto.
    - intros u c' Hx O B. destruct (Nat.eq_dec c' c) as [->|n].
      + right. exists c. rewrite (e_limit _ _ _ _ F). split; [now left|split; [apply O1; assumption|apply B]].
      + left. exists c'. split; [apply O1; assumption|]. unfold fullc. rewrite (e_cn _ _ _ _ F c' n). exact B.
    - intros u Hx _ [c' [A [B C]]]. right. exists c'. rewrite (elem_frame_limit _ _ _ _ c' F). split; [exact A|split; [apply O1; assumption|exact C]]. }
  destruct (on_disabled_var_ok s1 c (map fst r) (Some v) I1 L1 J1) as [I2 [L2 [J2 _]]].
  assert (F2 := odv_wframe s1 c).
  apply IH; try assumption.
  - apply (wframe_alive _ _ _ F2), (elem_frame_alive _ _ _ _ v F). exact Ha.
  - rewrite (f_elems _ _ F2). exact Hel1.
Qed.

Lemma var_free_inv : forall s v, inv s -> alive s v -> inv (var_free s v).
Proof.
  intros s v [I [L J]] Ha. unfold var_free. cbv zeta.
  destruct (free_loop_ok (v_elems (s_var s v)) s v I L (just_nil _ _ _ J) Ha eq_refl) as [I1 [L1 [J1 E1]]].
  set (s1 := fold_left _ _ s) in *. split; [|split; [exact L1|]].
  - apply (struct_step s1 _ v I1); cbn [set_var s_var s_cn]; [intros; apply upd_other; assumption| |]; rewrite upd_same.
    + split; cbn; [constructor|lia|discriminate|split; reflexivity|split; reflexivity].
    + intro c. apply trans_off; [rewrite E1|]; intros [].
  - intros u _ Hau Hsu. unfold alive, stagedv in Hau, Hsu. cbn [set_var s_var] in Hau, Hsu. destruct (Nat.eq_dec u v) as [->|n].
    + rewrite upd_same in Hau. discriminate.
    + rewrite upd_other in Hau, Hsu by exact n. destruct (J1 u ltac:(congruence) Hau Hsu) as [[c [A B]]|[c [[] _]]].
      left. exists c. split; [|exact B]. unfold on. cbn [set_var s_var]. rewrite upd_other by exact n. exact A.
Qed.

Definition ids_ok (s : sys) : Prop :=
  (forall v, (s_nv s <= v)%nat -> ~ alive s v) /\ (forall v c, on s v c -> (c < s_nc s)%nat).
Definition inv_all (s : sys) : Prop := inv s /\ ids_ok s.

Lemma ids_ok_frame : forall s s', ids_ok s -> (s_nv s <= s_nv s')%nat -> (s_nc s <= s_nc s')%nat ->
  (forall u, alive s' u -> alive s u \/ (u < s_nv s')%nat) -> (forall u c, on s' u c -> on s u c \/ (c < s_nc s')%nat) -> ids_ok s'.
Proof.
  intros s s' [A B] Hv Hc Ha Ho. split.
  - intros v Hn H. destruct (Ha v H) as [H'|H']; [apply (A v); [lia|exact H']|lia].
  - intros v c H. destruct (Ho v c H) as [H'|H']; [apply B in H'; lia|exact H'].
Qed.
Lemma wframe_ids : forall s s', wframe s s' -> ids_ok s -> ids_ok s'.
Proof.
  intros s s' F H. apply (ids_ok_frame s s' H); [rewrite (f_nv _ _ F)|rewrite (f_nc _ _ F)| |]; auto.
  - intros u A. left. apply (wframe_alive _ _ _ F). exact A.
  - intros u c O. left. apply (wframe_on _ _ _ _ F). exact O.
Qed.
Lemma upd_var_ids : forall s nv v y, ids_ok s -> (s_nv s <= nv)%nat -> v_elems y = [] -> (v_alive y = true -> (v < nv)%nat) ->
  ids_ok (mkSys nv (s_nc s) (upd (s_var s) v y) (s_cn s)).
Proof.
  intros s nv v y H Hn He Ha. apply (ids_ok_frame s _ H); [exact Hn|apply Nat.le_refl| |]; unfold alive, on; cbn [s_var s_nv s_nc]; intro u;
    (destruct (Nat.eq_dec u v) as [->|n]; [rewrite upd_same|rewrite upd_other by exact n]).
  - intro A. right. apply Ha, A.
  - intro A. left. exact A.
  - intros c O. rewrite He in O. destruct O.
  - intros c O. left. exact O.
Qed.
Lemma var_free_ids : forall s v, ids_ok s -> ids_ok (var_free s v).
Proof.
  intros s v. unfold var_free. cbv zeta. generalize (v_elems (s_var s v)). intros es. revert s.
  induction es as [|e r IH]; intros s H; [apply (upd_var_ids s (s_nv s) v dead_var H); [apply Nat.le_refl|reflexivity|discriminate]|].
  cbn [fold_left]. apply IH.
  apply (wframe_ids _ _ (odv_wframe _ _)). assert (F := detach_frame s v (fst e) (snd e)).
  apply (ids_ok_frame s _ H); [rewrite (e_nv _ _ _ _ F)|rewrite (e_nc _ _ _ _ F)| |]; auto.
  - intros u A. left. apply (elem_frame_alive _ _ _ _ u F). exact A.
  - intros u c O. left. apply detach_on in O. apply O.
Qed.

Lemma cn_ok_empty : forall var c lim sh, (forall b v, ~ listed b (var v) c) -> cn_ok var c (mkCnst lim sh 0 [] []).
Proof.
  intros var c lim sh X. split; cbn; [| |constructor|constructor|reflexivity]; intro v; (split; [intros []|intro H; destruct (X _ v H)]).
Qed.
Lemma inv_all_0 : inv_all sys0.
Proof.
  split; [split; [|split]|split].
  - split; [intro v; split; cbn; [constructor|lia|discriminate|split; reflexivity|split; reflexivity]|].
    intro c. apply cn_ok_empty. intros b v [H _]. discriminate.
  - intros c. cbn. lia.
  - intros u Hx Ha. discriminate.
  - intros v _ H. discriminate.
  - intros v c H. destruct H.
Qed.

Lemma inv_struct_counters : forall a b a' b' f g, inv_struct (mkSys a b f g) -> inv_struct (mkSys a' b' f g).
Proof. intros a b a' b' f g [V C]. split; assumption. Qed.

Lemma set_want_inv : forall s v p, inv s -> (qpos p = false -> qpos (v_pen (s_var s v)) = false /\ stagedv s v = false) ->
  inv (set_want s v p).
Proof.
  intros s v p [I [L J]] H. assert (K := i_var I v). unfold set_want. split; [|split; [exact L|]].
  - apply set_var_struct; try reflexivity; [exact I|].
    split; cbn; [apply (k_nd_el K)|apply (k_sign K)|apply (k_st_pen K)|apply (k_dead K)|exact H].
  - apply set_var_just; try reflexivity; [exact J|]. cbn. intro. now left.
Qed.

Lemma expand_guard : forall s c v w, Nat.ltb c (s_nc s) && Nat.ltb v (s_nv s) && v_alive (s_var s v) && negb (Qnum w <? 0) = true ->
  (c < s_nc s)%nat /\ alive s v /\ 0 <= Qnum w.
Proof.
  intros s c v w G. apply andb_prop in G. destruct G as [G G4]. apply andb_prop in G. destruct G as [G G3]. apply andb_prop in G.
  split; [apply Nat.ltb_lt, G|split; [exact G3|apply Z.ltb_ge, negb_true_iff, G4]].
Qed.
Lemma pen_guard : forall s v p, Nat.ltb v (s_nv s) && v_alive (s_var s v) && negb (Qnum p <? 0) = true -> alive s v /\ 0 <= Qnum p.
Proof.
  intros s v p G. apply andb_prop in G. destruct G as [G G3]. apply andb_prop in G.
  split; [apply G|apply Z.ltb_ge, negb_true_iff, G3].
Qed.

Lemma step_inv : forall s o, inv_all s -> inv_all (step s o).
Proof.
  intros s o [[I [L J]] [Hfresh Hrange]]. assert (H0 : inv_all s) by (split; [split; [|split]|split]; assumption).
  destruct o as [lim sh|p|c v w|v p|v|]; unfold step, step_gen.
  - (* constraint_new: no variable is on the new constraint *)
    split; [split; [|split]|].
    + split; [apply (i_var I)|]. cbn [s_var s_cn]. apply (upd_forall cnst (fun c k => cn_ok (s_var s) c k)); [|intros; apply (i_cn I)].
      apply cn_ok_empty. intros b v [_ [_ H]]. apply Hrange in H. lia.
    + intro c. cbn [s_cn]. unfold upd. destruct (Nat.eqb c (s_nc s)); [cbn; lia|apply L].
    + apply (just_map _ _ _ s _ J).
      * intros u _ Hau Hsu. left. split; assumption.
      * intros u c _ A B. left. exists c. split; [exact A|]. unfold fullc. cbn [s_cn]. rewrite upd_other; [exact B|]. apply Hrange in A. lia.
      * intros u _ _ [c [[] _]].
    + apply (ids_ok_frame s); cbn [s_nv s_nc]; auto. split; assumption.
  - (* variable_new: the slot holds a dead variable, without elements *)
    destruct (Qnum p <? 0) eqn:Ep; [exact H0|].
    assert (He : v_elems (s_var s (s_nv s)) = []) by (apply (k_dead (i_var I (s_nv s))), Hfresh; lia).
    split; [split; [|split; [exact L|]]|].
    + apply (inv_struct_counters (s_nv s) (s_nc s)).
      apply (struct_step s _ (s_nv s) I); cbn [s_var s_cn]; [intros; apply upd_other; assumption| |]; rewrite upd_same.
      * split; cbn; [constructor|lia|discriminate|tauto|intro H; split; [exact H|reflexivity]].
      * intro c. apply trans_off; [rewrite He|]; intros [].
    + apply (just_map _ _ _ s _ J).
      * intros u _ Hau Hsu. left. eapply (staged_back s _ (s_nv s)); [| |exact Hau|exact Hsu].
        { intros u' n. apply upd_other. exact n. }
        { unfold stagedv. cbn [s_var]. rewrite upd_same. reflexivity. }
      * intros u c _ A B. left. exists c. split; [|exact B]. unfold on in *. cbn [s_var]. rewrite upd_other; [exact A|].
        intros ->. rewrite He in A. destruct A.
      * intros u _ _ [c [[] _]].
    + apply upd_var_ids; [split; assumption|lia|reflexivity|intros _; lia].
  - destruct (Nat.ltb c (s_nc s) && Nat.ltb v (s_nv s) && v_alive (s_var s v) && negb (Qnum w <? 0)) eqn:G; [|exact H0].
    destruct (expand_guard s c v w G) as [G1 [G2 G3]].
    split; [apply expand_inv; [split; [|split]| |]; assumption|].
    apply (wframe_ids _ _ (expand_wframe s c v w)). assert (F := add_elem_frame s c v w).
    apply (ids_ok_frame s); [split; assumption|rewrite (e_nv _ _ _ _ F)|rewrite (e_nc _ _ _ _ F)| |]; auto.
    + intros u A. left. apply (elem_frame_alive _ _ _ _ u F). exact A.
    + intros u c' O. apply add_elem_on in O. rewrite (e_nc _ _ _ _ F). destruct O as [O|[_ ->]]; [left; exact O|right; exact G1].
  - destruct (Nat.ltb v (s_nv s) && v_alive (s_var s v) && negb (Qnum p <? 0)) eqn:G; [|exact H0].
    destruct (pen_guard s v p G) as [G2 Hp].
    split; [|apply (wframe_ids _ _ (update_penalty_wframe true true s v p)); split; assumption].
    unfold update_penalty. destruct (qpos p) eqn:Eq.
    + apply update_penalty_core_inv; [apply set_want_inv; [apply H0|congruence]| |exact Hp|].
      * apply (wframe_alive _ _ _ (set_want_wframe s v p)). exact G2.
      * intros _. cbn [set_want set_var s_var]. rewrite upd_same. exact Eq.
    + destruct (update_penalty_core_inv s v p (proj1 H0) G2 Hp ltac:(congruence)) as [Inv Z]. apply set_want_inv; [exact Inv|exact Z].
  - destruct (Nat.ltb v (s_nv s) && v_alive (s_var s v)) eqn:G; [|exact H0].
    apply andb_prop in G. split; [apply var_free_inv; [apply H0|apply G]|apply var_free_ids; split; assumption].
  - exact H0.
Qed.

Theorem run_ops_inv : forall l, inv_all (run_ops sys0 l).
Proof. intro l. apply (fold_left_inv step inv_all step_inv l sys0 inv_all_0). Qed.

(** * the statements of C18 about every history *)
Section Statements.
  Variable l : list op.
  Let s := run_ops sys0 l.

  Lemma no_starvation : forall v, v_alive (s_var s v) = true -> qpos (v_staged (s_var s v)) = true ->
    qpos (v_pen (s_var s v)) = false /\
    exists c, In c (map fst (v_elems (s_var s v))) /\ 0 <= c_limit (s_cn s c) /\ c_cur (s_cn s c) = c_limit (s_cn s c).
  Proof.
    intros v Ha Hs. destruct (run_ops_inv l) as [[I [_ J]] _]. split; [apply (k_st_pen (i_var I v)); exact Hs|].
    destruct (J v ltac:(discriminate) Ha Hs) as [H|[c [[] _]]]. exact H.
  Qed.

  Lemma sets_consistent : forall v c, v_alive (s_var s v) = true -> In c (map fst (v_elems (s_var s v))) ->
    if qpos (v_pen (s_var s v)) then In v (c_en (s_cn s c)) /\ ~ In v (c_dis (s_cn s c))
    else In v (c_dis (s_cn s c)) /\ ~ In v (c_en (s_cn s c)).
  Proof.
    intros v c Ha Ho. destruct (run_ops_inv l) as [[I _] _]. assert (O := i_cn I c). fold s in O.
    destruct (qpos (v_pen (s_var s v))) eqn:E; rewrite (k_en O), (k_dis O); unfold listed; rewrite E; split; try tauto;
      intros [_ [H _]]; discriminate.
  Qed.

  Lemma penalty0_not_running : forall v, qpos (v_want (s_var s v)) = false ->
    qpos (v_pen (s_var s v)) = false /\ qpos (v_staged (s_var s v)) = false.
  Proof. intros v H. destruct (run_ops_inv l) as [[I _] _]. apply (k_want (i_var I v)). exact H. Qed.

  Lemma never_starving : any_starving s = false.
  Proof.
    destruct (any_starving s) eqn:E; [|reflexivity]. exfalso. unfold any_starving in E. apply existsb_exists in E.
    destruct E as [v [_ Hv]]. unfold starving in Hv. apply andb_prop in Hv. destruct Hv as [Hv Hn]. apply andb_prop in Hv. destruct Hv as [Ha Hs].
    destruct (no_starvation v Ha Hs) as [_ [c [A [B C]]]]. apply negb_true_iff in Hn.
    assert (X : existsb (fun e => full s (fst e)) (v_elems (s_var s v)) = true).
    { apply existsb_exists. apply in_map_iff in A. destruct A as [e [A1 A2]]. exists e. split; [exact A2|]. rewrite A1. unfold full.
      rewrite C, Z.eqb_refl, (proj2 (Z.leb_le _ _) B). reflexivity. }
    congruence.
  Qed.
End Statements.

(* the code as pinned (update_variable_penalty without on_disabled_var) starves a staged variable *)
Definition witness_c18 : list op :=
  [NewC 1 true; NewV 1; NewV 1; Expand 0 0 1; Expand 0 1 1; Pen 0 0].
(* under [step_pinned] a staged variable that is given penalty 0 stays staged, and runs once the slot is released *)
Definition witness_c15 : list op :=
  [NewC 1 true; NewV 1; NewV 1; Expand 0 0 1; Expand 0 1 1; Pen 1 0; Free 0].
