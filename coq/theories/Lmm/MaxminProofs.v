(** Lmm/MaxminProofs.v — progressive filling never exceeds a capacity (C15, maxmin); the feasibility oracle decides its
    spec, the two bottleneck oracles (C16) are sound for theirs. *)
From SGV Require Import Base.PlainLia Lmm.System Lmm.Maxmin.
From Coq Require Import QArith Lqa.
Local Open Scope Q_scope.

Lemma qposb_true : forall q, qposb q = true <-> 0 < q.
Proof. intro q. unfold qposb, Qlt. cbn. rewrite Z.ltb_lt. lia. Qed.
Lemma qposb_false : forall q, qposb q = false <-> q <= 0.
Proof. intro q. unfold qposb, Qle. cbn. rewrite Z.ltb_ge. lia. Qed.
Lemma Qle_bool_spec : forall a b, BoolSpec (a <= b) (b < a) (Qle_bool a b).
Proof.
  intros a b. destruct (Qle_bool a b) eqn:E; constructor; [apply Qle_bool_iff; exact E|].
  apply Qnot_le_lt. rewrite <- Qle_bool_iff. congruence.
Qed.
Lemma qmx_ge_l : forall a b, a <= qmx a b.
Proof. intros. unfold qmx. destruct (Qle_bool_spec b a); lra. Qed.
Lemma qmx_ge_r : forall a b, b <= qmx a b.
Proof. intros. unfold qmx. destruct (Qle_bool_spec b a); lra. Qed.
Lemma qmx_lub : forall a b c, a <= c -> b <= c -> qmx a b <= c.
Proof. intros. unfold qmx. destruct (Qle_bool b a); assumption. Qed.
Lemma qmn_le_l : forall a b, qmn a b <= a.
Proof. intros. unfold qmn. destruct (Qle_bool_spec a b); lra. Qed.
Lemma qmn_le_r : forall a b, qmn a b <= b.
Proof. intros. unfold qmn. destruct (Qle_bool_spec a b); lra. Qed.
Lemma qmn_cases : forall a b, qmn a b = a \/ qmn a b = b.
Proof. intros. unfold qmn. destruct (Qle_bool a b); auto. Qed.

Lemma unfixed_upd : forall val v x u, unfixed (upd val v x) u = if Nat.eqb u v then negb (qposb x) else unfixed val u.
Proof. intros. unfold unfixed, upd. destruct (Nat.eqb u v); reflexivity. Qed.

(* Both scans of a round (least ratio over the light constraints, least bound over the saturated variables) take the
   minimum of [f] over the elements selected by [p]; [P] is what is known of every candidate. *)
Lemma fold_min_spec : forall {A} (p : A -> bool) (f : A -> Q) (P : Q -> Prop) l acc,
  (forall c, In c l -> p c = true -> P (f c)) -> match acc with None => True | Some a => P a end ->
  match fold_left (fun m c => if p c then match m with None => Some (f c) | Some x => Some (qmn x (f c)) end else m) l acc with
  | Some m => P m /\ (forall c, In c l -> p c = true -> m <= f c) /\ match acc with None => True | Some a => m <= a end
  | None => acc = None /\ forall c, In c l -> p c = false
  end.
Proof.
  intros A p f P. induction l as [|c r IH]; cbn [fold_left]; intros acc Hl Ha.
  - destruct acc as [a|]; [|split; [reflexivity|intros c []]]. split; [exact Ha|]. split; [intros c []|lra].
  - assert (Hr : forall c', In c' r -> p c' = true -> P (f c')) by (intros; apply Hl; [now right|assumption]).
    destruct (p c) eqn:Ep.
    + assert (Hc := Hl c (or_introl eq_refl) Ep). destruct acc as [a|].
      * assert (X := qmn_le_l a (f c)). assert (Y := qmn_le_r a (f c)).
        assert (Hq : P (qmn a (f c))) by (destruct (qmn_cases a (f c)) as [Z|Z]; rewrite Z; assumption).
        specialize (IH (Some (qmn a (f c))) Hr Hq). destruct (fold_left _ r _) as [m|]; [|destruct IH; discriminate].
        destruct IH as [H1 [H2 H3]]. split; [exact H1|]. split; [|lra].
        intros c' [Hc'|Hc'] E; [subst c'; lra|apply H2; assumption].
      * specialize (IH (Some (f c)) Hr Hc). destruct (fold_left _ r _) as [m|]; [|destruct IH; discriminate].
        destruct IH as [H1 [H2 H3]]. split; [exact H1|]. split; [|exact I].
        intros c' [Hc'|Hc'] E; [subst c'; exact H3|apply H2; assumption].
    + specialize (IH acc Hr Ha). destruct (fold_left _ r _) as [m|].
      * destruct IH as [H1 [H2 H3]]. split; [exact H1|]. split; [|exact H3].
        intros c' [Hc'|Hc'] E; [subst c'; congruence|apply H2; assumption].
      * destruct IH as [H1 H2]. split; [exact H1|]. intros c' [Hc'|Hc']; [subst c'; exact Ep|apply H2; exact Hc'].
Qed.

Section Solve.
  Variable s : msys.
  Hypothesis pen_pos : forall v, 0 < pen s v.
  Hypothesis w_nonneg : forall c e, In e (m_elems (cn s c)) -> 0 <= snd e.
  Hypothesis cap_pos : forall c, 0 < m_bound (cn s c) \/ m_elems (cn s c) = [].
  Hypothesis cap_nonneg : forall c, 0 <= m_bound (cn s c).

  Lemma ip_pos : forall v, 0 < ip s v.
  Proof. intro v. unfold ip. apply Qinv_lt_0_compat. apply pen_pos. Qed.
  Lemma pen_ip : forall v, pen s v * ip s v == 1.
  Proof. intro v. unfold ip. apply Qmult_inv_r. assert (H := pen_pos v). lra. Qed.

  Lemma wsum_nonneg : forall es v, (forall e, In e es -> 0 <= snd e) -> 0 <= wsum es v.
  Proof.
    induction es as [|[u w] r IH]; cbn; intros v H; [lra|]. assert (0 <= w) by (apply (H (u, w)); now left).
    assert (0 <= wsum r v) by (apply IH; intros; apply H; now right). destruct (Nat.eqb u v); lra.
  Qed.
  Lemma load_upd : forall es val v x, val v == 0 -> load es (upd val v x) == load es val + wsum es v * x.
  Proof.
    induction es as [|[u w] r IH]; cbn; intros val v x H; [lra|]. rewrite IH by exact H. unfold upd at 1.
    destruct (Nat.eqb u v) eqn:E; [apply Nat.eqb_eq in E; subst u; rewrite H|]; lra.
  Qed.
  Lemma ufun_nonneg : forall es val, (forall e, In e es -> 0 <= snd e) -> 0 <= ufun s es val.
  Proof.
    induction es as [|[u w] r IH]; cbn; intros val H; [lra|]. assert (0 <= w) by (apply (H (u, w)); now left).
    assert (0 <= ufun s r val) by (apply IH; intros; apply H; now right). assert (Hi := ip_pos u).
    destruct (unfixed val u && qposb w); nra.
  Qed.
  Lemma ufun_upd : forall es val v x, (forall e, In e es -> 0 <= snd e) -> unfixed val v = true -> 0 < x ->
    ufun s es (upd val v x) == ufun s es val - wsum es v * ip s v.
  Proof.
    induction es as [|[u w] r IH]; cbn; intros val v x H Hu Hx; [lra|]. rewrite IH; [|intros; apply H; now right|exact Hu|exact Hx].
    assert (Hw : 0 <= w) by (apply (H (u, w)); now left).
    rewrite unfixed_upd. destruct (Nat.eqb u v) eqn:E; [|lra].
    apply Nat.eqb_eq in E. subst u. rewrite Hu, (proj2 (qposb_true x) Hx). cbn [negb andb].
    destruct (qposb w) eqn:Ew; [lra|]. apply qposb_false in Ew. assert (w == 0) by lra. rewrite H0. lra.
  Qed.
  Lemma umax_nonneg : forall es val, 0 <= umax s es val.
  Proof.
    induction es as [|[u w] r IH]; cbn; intros val; [lra|]. destruct (unfixed val u && qposb w); [|apply IH].
    eapply Qle_trans; [apply IH|apply qmx_ge_r].
  Qed.
  Lemma umax_ge : forall es val u w, In (u, w) es -> unfixed val u = true -> qposb w = true -> w * ip s u <= umax s es val.
  Proof.
    induction es as [|[u' w'] r IH]; cbn; intros val u w Hin Hu Hw; [tauto|]. destruct Hin as [Hin|Hin].
    - inv Hin. rewrite Hu, Hw. cbn. apply qmx_ge_l.
    - specialize (IH val u w Hin Hu Hw). destruct (unfixed val u' && qposb w'); [|exact IH].
      eapply Qle_trans; [exact IH|apply qmx_ge_r].
  Qed.
  Lemma umax_upd_le : forall es val v x, 0 < x -> umax s es (upd val v x) <= umax s es val.
  Proof.
    induction es as [|[u w] r IH]; cbn; intros val v x Hx; [lra|]. specialize (IH val v x Hx).
    assert (Hn := umax_nonneg r val).
    rewrite unfixed_upd. destruct (Nat.eqb u v).
    - rewrite (proj2 (qposb_true x) Hx). cbn [negb andb].
      destruct (unfixed val u && qposb w); [eapply Qle_trans; [exact IH|apply qmx_ge_r]|exact IH].
    - destruct (unfixed val u && qposb w); [|exact IH].
      apply qmx_lub; [apply qmx_ge_l|eapply Qle_trans; [exact IH|apply qmx_ge_r]].
  Qed.

  Lemma nv_all : forall es val v x, has_var es v = false ->
    wsum es v == 0 /\ load es (upd val v x) = load es val /\ ufun s es (upd val v x) = ufun s es val /\
    umax s es (upd val v x) = umax s es val.
  Proof.
    induction es as [|[u w] r IH]; intros val v x H; [repeat split; reflexivity|].
    unfold has_var in H. cbn [existsb fst] in H. apply orb_false_elim in H. destruct H as [Hu Hr].
    destruct (IH val v x Hr) as [I1 [I2 [I3 I4]]].
    cbn [wsum load ufun umax]. rewrite unfixed_upd, I1, I2, I3, I4, Hu. unfold upd. rewrite Hu. repeat split; reflexivity.
  Qed.

  (* [L] is the level the filling has reached: [st_usage] is the sum (for a fat pipe the max) of weight/penalty over
     the unfixed variables of a constraint, so [v_level] says that giving every unfixed variable [u] the rate [L / pen u]
     still fits everywhere.  A round raises [L] as far as that allows and fixes the variables that hit a limit. *)
  Record Inv (st : mstate) (L : Q) : Prop := {
    v_load : forall c, m_shared (cn s c) = true -> st_rem st c + load (m_elems (cn s c)) (st_val st) == m_bound (cn s c);
    v_fat : forall c, m_shared (cn s c) = false -> st_rem st c == m_bound (cn s c);
    v_usage : forall c, st_usage st c == if m_shared (cn s c) then ufun s (m_elems (cn s c)) (st_val st) else umax s (m_elems (cn s c)) (st_val st);
    v_level : forall c, L * st_usage st c <= st_rem st c;
    v_dark : forall c, st_light st c = false -> st_usage st c <= 0;
    v_lit : forall c, st_light st c = true -> 0 < st_rem st c /\ 0 < st_usage st c;
    v_fatcap : forall c e, m_shared (cn s c) = false -> In e (m_elems (cn s c)) -> snd e * st_val st (fst e) <= m_bound (cn s c);
    v_val : forall v, 0 <= st_val st v /\ (0 < vbound s v -> st_val st v <= vbound s v);
    v_L : 0 <= L }.

  Lemma usage_nonneg : forall st L c, Inv st L -> 0 <= st_usage st c.
  Proof.
    intros st L c I. rewrite (v_usage st L I c). destruct (m_shared (cn s c)); [apply ufun_nonneg; apply w_nonneg|apply umax_nonneg].
  Qed.
  Lemma rem_nonneg : forall st L c, Inv st L -> 0 <= st_rem st c.
  Proof. intros st L c I. assert (A := v_level st L I c). assert (B := usage_nonneg st L c I). assert (C := v_L st L I). nra. Qed.

  Lemma init_inv : Inv (init s) 0.
  Proof.
    constructor; cbn [init st_val st_rem st_usage st_light].
    - intros c _. assert (H : load (m_elems (cn s c)) (fun _ => 0) == 0) by (induction (m_elems (cn s c)) as [|[u w] r IH]; cbn; lra). lra.
    - intros; lra.
    - intro c. destruct (cap_pos c) as [H|H].
      + apply qposb_true in H. rewrite H. reflexivity.
      + rewrite H. cbn. destruct (qposb _), (m_shared _); reflexivity.
    - intro c. assert (H := cap_nonneg c). lra.
    - intros c H. destruct (qposb (m_bound (cn s c))) eqn:E; [|lra]. cbn [andb] in H. apply qposb_false in H. exact H.
    - intros c H. apply andb_prop in H. destruct H as [H1 H2]. rewrite H1. apply qposb_true in H1. apply qposb_true in H2. split; assumption.
    - intros c e Hs He. destruct (cap_pos c) as [H|H]; [lra|rewrite H in He; destruct He].
    - intro v. split; [lra|intro; lra].
    - lra.
  Qed.

  Lemma relevel : forall st L L', Inv st L -> 0 <= L' ->
    (forall c, st_light st c = true -> L' * st_usage st c <= st_rem st c) -> Inv st L'.
  Proof.
    intros st L L' I HL H.
    assert (K : forall c, st_light st c = false -> L' * st_usage st c <= st_rem st c).
    { intros c El. assert (U := v_dark st L I c El). assert (N := usage_nonneg st L c I). assert (R := rem_nonneg st L c I).
      assert (E : st_usage st c == 0) by lra. rewrite E. lra. }
    destruct I as [A B C D E F G V W]. constructor; try assumption.
    intro c. destruct (st_light st c) eqn:El; [apply H|apply K]; exact El.
  Qed.

  Lemma fix_var_inv : forall st L v x, Inv st L -> 0 < L -> 0 < x -> pen s v * x <= L -> (0 < vbound s v -> x <= vbound s v) ->
    Inv (fix_var s v x st) L.
  Proof.
    intros st L v x I HL Hx Hpx Hb. unfold fix_var. destruct (unfixed (st_val st) v) eqn:Eu; [|exact I].
    assert (Q := ip_pos v).
    assert (Hv0 : st_val st v == 0).
    { unfold unfixed in Eu. apply negb_true_iff in Eu. apply qposb_false in Eu. assert (H := proj1 (v_val st L I v)). lra. }
    assert (Hxi : x <= L * ip s v).
    { assert (P := pen_ip v). assert (x == (pen s v * x) * ip s v) by (rewrite <- Qmult_assoc, (Qmult_comm x), Qmult_assoc, P; lra). nra. }
    assert (Hnv := fun c Eh => nv_all (m_elems (cn s c)) (st_val st) v x Eh).
    assert (W := fun c => wsum_nonneg (m_elems (cn s c)) v (w_nonneg c)).
    assert (M := fun c => umax_upd_le (m_elems (cn s c)) (st_val st) v x Hx).
    cbv zeta. set (val' := upd (st_val st) v x) in *. set (st' := mkSt _ _ _ _).
    assert (Hlev : forall c, L * st_usage st' c <= st_rem st' c).
    { intro c. assert (A := v_level st L I c). cbn [st' st_usage st_rem]. destruct (has_var (m_elems (cn s c)) v); [|exact A].
      destruct (m_shared (cn s c)) eqn:Es; cbn [andb].
      - specialize (W c). nra.
      - assert (U := v_usage st L I c). rewrite Es in U. specialize (M c). nra. }
    constructor; [| | |exact Hlev| | | | |apply (v_L st L I)]; cbn [st' st_val st_rem st_usage st_light].
    - intros c Hs. rewrite Hs. rewrite andb_true_r. destruct (has_var (m_elems (cn s c)) v) eqn:Eh.
      + unfold val'. rewrite load_upd by exact Hv0. assert (A := v_load st L I c Hs). lra.
      + destruct (Hnv c Eh) as [_ [H2 _]]. rewrite H2. apply (v_load st L I c Hs).
    - intros c Hs. rewrite Hs. rewrite andb_false_r. apply (v_fat st L I c Hs).
    - intro c. assert (A := v_usage st L I c). destruct (has_var (m_elems (cn s c)) v) eqn:Eh.
      + destruct (m_shared (cn s c)); [|reflexivity].
        unfold val'. rewrite ufun_upd; [|apply w_nonneg|exact Eu|exact Hx]. lra.
      + destruct (Hnv c Eh) as [_ [_ [H3 H4]]]. rewrite H3, H4. exact A.
    - intros c H. assert (A := Hlev c). cbn [st' st_usage st_rem] in A.
      destruct (has_var (m_elems (cn s c)) v); [|apply (v_dark st L I c H)].
      apply andb_false_iff in H. destruct H as [H|H]; [apply andb_false_iff in H; destruct H as [H|H]|].
      + assert (D := v_dark st L I c H). assert (U := v_usage st L I c).
        destruct (m_shared (cn s c)); [specialize (W c); nra|specialize (M c); lra].
      + apply qposb_false in H. exact H.
      + apply qposb_false in H. nra.
    - intros c. destruct (has_var (m_elems (cn s c)) v); [|apply (v_lit st L I c)].
      intro H. apply andb_prop in H. destruct H as [H H3]. apply andb_prop in H. destruct H as [H1 H2].
      apply qposb_true in H2. apply qposb_true in H3. split; assumption.
    - intros c [u w] Hs He. cbn [fst snd]. unfold val', upd. destruct (Nat.eqb u v) eqn:E; [|apply (v_fatcap st L I c (u, w) Hs He)].
      apply Nat.eqb_eq in E. subst u. assert (Hw := w_nonneg c (v, w) He). cbn in Hw.
      assert (A := v_level st L I c). assert (U := v_usage st L I c). rewrite Hs in U. assert (B := v_fat st L I c Hs).
      destruct (qposb w) eqn:Ew.
      + assert (G := umax_ge (m_elems (cn s c)) (st_val st) v w He Eu Ew). apply qposb_true in Ew. nra.
      + apply qposb_false in Ew. assert (w == 0) by lra. rewrite H. assert (N := rem_nonneg st L c I). lra.
    - intro u. unfold val', upd. destruct (Nat.eqb u v) eqn:E; [|apply (v_val st L I u)].
      apply Nat.eqb_eq in E. subst u. split; [lra|exact Hb].
  Qed.

  Lemma min_ratio_spec : forall st, (forall c, st_light st c = true -> 0 < st_rem st c /\ 0 < st_usage st c) ->
    match min_ratio s st with
    | Some L => 0 < L /\ forall c, (c < ncn s)%nat -> st_light st c = true -> L <= ratio st c
    | None => True
    end.
  Proof.
    intros st Hl. assert (H := fold_min_spec (st_light st) (ratio st) (fun q => 0 < q) (seq 0 (ncn s)) None).
    cbv beta in H. fold (min_ratio s st) in H. destruct (min_ratio s st) as [L|]; [|exact I].
    destruct H as [H1 [H2 _]]; [|exact I|].
    - intros c _ E. destruct (Hl c E) as [A B]. unfold ratio. apply Qlt_shift_div_l; [exact B|lra].
    - split; [exact H1|]. intros c Hc. apply H2, in_seq. lia.
  Qed.
  Lemma min_bound_spec : forall L vs,
    match min_bound s vs L with
    | Some a => 0 < a /\ a < L
    | None => forall v, In v vs -> 0 < vbound s v -> L <= vbound s v * pen s v
    end.
  Proof.
    intros L vs. assert (H := fold_min_spec (fun v => qposb (vbound s v) && negb (Qle_bool L (vbound s v * pen s v)))
                                (fun v => vbound s v * pen s v) (fun a => 0 < a /\ a < L) vs None).
    cbv beta in H. fold (min_bound s vs L) in H. lapply H; [clear H; intro H; specialize (H I)|].
    - destruct (min_bound s vs L) as [a|]; [apply H|]. intros v Hv Hb. apply (proj2 H) in Hv.
      apply andb_false_iff in Hv. destruct Hv as [E|E]; [apply qposb_false in E; lra|].
      apply negb_false_iff, Qle_bool_iff in E. exact E.
    - intros v _ E. apply andb_prop in E. destruct E as [E1 E2]. apply qposb_true in E1.
      destruct (Qle_bool_spec L (vbound s v * pen s v)) as [E|E]; [discriminate|]. assert (P := pen_pos v). split; [nra|exact E].
  Qed.

  Lemma fold_fix_bound : forall b vs st, 0 < b -> Inv st b ->
    Inv (fold_left (fun st v => if Qeq_bool b (vbound s v * pen s v) then fix_var s v (vbound s v) st else st) vs st) b.
  Proof.
    intros b. induction vs as [|v r IH]; intros st B1 Ib; [exact Ib|].
    cbn [fold_left]. apply IH; [exact B1|]. destruct (Qeq_bool b (vbound s v * pen s v)) eqn:E; [|exact Ib].
    apply Qeq_bool_iff in E. assert (P := pen_pos v). apply fix_var_inv; try assumption.
    - nra.
    - rewrite Qmult_comm. lra.
    - intro; lra.
  Qed.
  Lemma fold_fix_level : forall L1 vs st, 0 < L1 -> Inv st L1 ->
    (forall v, In v vs -> 0 < vbound s v -> L1 <= vbound s v * pen s v) ->
    Inv (fold_left (fun st v => fix_var s v (L1 * ip s v) st) vs st) L1.
  Proof.
    intros L1. induction vs as [|v r IH]; intros st H1 I1 Eb; [exact I1|].
    cbn [fold_left]. apply IH; [exact H1| |intros u Hu; apply Eb; now right].
    assert (P := pen_pos v). assert (Q := ip_pos v). assert (PI := pen_ip v). apply fix_var_inv; try assumption.
    - nra.
    - rewrite Qmult_comm, <- Qmult_assoc, (Qmult_comm (ip s v)), PI. lra.
    - intro Hb. assert (X := Eb v (or_introl eq_refl) Hb).
      assert (L1 * ip s v <= (vbound s v * pen s v) * ip s v) by nra. rewrite <- Qmult_assoc, PI in H. lra.
  Qed.

  Lemma round_inv : forall st L, Inv st L -> exists L', Inv (round s st) L'.
  Proof.
    intros st L I. unfold round. assert (Em := min_ratio_spec st (v_lit st L I)).
    destruct (min_ratio s st) as [L1|]; [|exists L; exact I]. destruct Em as [H1 H2].
    assert (I1 : Inv st L1).
    { apply (relevel st L L1 I); [lra|]. intros c E.
      destruct (le_lt_dec (ncn s) c) as [Hc|Hc].
      - exfalso. destruct (v_lit st L I c E) as [_ U]. rewrite (v_usage st L I c) in U. unfold cn in U. rewrite nth_overflow in U by exact Hc. cbn in U. lra.
      - assert (X := H2 c Hc E). destruct (v_lit st L I c E) as [R U].
        unfold ratio in X. assert (Y : st_rem st c / st_usage st c * st_usage st c == st_rem st c) by (field; lra).
        assert (Z : L1 * st_usage st c <= st_rem st c / st_usage st c * st_usage st c) by (apply Qmult_le_compat_r; [exact X|lra]). lra. }
    set (vs := sat_vars s st L1). assert (Eb := min_bound_spec L1 vs). destruct (min_bound s vs L1) as [b|].
    - exists b. destruct Eb as [B1 B2]. apply fold_fix_bound; [exact B1|].
      apply (relevel st L1 b I1); [lra|]. intros c E. assert (A := v_level st L1 I1 c). destruct (v_lit st L1 I1 c E) as [_ U]. nra.
    - exists L1. apply fold_fix_level; assumption.
  Qed.

  Lemma rounds_inv : forall fuel st L, Inv st L -> exists L', Inv (rounds fuel s st) L'.
  Proof.
    induction fuel as [|f IH]; intros st L I; [exists L; exact I|]. cbn. destruct (round_inv st L I) as [L' I']. eapply IH; eassumption.
  Qed.

  Theorem rounds_feasible : forall fuel, let st := rounds fuel s (init s) in
    (forall c, m_shared (cn s c) = true -> load (m_elems (cn s c)) (st_val st) <= m_bound (cn s c)) /\
    (forall c e, m_shared (cn s c) = false -> In e (m_elems (cn s c)) -> snd e * st_val st (fst e) <= m_bound (cn s c)) /\
    (forall v, 0 <= st_val st v /\ (0 < vbound s v -> st_val st v <= vbound s v)).
  Proof.
    intros fuel st. destruct (rounds_inv fuel (init s) 0 init_inv) as [L I]. fold st in I. split; [|split].
    - intros c Hs. assert (A := v_load st L I c Hs). assert (R := rem_nonneg st L c I). lra.
    - apply (v_fatcap st L I).
    - apply (v_val st L I).
  Qed.
End Solve.

(* the inequalities of C15; the allocation checker decides them *)
Definition cn_feasible (tol : Q) (val : nat -> Q) (k : mcn) : Prop :=
  if m_shared k then load (m_elems k) val <= m_bound k + tol * m_bound k
  else forall e, In e (m_elems k) -> snd e * val (fst e) <= m_bound k + tol * m_bound k.
Definition var_feasible (tol : Q) (s : msys) (val : nat -> Q) (v : nat) : Prop :=
  (pen s v <= 0 -> val v == 0) /\
  (consumes s v = true -> 0 <= val v /\ (0 < vbound s v -> val v <= vbound s v + tol * vbound s v)).
Definition alloc_feasible (tol : Q) (s : msys) (val : nat -> Q) : Prop :=
  (forall k, In k (m_cns s) -> cn_feasible tol val k) /\ (forall v, (v < length (m_vars s))%nat -> var_feasible tol s val v).

Theorem alloc_feasible_b_ok : forall tol s val, alloc_feasible_b tol s val = true <-> alloc_feasible tol s val.
Proof.
  intros tol s val. unfold alloc_feasible_b, alloc_feasible. rewrite andb_true_iff, !forallb_forall.
  assert (A : forall k, cn_feasible_b tol val k = true <-> cn_feasible tol val k).
  { intro k. unfold cn_feasible_b, cn_feasible. destruct (m_shared k); [apply Qle_bool_iff|].
    rewrite forallb_forall. split; intros H e He; apply Qle_bool_iff, H, He. }
  assert (B : forall v, var_feasible_b tol s val v = true <-> var_feasible tol s val v).
  { intro v. unfold var_feasible_b, var_feasible. rewrite andb_true_iff.
    assert (D : (qposb (pen s v) || Qeq_bool (val v) 0) = true <-> (pen s v <= 0 -> val v == 0)).
    { rewrite orb_true_iff, Qeq_bool_iff. destruct (qposb (pen s v)) eqn:E.
      - apply qposb_true in E. split; [intros _ H; lra|intros _; now left].
      - apply qposb_false in E. split; [intros [H|H] _; [discriminate|exact H]|intro H; right; apply H; exact E]. }
    rewrite D. apply and_iff_compat_l. destruct (consumes s v); cbn [negb orb].
    - rewrite andb_true_iff, orb_true_iff, negb_true_iff, !Qle_bool_iff. split.
      + intros [H1 H2] _. split; [exact H1|]. intro Hb. destruct H2 as [H2|H2]; [apply qposb_false in H2; lra|exact H2].
      + intro H. destruct (H eq_refl) as [H1 H2]. split; [exact H1|]. destruct (qposb (vbound s v)) eqn:E; [right; apply H2; apply qposb_true; exact E|now left].
    - split; [discriminate|reflexivity]. }
  split.
  - intros [H1 H2]. split; [intros k Hk; apply A, H1, Hk|intros v Hv; apply B, H2; apply in_seq; lia].
  - intros [H1 H2]. split; [intros k Hk; apply A, H1, Hk|intros v Hv; apply B, H2; apply in_seq in Hv; lia].
Qed.

(* what the bottleneck checker establishes (C16): soundness only *)
Definition is_bottleneck (tol : Q) (s : msys) (val : nat -> Q) (v : nat) : Prop :=
  consumes s v = false \/ (0 < vbound s v /\ vbound s v - tol * vbound s v <= val v) \/
  exists k, In k (m_cns s) /\ (exists e, In e (m_elems k) /\ fst e = v /\ 0 < snd e) /\
            m_bound k - tol * m_bound k <= cn_load k val /\
            forall e, In e (m_elems k) -> 0 < snd e -> pen s (fst e) * val (fst e) <= pen s v * val v + tol * (pen s v * val v).
(* a variable is not consuming, or at its bound, or on a saturated constraint that passes the test [F] of the checker *)
Lemma crit_sound : forall (F : mcn -> bool) (P : mcn -> Prop) tol s val v, (forall k, F k = true -> P k) ->
  negb (consumes s v) || at_bound_b tol s val v ||
    existsb (fun k => existsb (fun e => Nat.eqb (fst e) v && qposb (snd e)) (m_elems k) && saturated_b tol val k && F k) (m_cns s) = true ->
  consumes s v = false \/ (0 < vbound s v /\ vbound s v - tol * vbound s v <= val v) \/
  exists k, In k (m_cns s) /\ (exists e, In e (m_elems k) /\ fst e = v /\ 0 < snd e) /\ m_bound k - tol * m_bound k <= cn_load k val /\ P k.
Proof.
  intros F P tol s val v HF H. apply orb_prop in H. destruct H as [H|H]; [apply orb_prop in H; destruct H as [H|H]|].
  - left. apply negb_true_iff in H. exact H.
  - right; left. unfold at_bound_b in H. apply andb_prop in H. destruct H as [H1 H2]. apply qposb_true in H1. apply Qle_bool_iff in H2. tauto.
  - right; right. apply existsb_exists in H. destruct H as [k [Hk H]]. apply andb_prop in H. destruct H as [H H3]. apply andb_prop in H. destruct H as [H1 H2].
    exists k. split; [exact Hk|]. split; [|split; [apply Qle_bool_iff; exact H2|apply HF; exact H3]].
    apply existsb_exists in H1. destruct H1 as [e [He H1]]. apply andb_prop in H1. destruct H1 as [H1 H1']. exists e.
    split; [exact He|]. split; [apply Nat.eqb_eq; exact H1|apply qposb_true; exact H1'].
Qed.
Lemma maximal_sound : forall (f : nat * Q -> Q) b es, forallb (fun e => negb (qposb (snd e)) || Qle_bool (f e) b) es = true ->
  forall e, In e es -> 0 < snd e -> f e <= b.
Proof.
  intros f b es H e He Hw. rewrite forallb_forall in H. specialize (H e He). apply orb_prop in H.
  destruct H as [H|H]; [apply negb_true_iff, qposb_false in H; lra|apply Qle_bool_iff; exact H].
Qed.

Theorem bottleneck_b_sound : forall tol s val, bottleneck_b tol s val = true ->
  forall v, (v < length (m_vars s))%nat -> is_bottleneck tol s val v.
Proof.
  intros tol s val H v Hv. unfold bottleneck_b in H. rewrite forallb_forall in H. specialize (H v ltac:(apply in_seq; lia)).
  apply (crit_sound (fun k => maximal_on_b tol s val k v) _ tol s val v); [|exact H].
  intros k. apply (maximal_sound (fun e => pen s (fst e) * val (fst e))).
Qed.

Definition is_bmf_share (tol : Q) (s : msys) (val : nat -> Q) (v : nat) : Prop :=
  consumes s v = false \/ (0 < vbound s v /\ vbound s v - tol * vbound s v <= val v) \/
  exists k, In k (m_cns s) /\ (exists e, In e (m_elems k) /\ fst e = v /\ 0 < snd e) /\
            m_bound k - tol * m_bound k <= cn_load k val /\
            ((forall e, In e (m_elems k) -> 0 < snd e ->
                pen s (fst e) * snd e * val (fst e) <= share_on s val k v + tol * share_on s val k v) \/
             (m_shared k = false /\ m_bound k - tol * m_bound k <= wsum (m_elems k) v * val v)).
Theorem bmf_b_sound : forall tol s val, bmf_b tol s val = true ->
  forall v, (v < length (m_vars s))%nat -> is_bmf_share tol s val v.
Proof.
  intros tol s val H v Hv. unfold bmf_b in H. rewrite forallb_forall in H. specialize (H v ltac:(apply in_seq; lia)).
  apply (crit_sound (fun k => maximal_share_b tol s val k v ||
                              (negb (m_shared k) && Qle_bool (m_bound k - tol * m_bound k) (wsum (m_elems k) v * val v))) _ tol s val v); [|exact H].
  intros k H3. apply orb_prop in H3. destruct H3 as [H3|H3].
  - left. apply (maximal_sound (fun e => pen s (fst e) * snd e * val (fst e))). exact H3.
  - right. apply andb_prop in H3. destruct H3 as [H3 H4]. apply negb_true_iff in H3. apply Qle_bool_iff in H4. split; assumption.
Qed.
