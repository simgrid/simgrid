(** Lmm/SelectiveProofs.v — proofs about Lmm/Selective.v: the modified set is closed under "shares an enabled variable"
    after every history, whatever the initial value of the counter (including its wrap-around). *)
From SGV Require Import Base.PlainLia Base.Facts Lmm.System Lmm.SystemProofs Lmm.Selective.
From Coq Require Import QArith.
Local Open Scope Z_scope.

Lemma memb_In : forall c l, memb c l = true <-> In c l.
Proof.
  intros c l. unfold memb. rewrite existsb_exists. split.
  - intros [x [H1 H2]]. apply Nat.eqb_eq in H2. subst. exact H1.
  - intro H. exists c. split; [exact H|apply Nat.eqb_refl].
Qed.
Lemma memb_nIn : forall c l, memb c l = false <-> ~ In c l.
Proof. intros c l. rewrite <- memb_In. destruct (memb c l); split; congruence. Qed.

(* the base projection commutes with every operation, for every code version and every state *)
Lemma x_disable_var_base : forall fx x v, x_base (x_disable_var fx x v) = disable_var (x_base x) v.
Proof. reflexivity. Qed.
Lemma x_odv_loop_base : forall fx c l x, x_base (x_odv_loop fx c l x) = odv_loop c l (x_base x).
Proof.
  intros fx c. induction l as [|u r IH]; intro x; [reflexivity|]. cbn [x_odv_loop odv_loop].
  destruct (can_enable (x_base x) u); cbv zeta; cbn [x_enable_var x_from_var lift with_base x_base];
    destruct (_ =? _); try reflexivity; apply IH.
Qed.
Lemma x_odv_base : forall fx x c, x_base (x_on_disabled_var fx x c) = on_disabled_var (x_base x) c.
Proof. intros. unfold x_on_disabled_var, on_disabled_var. destruct (_ <? _); [reflexivity|apply x_odv_loop_base]. Qed.
Lemma x_odv_all_base : forall fx es x, x_base (x_odv_all fx x es) = odv_all (x_base x) es.
Proof.
  intros fx. unfold x_odv_all, odv_all. induction es as [|e r IH]; intro x; [reflexivity|]. cbn [fold_left]. rewrite IH, x_odv_base. reflexivity.
Qed.
Lemma x_expand_core_base : forall fx x c v w, x_base (x_expand_core fx x c v w) = expand (x_base x) c v w.
Proof.
  intros. unfold x_expand_core, expand. cbv zeta. cbn [dirty with_base x_base]. destruct (_ && _); [|reflexivity].
  cbn [with_base x_base]. rewrite x_odv_all_base. reflexivity.
Qed.
Lemma x_expand_base : forall fx x c v w, x_base (x_expand fx x c v w) = expand (x_base x) c v w.
Proof.
  intros. rewrite <- (x_expand_core_base fx). unfold x_expand. cbv zeta. destruct (_ || _); [destruct (fx_exp fx)|]; reflexivity.
Qed.
Lemma x_penalty_core_base : forall fx x v p, x_base (x_penalty_core fx x v p) = update_penalty_core true true (x_base x) v p.
Proof.
  intros. unfold x_penalty_core, update_penalty_core. cbv zeta. destruct (Qeq_bool _ _); [destruct (_ && _); reflexivity|].
  cbn [dirty x_base]. destruct (_ && _); [destruct (_ =? _); reflexivity|]. destruct (_ && _); [|reflexivity].
  rewrite x_odv_all_base. reflexivity.
Qed.
Lemma x_update_penalty_base : forall fx x v p, x_base (x_update_penalty fx x v p) = update_penalty true true (x_base x) v p.
Proof. intros. unfold x_update_penalty, update_penalty. destruct (qpos p); cbn [with_base x_base]; rewrite x_penalty_core_base; reflexivity. Qed.
Lemma x_fold_upd_base : forall (es : list (nat * Q)) x, x_base (fold_left (fun x e => x_upd_cnst x (fst e)) es x) = x_base x.
Proof. induction es as [|e r IH]; intro x; [reflexivity|]. cbn [fold_left]. rewrite IH. reflexivity. Qed.
Lemma drop_inactive_base : forall x c, x_base (drop_inactive x c) = x_base x.
Proof. intros. unfold drop_inactive. destruct (c_en _); [destruct (c_dis _)|]; reflexivity. Qed.
Definition free_body (fx : fixes) (v : nat) (x : sel) (e : nat * Q) : sel :=
  x_on_disabled_var fx (drop_inactive (with_base x (detach (x_base x) v (fst e) (snd e))) (fst e)) (fst e).
Lemma free_loop_base : forall fx v es x, x_base (fold_left (free_body fx v) es x) =
  fold_left (fun s e => on_disabled_var (detach s v (fst e) (snd e)) (fst e)) es (x_base x).
Proof.
  intros fx v. induction es as [|e r IH]; intro x; [reflexivity|]. cbn [fold_left]. rewrite IH. unfold free_body.
  rewrite x_odv_base, drop_inactive_base. reflexivity.
Qed.
Lemma x_var_free_base : forall fx x v, x_base (x_var_free fx x v) = var_free (x_base x) v.
Proof.
  intros. unfold x_var_free, var_free. cbv zeta. cbn [with_base x_base]. fold (free_body fx v). rewrite free_loop_base. reflexivity.
Qed.
Theorem x_step_base : forall fx y o, x_base (x_step fx y o) = step (x_base y) (proj o).
Proof.
  intros. unfold x_step. cbn [touch x_base]. unfold step. destruct o; cbn [x_code proj step_gen]; try reflexivity.
  - destruct (Qnum p <? 0) eqn:E; [reflexivity|]. cbn [x_base]. unfold step, step_gen. rewrite E. reflexivity.
  - destruct (_ && _); [apply x_expand_base|reflexivity].
  - destruct (_ && _); [apply x_update_penalty_base|reflexivity].
  - destruct (_ && _); [unfold x_vbound; rewrite x_fold_upd_base|]; reflexivity.
  - destruct (Nat.ltb _ _); reflexivity.
  - destruct (_ && _); [apply x_var_free_base|reflexivity].
  - unfold x_solve. destruct (x_dirty y); [|reflexivity]. unfold remove_all. destruct (fx_wrap fx); destruct (_ =? _); reflexivity.
  - destruct (x_mod y); [|reflexivity]. destruct (_ && _); reflexivity.
Qed.

Section Traversal.
  Variable b : sys.
  Variable k : Z.
  Let nc := s_nc b.
  Definition Sub : Prop := forall c u, In u (c_en (s_cn b c)) -> on b u c.
  Definition Ids : Prop := forall u c, on b u c -> (c < s_nc b)%nat.
  Hypothesis HSub : Sub.
  Hypothesis HIds : Ids.

  (* a variable stamped in this epoch has all its constraints in the set; X = variables exempted for the moment *)
  Definition J (X : nat -> Prop) (st : mst) : Prop :=
    forall u, ~ X u -> m_stamp st u = k -> forall c', In u (c_en (s_cn b c')) -> In c' (m_set st).
  Definition Cl (X : nat -> Prop) (st : mst) : Prop :=
    forall c c' u, In c (m_set st) -> ~ X u -> In u (c_en (s_cn b c)) -> In u (c_en (s_cn b c')) -> In c' (m_set st).
  Definition wf (st : mst) : Prop := NoDup (m_set st) /\ forall c, In c (m_set st) -> (c < nc)%nat.
  Definition GJ (X : nat -> Prop) (st : mst) : Prop := wf st /\ J X st /\ Cl X st.
  Definition stamped (st : mst) (c : nat) : Prop := forall v, In v (c_en (s_cn b c)) -> m_stamp st v = k.
  Record Ext (st st' : mst) : Prop := {
    e_incl : incl (m_set st) (m_set st');
    e_stamp : forall v, m_stamp st' v = m_stamp st v \/ m_stamp st' v = k;
    e_new : forall c, In c (m_set st') -> In c (m_set st) \/ stamped st' c;
    e_len : (length (m_set st) <= length (m_set st'))%nat }.

  Lemma Ext_refl : forall st, Ext st st.
  Proof. intro st. constructor; auto using incl_refl. Qed.
  Lemma stamped_ext : forall st st' c, Ext st st' -> stamped st c -> stamped st' c.
  Proof. intros st st' c E H v Hv. destruct (e_stamp _ _ E v) as [A|A]; [rewrite A; apply H; exact Hv|exact A]. Qed.
  Lemma Ext_trans : forall a b0 c, Ext a b0 -> Ext b0 c -> Ext a c.
  Proof.
    intros a b0 c E1 E2. constructor.
    - eapply incl_tran; [apply (e_incl _ _ E1)|apply (e_incl _ _ E2)].
    - intro v. destruct (e_stamp _ _ E2 v) as [A|A]; [rewrite A; apply (e_stamp _ _ E1)|right; exact A].
    - intros x Hx. destruct (e_new _ _ E2 x Hx) as [A|A]; [|right; exact A].
      destruct (e_new _ _ E1 x A) as [B|B]; [left; exact B|right; eapply stamped_ext; eassumption].
    - etransitivity; [apply (e_len _ _ E1)|apply (e_len _ _ E2)].
  Qed.
  Lemma wf_len : forall st, wf st -> (length (m_set st) <= nc)%nat.
  Proof.
    intros st [N B]. rewrite <- (seq_length nc 0). apply NoDup_incl_length; [exact N|].
    intros c Hc. apply in_seq. specialize (B c Hc). lia.
  Qed.
  Lemma Ext_push : forall st c, ~ In c (m_set st) -> forall st', Ext (push c st) st' -> stamped st' c -> Ext st st'.
  Proof.
    intros st c Hn st' E S. constructor.
    - intros x Hx. apply (e_incl _ _ E). cbn. apply in_or_app. now left.
    - apply (e_stamp _ _ E).
    - intros x Hx. destruct (e_new _ _ E x Hx) as [A|A]; [|right; exact A]. cbn in A. apply in_app_or in A.
      destruct A as [A|[A|[]]]; [left; exact A|subst x; right; exact S].
    - assert (L := e_len _ _ E). cbn in L. rewrite app_length in L. cbn in L. lia.
  Qed.

  (* what the recursive call does when the set is at most [f] constraints away from holding them all *)
  Definition Rspec (f : nat) (R : nat -> mst -> mst) : Prop :=
    forall c st X, wf st -> J X st -> In c (m_set st) -> (nc < f + length (m_set st))%nat ->
      wf (R c st) /\ J X (R c st) /\ Ext st (R c st) /\ stamped (R c st) c.

  (* a constraint outside the set enters it and is traversed *)
  Lemma visit_spec : forall f R, Rspec f R -> forall X c st, (c < nc)%nat -> wf st -> J X st -> ~ In c (m_set st) ->
    (nc <= f + length (m_set st))%nat ->
    let st' := R c (push c st) in wf st' /\ J X st' /\ Ext st st' /\ In c (m_set st').
  Proof.
    intros f R HR X c st Hc [N B] Jx Hn Hf.
    assert (Ip : In c (m_set (push c st))) by (cbn; apply in_or_app; right; now left).
    destruct (HR c (push c st) X) as [W1 [J1 [E1 S1]]].
    - split; cbn; [apply NoDup_snoc; assumption|]. intros x Hx. apply in_app_or in Hx. destruct Hx as [Hx|[<-|[]]]; [apply B; exact Hx|exact Hc].
    - intros u Hx Hk c' Hc'. cbn. apply in_or_app. left. apply (Jx u Hx Hk c' Hc').
    - exact Ip.
    - cbn. rewrite app_length. cbn. lia.
    - exact (conj W1 (conj J1 (conj (Ext_push st c Hn _ E1 S1) (e_incl _ _ E1 c Ip)))).
  Qed.

  Lemma inner_cons : forall R c v e r st, inner R k c v (e :: r) st =
    inner R k c v r (if m_stamp st v =? k then st
                     else if negb (Nat.eqb (fst e) c) && negb (memb (fst e) (m_set st)) then R (fst e) (push (fst e) st) else st).
  Proof. reflexivity. Qed.
  Lemma outer_cons : forall R c v r st, outer R b k c (v :: r) st = outer R b k c r (stampit (inner R k c v (v_elems (s_var b v)) st) v k).
  Proof. reflexivity. Qed.

  Lemma inner_spec : forall f R, Rspec f R -> forall X c v es st,
    (forall e, In e es -> (fst e < nc)%nat) -> wf st -> J X st -> In c (m_set st) -> (nc <= f + length (m_set st))%nat ->
    let st' := inner R k c v es st in
    wf st' /\ J X st' /\ Ext st st' /\ (m_stamp st' v = k \/ forall e, In e es -> In (fst e) (m_set st')).
  Proof.
    intros f R HR X c v. induction es as [|e r IH]; intros st Hes W Jx Hc Hf.
    - cbn. refine (conj W (conj Jx (conj (Ext_refl st) _))). right; intros e [].
    - assert (Hr : forall e', In e' r -> (fst e' < nc)%nat) by (intros; apply Hes; now right).
      rewrite inner_cons. cbv zeta.
      destruct (m_stamp st v =? k) eqn:Ek.
      + destruct (IH st Hr W Jx Hc Hf) as [W1 [J1 [E1 D1]]].
        refine (conj W1 (conj J1 (conj E1 _))). left. apply Z.eqb_eq in Ek.
        destruct (e_stamp _ _ E1 v) as [A|A]; [rewrite A; exact Ek|exact A].
      + destruct (negb (Nat.eqb (fst e) c) && negb (memb (fst e) (m_set st))) eqn:Ec.
        * apply andb_prop in Ec. destruct Ec as [_ Em]. apply negb_true_iff in Em. apply memb_nIn in Em.
          destruct (visit_spec f R HR X (fst e) st (Hes e (or_introl eq_refl)) W Jx Em Hf) as [W1 [J1 [E1 I1]]].
          destruct (IH (R (fst e) (push (fst e) st)) Hr W1 J1) as [W2 [J2 [E2 D2]]].
          { apply (e_incl _ _ E1). exact Hc. }
          { assert (L := e_len _ _ E1). lia. }
          refine (conj W2 (conj J2 (conj (Ext_trans _ _ _ E1 E2) _))).
          destruct D2 as [D2|D2]; [left; exact D2|right]. intros e' [<-|He']; [apply (e_incl _ _ E2), I1|apply D2; exact He'].
        * destruct (IH st Hr W Jx Hc Hf) as [W1 [J1 [E1 D1]]].
          refine (conj W1 (conj J1 (conj E1 _))). destruct D1 as [D1|D1]; [left; exact D1|right].
          intros e' [<-|He']; [|apply D1; exact He']. apply (e_incl _ _ E1).
          apply andb_false_iff in Ec. destruct Ec as [Ec|Ec]; apply negb_false_iff in Ec.
          -- apply Nat.eqb_eq in Ec. rewrite Ec. exact Hc.
          -- apply memb_In. exact Ec.
  Qed.

  Lemma outer_spec : forall f R, Rspec f R -> forall X c vs st,
    wf st -> J X st -> In c (m_set st) -> (nc <= f + length (m_set st))%nat ->
    let st' := outer R b k c vs st in
    wf st' /\ J X st' /\ Ext st st' /\ forall v, In v vs -> m_stamp st' v = k.
  Proof.
    intros f R HR X c. induction vs as [|v r IH]; intros st W Jx Hc Hf.
    - cbn. refine (conj W (conj Jx (conj (Ext_refl st) _))). intros v [].
    - rewrite outer_cons. cbv zeta.
      destruct (inner_spec f R HR X c v (v_elems (s_var b v)) st) as [W1 [J1 [E1 D1]]]; try assumption.
      { intros e He. apply HIds with (u := v). unfold on. apply in_map. exact He. }
      set (st1 := inner R k c v (v_elems (s_var b v)) st) in *.
      assert (W2 : wf (stampit st1 v k)) by exact W1.
      assert (J2 : J X (stampit st1 v k)).
      { intros u Hx Hk c' Hc'. cbn. cbn in Hk. unfold upd in Hk. destruct (Nat.eqb_spec u v) as [->|_]; [|apply (J1 u Hx Hk c' Hc')].
        destruct D1 as [D1|D1]; [apply (J1 v Hx D1 c' Hc')|].
        assert (O := HSub c' v Hc'). unfold on in O. apply in_map_iff in O. destruct O as [e [O1 O2]]. rewrite <- O1. apply D1. exact O2. }
      assert (E2 : Ext st1 (stampit st1 v k)).
      { constructor; cbn; [apply incl_refl| |intros x Hx; left; exact Hx|lia]. intro u. unfold upd. destruct (Nat.eqb u v); auto. }
      assert (E02 : Ext st (stampit st1 v k)) by (eapply Ext_trans; eassumption).
      destruct (IH (stampit st1 v k)) as [W3 [J3 [E3 D3]]]; try assumption.
      { apply (e_incl _ _ E02). exact Hc. }
      { assert (L := e_len _ _ E02). lia. }
      refine (conj W3 (conj J3 (conj (Ext_trans _ _ _ E02 E3) _))).
      intros u [<-|Hu]; [|apply D3; exact Hu].
      destruct (e_stamp _ _ E3 v) as [A|A]; [|exact A]. rewrite A. cbn. apply upd_same.
  Qed.

  Lemma mrec_spec : forall f, Rspec f (mrec f b k).
  Proof.
    induction f as [|f IH]; intros c st X W Jx Hc Hf.
    - exfalso. assert (L := wf_len st W). lia.
    - cbn [mrec]. apply (outer_spec f (mrec f b k) IH X c (c_en (s_cn b c)) st W Jx Hc). lia.
  Qed.

  Lemma Cl_ext : forall X st st', Cl X st -> J X st' -> Ext st st' -> Cl X st'.
  Proof.
    intros X st st' C Jx E c c' u Hc Hx Hu Hu'. destruct (e_new _ _ E c Hc) as [A|A].
    - apply (e_incl _ _ E). apply (C c c' u A Hx Hu Hu').
    - apply (Jx u Hx (A u Hu) c' Hu').
  Qed.

  Lemma upd_cnst_spec : forall X c st, (c < nc)%nat -> GJ X st ->
    let st' := upd_cnst b k c st in GJ X st' /\ Ext st st' /\ In c (m_set st').
  Proof.
    intros X c st Hc [W [Jx C]]. unfold upd_cnst. destruct (memb c (m_set st)) eqn:Em.
    - apply memb_In in Em. exact (conj (conj W (conj Jx C)) (conj (Ext_refl st) Em)).
    - apply memb_nIn in Em.
      destruct (visit_spec (S nc) (mrec (S nc) b k) (mrec_spec (S nc)) X c st Hc W Jx Em) as [W1 [J1 [E1 I1]]]; [lia|].
      exact (conj (conj W1 (conj J1 (Cl_ext X st _ C J1 E1))) (conj E1 I1)).
  Qed.

  Lemma fold_upd_spec : forall X (es : list (nat * Q)) st, (forall e, In e es -> (fst e < nc)%nat) -> GJ X st ->
    let st' := fold_left (fun st e => upd_cnst b k (fst e) st) es st in
    GJ X st' /\ Ext st st' /\ forall e, In e es -> In (fst e) (m_set st').
  Proof.
    intros X. induction es as [|e r IH]; intros st Hes G.
    - cbn. refine (conj G (conj (Ext_refl st) _)). intros e [].
    - cbn [fold_left]. destruct (upd_cnst_spec X (fst e) st (Hes e (or_introl eq_refl)) G) as [G1 [E1 I1]].
      destruct (IH (upd_cnst b k (fst e) st)) as [G2 [E2 I2]]; [intros; apply Hes; now right|exact G1|].
      refine (conj G2 (conj (Ext_trans _ _ _ E1 E2) _)).
      intros e' [<-|He']; [apply (e_incl _ _ E2); exact I1|apply I2; exact He'].
  Qed.

  Definition plus (X : nat -> Prop) (v : nat) : nat -> Prop := fun u => X u \/ u = v.

  (* an exempted variable whose constraints are all in the set needs no exemption *)
  Lemma GJ_drop : forall X v st, GJ (plus X v) st -> (forall c', In v (c_en (s_cn b c')) -> In c' (m_set st)) -> GJ X st.
  Proof.
    intros X v st [W [Jx C]] H.
    assert (P : forall u, ~ X u -> u <> v -> ~ plus X v u) by (intros u A B [D|D]; tauto).
    split; [exact W|split].
    - intros u Hx Hk c' Hc'. destruct (Nat.eq_dec u v) as [->|n]; [apply H; exact Hc'|apply (Jx u (P u Hx n) Hk c' Hc')].
    - intros c c' u Hc Hx Hu Hu'. destruct (Nat.eq_dec u v) as [->|n]; [apply H; exact Hu'|apply (C c c' u Hc (P u Hx n) Hu Hu')].
  Qed.

  Lemma from_var_spec : forall fx X v st, fx_from fx = true -> GJ (plus X v) st ->
    (qpos (v_pen (s_var b v)) = false -> forall c, ~ In v (c_en (s_cn b c))) ->
    let st' := from_var fx b k v st in
    GJ X st' /\ Ext st st' /\ (qpos (v_pen (s_var b v)) = true -> forall c', on b v c' -> In c' (m_set st')).
  Proof.
    intros fx X v st Hfx G H0. unfold from_var.
    (* nothing is done when [v] is enabled nowhere *)
    assert (Skip : (forall c, ~ In v (c_en (s_cn b c))) -> GJ X st) by (intro Hn; apply (GJ_drop X v st G); intros c' Hc'; destruct (Hn c' Hc')).
    destruct (v_elems (s_var b v)) as [|e0 r] eqn:Ee.
    - refine (conj (Skip _) (conj (Ext_refl st) _)).
      + intros c' Hc'. assert (O := HSub c' v Hc'). unfold on in O. rewrite Ee in O. destruct O.
      + intros _ c' O. unfold on in O. rewrite Ee in O. destruct O.
    - destruct (qpos (v_pen (s_var b v))) eqn:Ep; cbn [negb]; [|refine (conj (Skip (H0 eq_refl)) (conj (Ext_refl st) _)); discriminate].
      rewrite Hfx, <- Ee.
      destruct (fold_upd_spec (plus X v) (v_elems (s_var b v)) st) as [G1 [E1 I1]]; [|exact G|].
      { intros e He. apply HIds with (u := v). unfold on. apply in_map. exact He. }
      assert (All : forall c', on b v c' -> In c' (m_set (fold_left (fun st e => upd_cnst b k (fst e) st) (v_elems (s_var b v)) st))).
      { intros c' O. unfold on in O. apply in_map_iff in O. destruct O as [e [O1 O2]]. rewrite <- O1. apply I1. exact O2. }
      refine (conj (GJ_drop X v _ G1 _) (conj E1 (fun _ => All))). intros c' Hc'. apply All, HSub, Hc'.
  Qed.
End Traversal.

(* J and Cl shrink when the enabled sets grow: they may pass to a graph with smaller enabled sets, and to more exemptions *)
Lemma GJ_anti : forall (X X' : nat -> Prop) b b' k st, (s_nc b <= s_nc b')%nat -> (forall u, X u -> X' u) ->
  (forall c u, ~ X' u -> In u (c_en (s_cn b' c)) -> In u (c_en (s_cn b c))) -> GJ b k X st -> GJ b' k X' st.
Proof.
  intros X X' b b' k st N HX F [[W1 W2] [Jx C]]. split; [split; [exact W1|intros c Hc; specialize (W2 c Hc); lia]|split].
  - intros u Hx Hk c' Hc'. apply (Jx u); [intro A; apply Hx, HX, A|exact Hk|apply F; assumption].
  - intros c c' u Hc Hx Hu Hu'. apply (C c c' u Hc); [intro A; apply Hx, HX, A|apply F; assumption|apply F; assumption].
Qed.

Definition ms (x : sel) : mst := mkMst (x_mod x) (x_stamp x).
Definition St (X : nat -> Prop) (x : sel) : Prop := Sub (x_base x) /\ Ids (x_base x) /\ GJ (x_base x) (x_cnt x) X (ms x).
(* the order in which the selective-update members evolve between two solves; it does not look at the base *)
Definition Mono (x x' : sel) : Prop :=
  incl (x_mod x) (x_mod x') /\ x_cnt x' = x_cnt x /\ x_touched x' = x_touched x /\
  forall v, x_stamp x' v = x_stamp x v \/ x_stamp x' v = x_cnt x.
Lemma Mono_refl : forall x, Mono x x.
Proof. intro x. repeat split; auto using incl_refl. Qed.
Lemma Mono_trans : forall a b c, Mono a b -> Mono b c -> Mono a c.
Proof.
  intros a b c [A1 [A2 [A3 A5]]] [B1 [B2 [B3 B5]]]. repeat split; try congruence.
  - eapply incl_tran; eassumption.
  - intro v. destruct (B5 v) as [E|E]; [rewrite E; apply A5|right; congruence].
Qed.
Lemma Ext_Mono : forall x st', Ext (x_base x) (x_cnt x) (ms x) st' ->
  Mono x (mkSel (x_base x) (m_set st') (m_stamp st') (x_cnt x) (x_dirty x) (x_touched x)).
Proof. intros x st' E. repeat split; [apply (e_incl _ _ _ _ E)|apply (e_stamp _ _ _ _ E)]. Qed.

Lemma St_weaken : forall (X X' : nat -> Prop) x, (forall u, X u -> X' u) -> St X x -> St X' x.
Proof. intros X X' x H [S [I G]]. refine (conj S (conj I (GJ_anti X X' _ _ _ _ (Nat.le_refl _) H _ G))). auto. Qed.
(* the enabled sets of [b'] are those of [b], but for [v] *)
Definition gfr (v : nat) (b b' : sys) : Prop :=
  s_nc b' = s_nc b /\ forall c u, u <> v -> In u (c_en (s_cn b' c)) -> In u (c_en (s_cn b c)).
Lemma St_base : forall X x v b', St X x -> gfr v (x_base x) b' -> Sub b' -> Ids b' -> St (plus X v) (with_base x b').
Proof.
  intros X x v b' [_ [_ G]] [N F] S I. refine (conj S (conj I (GJ_anti X (plus X v) _ b' _ _ _ _ _ G))); [rewrite N; auto|left; assumption|].
  intros c u Hx. apply F. intro A. apply Hx. right. exact A.
Qed.
Lemma plus_idem : forall (X : nat -> Prop) v u, plus (plus X v) v u -> plus X v u.
Proof. intros X v u [A|A]; [exact A|right; exact A]. Qed.

Lemma pass_graph : forall b v x' g, v_elems x' = v_elems (s_var b v) ->
  (forall w k u, In u (c_en (g w k)) -> u = v \/ In u (c_en k)) -> Sub b -> Ids b ->
  let b' := mkSys (s_nv b) (s_nc b) (upd (s_var b) v x') (apply_elems g (v_elems (s_var b v)) (s_cn b)) in
  gfr v b b' /\ Sub b' /\ Ids b'.
Proof.
  intros b v x' g He Hg S I b'.
  assert (O : forall u c, on b' u c <-> on b u c) by (intros u c; unfold on, b'; cbn [s_var]; rewrite (upd_proj _ _ v_elems _ _ _ He); tauto).
  assert (En : forall c u, In u (c_en (s_cn b' c)) -> (u = v /\ on b v c) \/ In u (c_en (s_cn b c))).
  { intros c u H. unfold b' in H. cbn [s_cn] in H. destruct (in_dec Nat.eq_dec c (map fst (v_elems (s_var b v)))) as [i|n].
    - revert H. apply (apply_elems_rel (fun k k' => In u (c_en k') -> (u = v /\ on b v c) \/ In u (c_en k))); [auto| |].
      + intros k1 k2 k3 H1 H2 H3. destruct (H2 H3) as [H|H]; [left; exact H|apply H1, H].
      + intros w k H. destruct (Hg w k u H) as [->|H']; [left; split; [reflexivity|exact i]|right; exact H'].
    - rewrite apply_elems_notin in H by exact n. right. exact H. }
  split; [split; [reflexivity|]|split].
  - intros c u n H. destruct (En c u H) as [[H' _]|H']; [contradiction|exact H'].
  - intros c u H. apply O. destruct (En c u H) as [[-> H']|H']; [exact H'|apply S; exact H'].
  - intros u c H. apply (I u c), O, H.
Qed.
Lemma enable_var_graph : forall b v, Sub b -> Ids b -> gfr v b (enable_var b v) /\ Sub (enable_var b v) /\ Ids (enable_var b v).
Proof. intros b v. apply pass_graph; [reflexivity|]. intros w k u [H|H]; [left; congruence|right; exact H]. Qed.
Lemma disable_var_graph : forall b v, Sub b -> Ids b -> gfr v b (disable_var b v) /\ Sub (disable_var b v) /\ Ids (disable_var b v).
Proof. intros b v. apply pass_graph; [reflexivity|]. intros w k u H. right. apply in_erase in H. apply H. Qed.
Lemma enable_var_nc : forall b v, s_nc (enable_var b v) = s_nc b. Proof. reflexivity. Qed.
Lemma disable_var_nc : forall b v, s_nc (disable_var b v) = s_nc b. Proof. reflexivity. Qed.

Lemma add_elem_graph : forall b c v w, (c < s_nc b)%nat -> Sub b -> Ids b ->
  gfr v b (add_elem b c v w) /\ Sub (add_elem b c v w) /\ Ids (add_elem b c v w).
Proof.
  intros b c v w Hc S I. assert (F := add_elem_frame b c v w).
  assert (En : forall c0 u, In u (c_en (s_cn (add_elem b c v w) c0)) -> In u (c_en (s_cn b c0)) \/ (u = v /\ c0 = c)).
  { intros c0 u. destruct (Nat.eq_dec c0 c) as [->|n]; [|rewrite (e_cn _ _ _ _ F c0 n); auto].
    unfold add_elem. cbv zeta. destruct (lookup c (v_elems (s_var b v))); cbn [s_cn]; rewrite upd_same; [auto|].
    destruct (qnz _); cbn; [intros [<-|H]|]; auto. }
  split; [split; [apply (e_nc _ _ _ _ F)|]|split].
  - intros c0 u n H. destruct (En c0 u H) as [H'|[H' _]]; [exact H'|contradiction].
  - intros c0 u H. apply add_elem_on. destruct (En c0 u H) as [H'|H']; [left; apply S; exact H'|right; exact H'].
  - intros u c0 H. rewrite (e_nc _ _ _ _ F). apply add_elem_on in H. destruct H as [H|[_ ->]]; [apply (I u c0 H)|exact Hc].
Qed.
Lemma detach_graph : forall b v c w, Sub b -> Ids b -> gfr v b (detach b v c w) /\ Sub (detach b v c w) /\ Ids (detach b v c w).
Proof.
  intros b v c w S I.
  assert (En : forall c0 u, In u (c_en (s_cn (detach b v c w) c0)) -> In u (c_en (s_cn b c0)) /\ ~ (u = v /\ c0 = c)).
  { intros c0 u. unfold detach. cbn [s_cn]. unfold upd. destruct (Nat.eqb_spec c0 c) as [->|n]; [|tauto].
    cbn [c_en]. rewrite in_erase. tauto. }
  split; [split; [reflexivity|]|split].
  - intros c0 u _ H. apply (En c0 u H).
  - intros c0 u H. apply detach_on. destruct (En c0 u H) as [H1 H2]. split; [apply S; exact H1|exact H2].
  - intros u c0 H. apply detach_on in H. apply (I u c0), H.
Qed.

Notation FX := all_fixes.

Lemma x_upd_cnst_spec : forall X x c, St X x -> (c < s_nc (x_base x))%nat ->
  let x' := x_upd_cnst x c in St X x' /\ Mono x x' /\ In c (x_mod x').
Proof.
  intros X x c [S [I G]] Hc. destruct (upd_cnst_spec (x_base x) (x_cnt x) S I X c (ms x) Hc G) as [G1 [E1 I1]].
  exact (conj (conj S (conj I G1)) (conj (Ext_Mono x _ E1) I1)).
Qed.
Lemma x_from_var_spec : forall X x v, St (plus X v) x ->
  (qpos (v_pen (s_var (x_base x) v)) = false -> forall c, ~ In v (c_en (s_cn (x_base x) c))) ->
  let x' := x_from_var FX x v in
  St X x' /\ Mono x x' /\ (qpos (v_pen (s_var (x_base x) v)) = true -> forall c', on (x_base x) v c' -> In c' (x_mod x')).
Proof.
  intros X x v [S [I G]] H0. destruct (from_var_spec (x_base x) (x_cnt x) S I FX X v (ms x) eq_refl G H0) as [G1 [E1 I1]].
  exact (conj (conj S (conj I G1)) (conj (Ext_Mono x _ E1) I1)).
Qed.

Lemma x_enable_var_spec : forall X x v, St X x -> qpos (v_staged (s_var (x_base x) v)) = true ->
  let x' := x_enable_var FX x v in St X x' /\ Mono x x' /\ (forall c', on (x_base x) v c' -> In c' (x_mod x')).
Proof.
  intros X x v H Hs. destruct (enable_var_graph (x_base x) v) as [F [S' I']]; [apply H|apply H|].
  assert (Hp : qpos (v_pen (s_var (enable_var (x_base x) v) v)) = true) by (unfold enable_var; cbn [s_var]; rewrite upd_same; exact Hs).
  destruct (x_from_var_spec X _ v (St_base X x v _ H F S' I')) as [S1 [M1 A1]]; [cbn [with_base x_base]; congruence|].
  refine (conj S1 (conj M1 _)). intros c' O. apply (A1 Hp), (wframe_on _ _ _ _ (enable_var_wframe _ _)), O.
Qed.
Lemma x_disable_var_spec : forall X x v, St X x -> qpos (v_pen (s_var (x_base x) v)) = true ->
  let x' := x_disable_var FX x v in St (plus X v) x' /\ Mono x x' /\ (forall c', on (x_base x) v c' -> In c' (x_mod x')).
Proof.
  intros X x v H Hp. destruct (x_from_var_spec X x v (St_weaken X (plus X v) x (fun u A => or_introl A) H)) as [S1 [M1 A1]]; [congruence|].
  destruct (disable_var_graph (x_base x) v) as [F [S' I']]; [apply H|apply H|].
  exact (conj (St_base X _ v _ S1 F S' I') (conj M1 (A1 Hp))).
Qed.

Lemma x_odv_loop_spec : forall c l X x, St X x -> let x' := x_odv_loop FX c l x in St X x' /\ Mono x x'.
Proof.
  intros c. induction l as [|u r IH]; intros X x H; [exact (conj H (Mono_refl x))|].
  cbn [x_odv_loop].
  assert (H1 : let x1 := if can_enable (x_base x) u then x_enable_var FX x u else x in St X x1 /\ Mono x x1).
  { destruct (can_enable (x_base x) u) eqn:Ec; [|exact (conj H (Mono_refl x))].
    apply can_enable_iff in Ec. destruct (x_enable_var_spec X x u H (proj1 Ec)) as [S1 [M1 _]]. exact (conj S1 M1). }
  cbv zeta in *. destruct H1 as [S1 M1]. destruct (_ =? _); [exact (conj S1 M1)|].
  destruct (IH X _ S1) as [S2 M2]. exact (conj S2 (Mono_trans _ _ _ M1 M2)).
Qed.
Lemma x_on_disabled_var_spec : forall c X x, St X x -> let x' := x_on_disabled_var FX x c in St X x' /\ Mono x x'.
Proof.
  intros c X x H. unfold x_on_disabled_var. destruct (_ <? _); [exact (conj H (Mono_refl x))|apply x_odv_loop_spec; exact H].
Qed.
Lemma x_odv_all_spec : forall es X x, St X x -> let x' := x_odv_all FX x es in St X x' /\ Mono x x'.
Proof.
  unfold x_odv_all. induction es as [|e r IH]; intros X x H; [exact (conj H (Mono_refl x))|].
  cbn [fold_left]. destruct (x_on_disabled_var_spec (fst e) X x H) as [S1 M1].
  destruct (IH X _ S1) as [S2 M2]. exact (conj S2 (Mono_trans _ _ _ M1 M2)).
Qed.

(* changes of the base that leave the enabled sets and the element lists alone *)
Lemma St_same : forall X x b', St X x -> wframe (x_base x) b' -> (forall c, c_en (s_cn b' c) = c_en (s_cn (x_base x) c)) ->
  St X (with_base x b').
Proof.
  intros X x b' [S [I G]] F He. split; [|split]; cbn [with_base x_base x_cnt].
  - intros c u H. rewrite He in H. apply (wframe_on _ _ _ _ F), S, H.
  - intros u c H. rewrite (f_nc _ _ F). apply (I u c), (wframe_on _ _ _ _ F), H.
  - apply (GJ_anti X X (x_base x)); [rewrite (f_nc _ _ F)| |intros c u _; rewrite He|exact G]; auto.
Qed.
Lemma set_var_same : forall X x v y, St X x -> v_alive y = v_alive (s_var (x_base x) v) -> v_elems y = v_elems (s_var (x_base x) v) ->
  St X (with_base x (set_var (x_base x) v y)).
Proof. intros X x v y H Ha He. apply St_same; [exact H|apply set_var_wframe; assumption|reflexivity]. Qed.

(* at the boundaries of API calls the invariants of System.v hold, and give: *)
Lemma inv_Sub : forall b, inv_all b -> Sub b.
Proof. intros b [[I _] _] c u H. apply (k_en (i_cn I c)) in H. apply H. Qed.
Lemma inv_Ids : forall b, inv_all b -> Ids b.
Proof. intros b [_ [_ H]]. exact H. Qed.
Lemma inv_sign : forall b v, inv_all b -> 0 <= Qnum (v_pen (s_var b v)).
Proof. intros b v [[I _] _]. apply (k_sign (i_var I v)). Qed.
Lemma inv_not_en : forall b v, inv_all b -> qpos (v_pen (s_var b v)) = false -> forall c, ~ In v (c_en (s_cn b c)).
Proof. intros b v [[I _] _] E c H. apply (k_en (i_cn I c)) in H. destruct H as [_ [H _]]. congruence. Qed.

Definition NoX : nat -> Prop := fun _ => False.
Definition Xv (v : nat) : nat -> Prop := plus NoX v.

(* the counter and the stamps stay in range, and what was touched is in the set *)
Definition Aux (x : sel) : Prop :=
  1 <= x_cnt x < W32 /\ (forall v, 0 <= x_stamp x v <= x_cnt x) /\ incl (x_touched x) (x_mod x).
Lemma Aux_mono : forall x x', Mono x x' -> Aux x -> Aux x'.
Proof.
  intros x x' [Mi [Mc [Mt Ms]]] [B1 [B2 T]]. rewrite <- Mc in *. split; [exact B1|split].
  - intro v. destruct (Ms v) as [A|A]; rewrite A; [apply B2|lia].
  - rewrite Mt. eapply incl_tran; eassumption.
Qed.

Lemma St_unexempt : forall x v, St (Xv v) x -> (forall c, ~ In v (c_en (s_cn (x_base x) c))) -> St NoX x.
Proof.
  intros x v [S [I G]] H. refine (conj S (conj I (GJ_drop _ _ NoX v _ G _))). intros c' Hc'. destruct (H c' Hc').
Qed.

Lemma x_expand_core_spec : forall x c v w, inv_all (x_base x) -> St NoX x -> (c < s_nc (x_base x))%nat ->
  let x5 := x_expand_core FX x c v w in St (Xv v) x5 /\ Mono x x5.
Proof.
  intros x c v w IA H Hc. unfold x_expand_core. cbv zeta. cbn [dirty x_base].
  destruct (add_elem_graph (x_base x) c v w Hc) as [F [S2 I2]]; [apply H|apply H|].
  assert (H2 := St_base NoX (dirty x) v _ H F S2 I2). set (b2 := add_elem (x_base x) c v w) in *. cbn [with_base x_base].
  destruct (qnz (v_pen (s_var (x_base x) v)) && (slack (s_cn b2 c) <? 0)) eqn:Eq; [|exact (conj H2 (Mono_refl x))].
  apply andb_prop in Eq. destruct Eq as [Eq _]. rewrite (qnz_qpos _ (inv_sign _ v IA)) in Eq.
  destruct (x_disable_var_spec (Xv v) _ v H2) as [S3 [M3 _]]; [cbn [with_base x_base]; unfold b2; rewrite (e_pen _ _ _ _ (add_elem_frame _ c v w)); exact Eq|].
  apply (St_weaken _ (Xv v) _ (plus_idem NoX v)) in S3.
  destruct (x_odv_all_spec (v_elems (s_var (x_base (x_disable_var FX (with_base (dirty x) b2) v)) v)) (Xv v) _ S3) as [S4 M4].
  unfold set_staged. split; [apply set_var_same; [exact S4|reflexivity|reflexivity]|exact (Mono_trans _ _ _ M3 M4)].
Qed.

Lemma x_expand_spec : forall x c v w, inv_all (x_base x) -> St NoX x -> (c < s_nc (x_base x))%nat ->
  inv_all (expand (x_base x) c v w) ->
  let x' := x_expand FX x c v w in
  St NoX x' /\ Mono x x' /\ (qpos (weight (x_base x') v c) || qpos (v_pen (s_var (x_base x') v)) = true -> In c (x_mod x')).
Proof.
  intros x c v w IA H Hc IA'. destruct (x_expand_core_spec x c v w IA H Hc) as [S5 M5].
  assert (B5 := x_expand_core_base FX x c v w). unfold x_expand. cbv zeta. set (x5 := x_expand_core FX x c v w) in *.
  assert (Hdis : qpos (v_pen (s_var (x_base x5) v)) = false -> forall c0, ~ In v (c_en (s_cn (x_base x5) c0))).
  { rewrite B5. apply inv_not_en. exact IA'. }
  destruct (qpos (weight (x_base x5) v c) || qpos (v_pen (s_var (x_base x5) v))) eqn:Ec.
  - destruct (x_upd_cnst_spec (Xv v) x5 c S5) as [S6 [M6 I6]].
    { rewrite B5, (f_nc _ _ (expand_wframe _ c v w)), (e_nc _ _ _ _ (add_elem_frame _ c v w)). exact Hc. }
    cbn [fx_exp all_fixes]. destruct (x_from_var_spec NoX _ v S6 Hdis) as [S7 [M7 _]].
    refine (conj S7 (conj (Mono_trans _ _ _ M5 (Mono_trans _ _ _ M6 M7)) _)). intros _. apply (proj1 M7). exact I6.
  - refine (conj (St_unexempt x5 v S5 (Hdis _)) (conj M5 _)); [apply orb_false_iff in Ec; apply Ec|congruence].
Qed.

Lemma x_penalty_core_spec : forall x v p, St NoX x -> 0 <= Qnum p -> 0 <= Qnum (v_pen (s_var (x_base x) v)) ->
  (qpos (v_pen (s_var (x_base x) v)) = false -> forall c, ~ In v (c_en (s_cn (x_base x) c))) ->
  let x' := x_penalty_core FX x v p in
  St NoX x' /\ Mono x x' /\
  (Qeq_bool (v_pen (s_var (x_base x) v)) (v_pen (s_var (x_base x') v)) = false -> forall c', on (x_base x) v c' -> In c' (x_mod x')).
Proof.
  intros x v p H Hp Hs Hdis. unfold x_penalty_core. cbv zeta.
  (* a call that leaves the penalty as it was owes nothing *)
  assert (Same : forall (x1 : sel) y,
             Qeq_bool (v_pen (s_var (x_base x) v)) (v_pen (s_var (x_base (with_base x1 (set_var (x_base x) v y))) v)) = false ->
             v_pen y <> v_pen (s_var (x_base x) v)).
  { intros x1 y A E. cbn [with_base x_base set_var s_var] in A. rewrite upd_same, E, Qeq_bool_refl in A. discriminate. }
  destruct (Qeq_bool p (v_pen (s_var (x_base x) v))) eqn:Eq.
  - cbn [andb]. destruct (negb (qpos p)).
    + unfold set_staged. split; [apply set_var_same; [exact H|reflexivity|reflexivity]|refine (conj (Mono_refl x) _)]. intro A. destruct (Same _ _ A eq_refl).
    + refine (conj H (conj (Mono_refl x) _)). rewrite Qeq_bool_refl. discriminate.
  - cbn [dirty x_base].
    destruct (qpos p && negb (qpos (v_pen (s_var (x_base x) v)))) eqn:E1.
    + apply andb_prop in E1. destruct E1 as [E1 _]. unfold set_staged. set (y := mkVar _ _ p _ _).
      assert (H1 : St NoX (with_base (dirty x) (set_var (x_base x) v y))) by (apply (set_var_same NoX (dirty x)); [exact H|reflexivity|reflexivity]).
      cbn [with_base x_base].
      destruct (min_slack (set_var (x_base x) v y) v =? 0).
      * refine (conj H1 (conj (Mono_refl x) _)). intro A. destruct (Same _ _ A eq_refl).
      * destruct (x_enable_var_spec NoX _ v H1) as [S2 [M2 A2]]; [cbn [with_base x_base set_var s_var]; rewrite upd_same; exact E1|].
        refine (conj S2 (conj M2 _)). intros _ c' O. apply A2, (wframe_on _ _ _ _ (set_var_wframe _ v y eq_refl eq_refl)), O.
    + destruct (negb (qpos p) && qpos (v_pen (s_var (x_base x) v))) eqn:E2.
      * apply andb_prop in E2. destruct E2 as [_ E2].
        destruct (x_disable_var_spec NoX (dirty x) v H E2) as [S1 [M1 A1]].
        set (x1 := x_disable_var FX (dirty x) v) in *.
        destruct (x_odv_all_spec (v_elems (s_var (x_base x1) v)) (Xv v) x1 S1) as [S2 M2].
        set (x2 := x_odv_all FX x1 (v_elems (s_var (x_base x1) v))) in *.
        assert (All : forall c', on (x_base x) v c' -> In c' (x_mod x2)) by (intros c' O; apply (proj1 M2), A1, O).
        refine (conj _ (conj (Mono_trans _ _ _ M1 M2) (fun _ => All))).
        destruct S2 as [Sa [Sb Sc]]. refine (conj Sa (conj Sb (GJ_drop _ _ NoX v _ Sc _))).
        intros c' Hc'. apply All. apply Sa in Hc'. unfold x2, x1 in Hc'. rewrite x_odv_all_base, x_disable_var_base in Hc'.
        exact (proj1 (wframe_on _ _ v c' (disable_var_wframe _ _)) (proj1 (wframe_on _ _ v c' (odv_all_wframe _ _)) Hc')).
      * set (y := mkVar _ p _ _ _). set (x1 := with_base (dirty x) (set_var (x_base x) v y)).
        assert (H1 : St NoX x1) by (apply (set_var_same NoX (dirty x)); [exact H|reflexivity|reflexivity]).
        assert (Py : v_pen (s_var (x_base x1) v) = p) by (cbn [x1 with_base x_base set_var s_var]; rewrite upd_same; reflexivity).
        destruct (x_from_var_spec NoX x1 v (St_weaken NoX (Xv v) _ (fun u A => or_introl A) H1)) as [S2 [M2 A2]].
        { rewrite Py. intros Ep. apply Hdis. destruct (qpos (v_pen (s_var (x_base x) v))); [rewrite Ep in E2; discriminate|reflexivity]. }
        refine (conj S2 (conj M2 _)). change (x_base (x_from_var FX x1 v)) with (x_base x1). rewrite Py in *.
        intros Hq c' O. apply A2; [|apply (wframe_on _ _ _ _ (set_var_wframe (x_base x) v y eq_refl eq_refl)), O].
        destruct (qpos p) eqn:Ep; [reflexivity|]. destruct (qpos (v_pen (s_var (x_base x) v))) eqn:Ex; [discriminate E2|].
        rewrite (qpos_false_zero _ _ Hs Hp Ex Ep) in Hq. discriminate.
Qed.

Lemma x_update_penalty_spec : forall x v p, inv_all (x_base x) -> St NoX x -> 0 <= Qnum p ->
  let x' := x_update_penalty FX x v p in
  St NoX x' /\ Mono x x' /\
  (Qeq_bool (v_pen (s_var (x_base x) v)) (v_pen (s_var (x_base x') v)) = false -> forall c', on (x_base x) v c' -> In c' (x_mod x')).
Proof.
  intros x v p IA H Hp. assert (Hdis := inv_not_en _ v IA). assert (Hs := inv_sign _ v IA).
  unfold x_update_penalty. destruct (qpos p).
  - assert (Pw : v_pen (s_var (set_want (x_base x) v p) v) = v_pen (s_var (x_base x) v)) by (cbn [set_want set_var s_var]; rewrite upd_same; reflexivity).
    assert (H1 : St NoX (with_base x (set_want (x_base x) v p))) by (apply set_var_same; [exact H|reflexivity|reflexivity]).
    destruct (x_penalty_core_spec _ v p H1 Hp) as [S2 [M2 A2]]; cbn [with_base x_base]; rewrite ?Pw; try assumption.
    refine (conj S2 (conj M2 _)). cbn [with_base x_base] in A2. rewrite Pw in A2.
    intros Hq c' O. apply (A2 Hq), (wframe_on _ _ _ _ (set_want_wframe _ v p)), O.
  - destruct (x_penalty_core_spec x v p H Hp Hs Hdis) as [S2 [M2 A2]]. cbv zeta.
    split; [unfold set_want; apply set_var_same; [exact S2|reflexivity|reflexivity]|refine (conj M2 _)].
    cbn [with_base x_base set_want set_var s_var]. rewrite upd_same. exact A2.
Qed.

Lemma x_fold_upd_spec : forall (es : list (nat * Q)) x, St NoX x -> (forall e, In e es -> (fst e < s_nc (x_base x))%nat) ->
  let x' := fold_left (fun x e => x_upd_cnst x (fst e)) es x in
  St NoX x' /\ Mono x x' /\ forall e, In e es -> In (fst e) (x_mod x').
Proof.
  induction es as [|e r IH]; intros x H Hes; [exact (conj H (conj (Mono_refl x) (fun e (F : In e []) => match F with end)))|].
  cbn [fold_left]. destruct (x_upd_cnst_spec NoX x (fst e) H (Hes e (or_introl eq_refl))) as [S1 [M1 I1]].
  destruct (IH (x_upd_cnst x (fst e)) S1) as [S2 [M2 I2]]; [intros e' He'; apply Hes; now right|].
  refine (conj S2 (conj (Mono_trans _ _ _ M1 M2) _)). intros e' [<-|He']; [apply (proj1 M2); exact I1|apply I2; exact He'].
Qed.

Lemma drop_inactive_spec : forall X x c, St X x -> Aux x -> St X (drop_inactive x c) /\ Aux (drop_inactive x c).
Proof.
  intros X x c H A. unfold drop_inactive. destruct (c_en (s_cn (x_base x) c)) eqn:Een; [|exact (conj H A)].
  destruct (c_dis (s_cn (x_base x) c)); [|exact (conj H A)].
  destruct H as [S [I [[W1 W2] [Jx C]]]]. destruct A as [B1 [B2 T]].
  split; [split; [exact S|split; [exact I|split; [split|split]]]|split; [exact B1|split; [exact B2|]]]; cbn.
  - apply nodup_erase. exact W1.
  - intros c0 Hc0. apply in_erase in Hc0. apply W2. apply Hc0.
  - intros u Hx Hk c' Hc'. apply in_erase. split; [apply (Jx u Hx Hk c' Hc')|]. intro E. subst c'. cbn in Hc'. rewrite Een in Hc'. destruct Hc'.
  - intros c0 c' u Hc0 Hx Hu Hu'. apply in_erase in Hc0. apply in_erase. split; [apply (C c0 c' u (proj1 Hc0) Hx Hu Hu')|].
    intro E. subst c'. rewrite Een in Hu'. destruct Hu'.
  - intros c0 Hc0. apply in_erase in Hc0. apply in_erase. split; [apply T; apply Hc0|apply Hc0].
Qed.

Lemma free_loop_spec : forall v es x, St (Xv v) x -> Aux x ->
  let x' := fold_left (free_body FX v) es x in St (Xv v) x' /\ Aux x'.
Proof.
  intros v. induction es as [|e r IH]; intros x H A; [exact (conj H A)|]. cbn [fold_left].
  destruct (detach_graph (x_base x) v (fst e) (snd e)) as [F [S1 I1]]; [apply H|apply H|].
  assert (H1 := St_weaken _ (Xv v) _ (plus_idem NoX v) (St_base (Xv v) x v _ H F S1 I1)).
  destruct (drop_inactive_spec _ _ (fst e) H1 A) as [H2 A2].
  destruct (x_on_disabled_var_spec (fst e) (Xv v) _ H2) as [S3 M3].
  exact (IH _ S3 (Aux_mono _ _ M3 A2)).
Qed.

Lemma x_var_free_spec : forall x v, inv_all (x_base x) -> St NoX x -> Aux x -> inv_all (var_free (x_base x) v) ->
  let x' := x_var_free FX x v in St NoX x' /\ Aux x'.
Proof.
  intros x v IA H A IA'. assert (B := x_var_free_base FX x v). revert B. unfold x_var_free. cbv zeta. cbn [dirty x_base].
  destruct (x_from_var_spec NoX (dirty x) v (St_weaken NoX (Xv v) _ (fun u E => or_introl E) H) (inv_not_en _ v IA)) as [S0 [M0 A0]].
  set (x0 := x_from_var FX (dirty x) v) in *.
  set (l := if qpos (v_pen (s_var (x_base x) v)) then cnsts_of (x_base x) v else []).
  assert (A1 : Aux (touch x0 l)).
  { destruct (Aux_mono _ _ M0 A) as [B1 [B2 T]]. refine (conj B1 (conj B2 _)). cbn [touch x_touched x_mod]. apply incl_app; [exact T|].
    unfold l. destruct (qpos (v_pen (s_var (x_base x) v))) eqn:E; [exact (A0 E)|intros c []]. }
  destruct (free_loop_spec v (v_elems (s_var (x_base (touch x0 l)) v)) (touch x0 l) (St_weaken NoX (Xv v) _ (fun u E => or_introl E) S0) A1) as [[_ [_ G1]] A2].
  fold (free_body FX v). set (x1 := fold_left (free_body FX v) _ _) in *.
  cbn [with_base x_base]. intro B. rewrite <- B in IA'. split; [|exact A2].
  refine (conj (inv_Sub _ IA') (conj (inv_Ids _ IA') (GJ_drop _ _ NoX v _ (GJ_anti _ _ (x_base x1) _ _ _ (Nat.le_refl _) (fun u E => E) (fun c u _ E => E) G1) _))).
  intros c' Hc'. destruct (inv_not_en _ v IA' (f_equal (fun y => qpos (v_pen y)) (upd_same _ _ v dead_var)) c' Hc').
Qed.

Definition XInv (x : sel) : Prop := inv_all (x_base x) /\ St NoX x /\ Aux x.

Lemma touch_spec : forall x x' l, St NoX x' -> Mono x x' -> Aux x -> incl l (x_mod x') -> St NoX (touch x' l) /\ Aux (touch x' l).
Proof.
  intros x x' l S M A Hl. destruct (Aux_mono _ _ M A) as [B1 [B2 T]]. refine (conj S (conj B1 (conj B2 _))).
  cbn [touch x_touched x_mod]. apply incl_app; assumption.
Qed.
Lemma touch_nil : forall x, touch x [] = x.
Proof. intros [a b c d e f]. unfold touch. cbn. rewrite app_nil_r. reflexivity. Qed.

Lemma W32_pos : 1 < W32. Proof. reflexivity. Qed.

Lemma x_step_inv : forall x o, XInv x -> XInv (x_step FX x o).
Proof.
  intros x o [IA [H A]]. assert (IS := step_inv (x_base x) (proj o) IA).
  split; [rewrite x_step_base; exact IS|]. assert (HA := conj H A). assert (H' := H). destruct H' as [S [I G]].
  unfold x_step. destruct o as [lim sh|p|c v w|v p|v|c|v| |t]; cbn [proj] in IS; cbn [x_code proj touched_by]; rewrite ?touch_nil.
  - (* constraint_new: the new constraint has no enabled variable *)
    refine (conj (conj (inv_Sub _ IS) (conj (inv_Ids _ IS) (GJ_anti _ _ (x_base x) _ _ _ _ (fun u E => E) _ G))) A); cbn; [lia|].
    intros c u _ Hu. unfold upd in Hu. destruct (Nat.eqb c (s_nc (x_base x))); [destruct Hu|exact Hu].
  - (* variable_new: the stamp of the new variable is not the counter *)
    unfold step, step_gen in *. destruct (Qnum p <? 0); [exact HA|].
    destruct A as [B1 [B2 T]]. assert (Hm : (x_cnt x - 1) mod W32 = x_cnt x - 1) by (apply Z.mod_small; lia).
    split; [|split; [exact B1|split; [|exact T]]]; cbn [x_base x_cnt x_stamp x_mod x_touched].
    + refine (conj (inv_Sub _ IS) (conj (inv_Ids _ IS) _)). destruct G as [W [Jx C]]. refine (conj W (conj _ C)).
      intros u Hx Hk c' Hc'. cbn in Hk, Hc'. unfold upd in Hk. destruct (Nat.eqb u (s_nv (x_base x))); [lia|]. apply (Jx u Hx Hk c' Hc').
    + intro u. unfold upd. destruct (Nat.eqb u (s_nv (x_base x))); [lia|apply B2].
  - unfold step, step_gen in IS.
    destruct (Nat.ltb c (s_nc (x_base x)) && Nat.ltb v (s_nv (x_base x)) && v_alive (s_var (x_base x) v) && negb (Qnum w <? 0)) eqn:Eg;
      [|cbn [andb]; rewrite touch_nil; exact HA].
    destruct (x_expand_spec x c v w IA H (proj1 (expand_guard _ c v w Eg)) IS) as [S1 [M1 A1]]. cbn [andb].
    apply (touch_spec x _ _ S1 M1 A). destruct (_ || _); [|intros c0 []]. intros c0 [<-|[]]. apply A1. reflexivity.
  - destruct (Nat.ltb v (s_nv (x_base x)) && v_alive (s_var (x_base x) v) && negb (Qnum p <? 0)) eqn:Eg;
      [|cbn [andb]; rewrite touch_nil; exact HA].
    destruct (x_update_penalty_spec x v p IA H (proj2 (pen_guard _ v p Eg))) as [S1 [M1 A1]]. cbn [andb].
    apply (touch_spec x _ _ S1 M1 A). destruct (Qeq_bool _ _) eqn:Eq; cbn [negb]; [intros c0 []|exact (A1 eq_refl)].
  - destruct (Nat.ltb v (s_nv (x_base x)) && v_alive (s_var (x_base x) v)); [|rewrite touch_nil; exact HA].
    unfold x_vbound. destruct (x_fold_upd_spec (v_elems (s_var (x_base x) v)) (dirty x) H) as [S1 [M1 A1]].
    { intros e He. apply (I v). unfold on. apply in_map. exact He. }
    apply (touch_spec x _ _ S1 M1 A). intros c0 Hc0. apply in_map_iff in Hc0. destruct Hc0 as [e [<- E2]]. apply A1. exact E2.
  - destruct (Nat.ltb c (s_nc (x_base x))) eqn:Eg; [|rewrite touch_nil; exact HA]. apply Nat.ltb_lt in Eg.
    destruct (x_upd_cnst_spec NoX (dirty x) c H Eg) as [S1 [M1 A1]].
    apply (touch_spec x _ _ S1 M1 A). intros c0 [<-|[]]. exact A1.
  - unfold step, step_gen in IS. destruct (Nat.ltb v (s_nv (x_base x)) && v_alive (s_var (x_base x) v)); [|exact HA].
    exact (x_var_free_spec x v IA H A IS).
  - (* solve: the set is emptied; no stamp equals the new counter *)
    unfold x_solve. destruct (x_dirty x); [|exact HA].
    unfold remove_all. cbn [fx_wrap all_fixes]. destruct A as [B1 [B2 _]]. pose proof W32_pos as HW.
    assert (Empty : forall b k stamp, (forall u, stamp u <> k) -> GJ b k NoX (mkMst [] stamp)).
    { intros b k stamp Hk. split; [split; [constructor|intros c []]|split; [intros u _ Hu; destruct (Hk u Hu)|intros c c' u []]]. }
    destruct ((x_cnt x + 1) mod W32 =? 0) eqn:Ek; cbn [x_base x_mod x_stamp x_cnt x_touched].
    + refine (conj (conj S (conj I (Empty _ _ _ _))) (conj _ (conj _ (incl_refl [])))); cbn; [intro u|..]; lia.
    + apply Z.eqb_neq in Ek.
      assert (Hk : (x_cnt x + 1) mod W32 = x_cnt x + 1).
      { apply Z.mod_small. split; [lia|]. destruct (Z.eq_dec (x_cnt x + 1) W32) as [E|E]; [rewrite E, Z_mod_same_full in Ek; lia|lia]. }
      rewrite Hk. refine (conj (conj S (conj I (Empty _ _ _ _))) (conj _ (conj _ (incl_refl [])))); cbn.
      * intro u. specialize (B2 u). lia.
      * split; [lia|]. rewrite <- Hk. apply Z.mod_pos_bound. lia.
      * intro u. specialize (B2 u). lia.
  - destruct (x_mod x) eqn:Em; [|exact HA].
    destruct ((x_cnt x <=? t) && (t <? W32)) eqn:Et; [|exact HA].
    apply andb_prop in Et. destruct Et as [E1 E2]. apply Z.leb_le in E1. apply Z.ltb_lt in E2. destruct A as [B1 [B2 T]].
    split; [|unfold Aux; cbn [x_cnt x_stamp x_touched x_mod]; split; [lia|split; [intro u; specialize (B2 u); lia|rewrite Em in T; exact T]]].
    refine (conj S (conj I _)). cbn [x_base x_cnt ms x_mod x_stamp]. destruct G as [W [Jx C]]. unfold ms in *. rewrite Em in *.
    refine (conj W (conj _ C)). intros u Hx Hk c' Hc'. cbn in Hk.
    destruct (Z.eq_dec t (x_cnt x)) as [E|E]; [rewrite E in Hk; apply (Jx u Hx Hk c' Hc')|specialize (B2 u); lia].
Qed.

Lemma XInv_0 : forall k0, 1 <= k0 < W32 -> XInv (sel0 k0).
Proof.
  intros k0 Hk. split; [exact inv_all_0|split; [|split; [exact Hk|split; [intro v; cbn; lia|intros c []]]]].
  split; [intros c u []|split; [intros u c []|]]. split; [split; [constructor|intros c []]|split; [intros u _ _ c' []|intros c c' u []]].
Qed.
Theorem x_run_inv : forall k0 l, 1 <= k0 < W32 -> XInv (x_run FX k0 l).
Proof. intros k0 l Hk. apply (fold_left_inv (x_step FX) XInv x_step_inv l (sel0 k0) (XInv_0 k0 Hk)). Qed.

Lemma x_run_base : forall fx l y, x_base (fold_left (x_step fx) l y) = fold_left step (map proj l) (x_base y).
Proof. intros fx. induction l as [|o r IH]; intro y; [reflexivity|]. cbn [fold_left map]. rewrite IH, x_step_base. reflexivity. Qed.

(** ** the statements about every history *)
Section Statements.
  Variable k0 : Z.
  Hypothesis Hk : 1 <= k0 < W32.
  Variable l : list xop.
  Let x := x_run FX k0 l.
  Let b := x_base x.

  (* closed under "an enabled variable of c also uses c'" *)
  Lemma modified_closed : forall c v c', In c (x_mod x) -> In v (c_en (s_cn b c)) -> In c' (map fst (v_elems (s_var b v))) -> In c' (x_mod x).
  Proof.
    intros c v c' Hc Hv Hc'. destruct (x_run_inv k0 l Hk) as [[[IS _] _] [[_ [_ [_ [_ C]]]] _]]. fold x in IS, C. fold b in IS.
    apply (C c c' v Hc (fun f => f) Hv). assert (E := proj1 (k_en (i_cn IS c) v) Hv).
    apply (k_en (i_cn IS c')). split; [apply E|split; [apply E|exact Hc']].
  Qed.
  (* hence a union of connected components of the graph "c ~ c' when some variable is enabled on both" *)
  Lemma modified_components : forall c c', (exists v, In v (c_en (s_cn b c)) /\ In v (c_en (s_cn b c'))) -> (In c (x_mod x) <-> In c' (x_mod x)).
  Proof.
    intros c c' [v [H1 H2]]. destruct (x_run_inv k0 l Hk) as [_ [[_ [_ [_ [_ C]]]] _]]. fold x in C.
    split; intro H; [apply (C c c' v H (fun f => f) H1 H2)|apply (C c' c v H (fun f => f) H2 H1)].
  Qed.
End Statements.

Lemma closed_b_ok : forall b M, closed_b b M = true <->
  (forall c v c', In c M -> In v (c_en (s_cn b c)) -> In c' (map fst (v_elems (s_var b v))) -> In c' M).
Proof.
  intros b M. unfold closed_b. rewrite forallb_forall. split.
  - intros H c v c' Hc Hv Hc'. specialize (H c Hc). rewrite forallb_forall in H. specialize (H v Hv). rewrite forallb_forall in H.
    apply in_map_iff in Hc'. destruct Hc' as [e [E1 E2]]. specialize (H e E2). rewrite E1 in H. apply memb_In. exact H.
  - intros H c Hc. apply forallb_forall. intros v Hv. apply forallb_forall. intros e He. apply memb_In. apply (H c v (fst e) Hc Hv). apply in_map. exact He.
Qed.
Lemma flat_map_nil : forall A B (f : A -> list B) l, flat_map f l = [] <-> forall a, In a l -> f a = [].
Proof.
  intros A B f. induction l as [|a r IH]; cbn; [split; [intros _ a []|reflexivity]|]. split.
  - intros H a' [Ha|Ha]; apply app_eq_nil in H; destruct H as [H1 H2]; [subst a'; exact H1|apply IH; assumption].
  - intro H. rewrite (H a (or_introl eq_refl)). cbn. apply IH. intros a' Ha'. apply H. now right.
Qed.
(* the oracle run on the implementation's dumps answers "closed" exactly when the dumped set is closed *)
Lemma find_open_none_iff : forall en el M, find_open en el M = None <->
  (forall c v c', In c M -> In v (en c) -> In c' (el v) -> In c' M).
Proof.
  intros en el M. unfold find_open.
  set (bad := flat_map (fun c => flat_map (fun v => flat_map (fun c' => if memb c' M then [] else [(c, v, c')]) (el v)) (en c)) M).
  assert (E : bad = [] <-> (forall c v c', In c M -> In v (en c) -> In c' (el v) -> In c' M)).
  { unfold bad. rewrite flat_map_nil. split.
    - intros H c v c' Hc Hv Hc'. specialize (H c Hc). rewrite flat_map_nil in H. specialize (H v Hv). rewrite flat_map_nil in H. specialize (H c' Hc').
      destruct (memb c' M) eqn:Em; [apply memb_In; exact Em|discriminate].
    - intros H c Hc. apply flat_map_nil. intros v Hv. apply flat_map_nil. intros c' Hc'. rewrite (proj2 (memb_In c' M) (H c v c' Hc Hv Hc')). reflexivity. }
  destruct bad; [split; [intros _; apply E; reflexivity|reflexivity]|split; [discriminate|intro H; apply E in H; discriminate]].
Qed.

(** ** the code before the three repairs violates the statement *)
Definition witness_from : list xop :=
  [XNewC (-1) true; XNewC (-1) true; XNewV 0; XExpand 0 0 1; XExpand 1 0 1; XSolve; XCBound 0; XPen 0 1].
Definition witness_expand : list xop :=
  [XNewC (-1) true; XNewC (-1) true; XNewV 1; XExpand 1 0 1; XSolve; XCBound 0; XExpand 0 0 1].
Definition witness_wrap : list xop :=
  [XNewC (-1) true; XNewC (-1) true; XNewC (-1) true; XCBound 0; XCBound 1; XNewV 1; XExpand 1 0 1; XExpand 0 0 1; XSolve;
   XAge (W32 - 1); XCBound 2; XSolve; XCBound 0].
Definition closed_after (fx : fixes) (l : list xop) : bool := let x := x_run fx 1 l in closed_b (x_base x) (x_mod x).

(** * locality of the max-min characterisation (Maxmin.v oracles) along a set of constraints that shares no consuming variable
    with the rest.  The system is written as the concatenation of the two groups of constraints (both checkers read the
    constraints as a list, through existsb/forallb only). *)
From SGV Require Import Lmm.Maxmin.

(* a variable consumes in at most one group, and a bottleneck of a group ([b1], [b2]) consumes there *)
Lemma bottleneck_bools : forall c1 c2 b1 b2 a, ~ (c1 = true /\ c2 = true) -> (b1 = true -> c1 = true) -> (b2 = true -> c2 = true) ->
  negb (c1 || c2) || a || (b1 || b2) = (negb c1 || a || b1) && (negb c2 || a || b2).
Proof.
  intros c1 c2 b1 b2 a H H1 H2. destruct c1, c2; cbn.
  - destruct H. split; reflexivity.
  - destruct b2; [discriminate (H2 eq_refl)|]. rewrite orb_false_r, andb_true_r. reflexivity.
  - destruct b1; [discriminate (H1 eq_refl)|]. reflexivity.
  - destruct b1; [discriminate (H1 eq_refl)|]. destruct b2; [discriminate (H2 eq_refl)|]. reflexivity.
Qed.
Lemma feasible_bools : forall p c1 c2 r, p && (negb (c1 || c2) || r) = p && (negb c1 || r) && (p && (negb c2 || r)).
Proof. intros [|] [|] [|] [|]; reflexivity. Qed.
Lemma andb_mix : forall a b c d, a && b && (c && d) = a && c && (b && d).
Proof. intros [|] [|] [|] [|]; reflexivity. Qed.

Section Local.
  Variable tol : Q.
  Variable l1 l2 : list mcn.
  Variable vars : list mvar.
  Variable val : nat -> Q.
  Let s := mkMsys (l1 ++ l2) vars.
  Let s1 := mkMsys l1 vars.
  Let s2 := mkMsys l2 vars.
  Definition separated : Prop := forall v, ~ (consumes s1 v = true /\ consumes s2 v = true).

  Lemma forallb_andb : forall A (f g : A -> bool) l, forallb (fun a => f a && g a) l = forallb f l && forallb g l.
  Proof. intros A f g. induction l as [|a r IH]; [reflexivity|]. cbn. rewrite IH. apply andb_mix. Qed.
  Lemma forallb_ext_in : forall A (f g : A -> bool) l, (forall a, In a l -> f a = g a) -> forallb f l = forallb g l.
  Proof. intros A f g. induction l as [|a r IH]; intro H; [reflexivity|]. cbn. rewrite (H a (or_introl eq_refl)), IH; [reflexivity|]. intros a' Ha'. apply H. now right. Qed.

  Lemma consumes_app : forall v, consumes s v = consumes s1 v || consumes s2 v.
  Proof. intro v. apply existsb_app. Qed.

  Definition bneck (l : list mcn) (v : nat) : bool :=
    existsb (fun k => existsb (fun e => Nat.eqb (fst e) v && qposb (snd e)) (m_elems k) && saturated_b tol val k && maximal_on_b tol s val k v) l.
  Lemma bneck_consumes : forall l v, bneck l v = true -> existsb (fun k => existsb (fun e => Nat.eqb (fst e) v && qposb (snd e)) (m_elems k)) l = true.
  Proof.
    intros l v H. unfold bneck in H. apply existsb_exists in H. destruct H as [k [H1 H2]]. apply existsb_exists. exists k. split; [exact H1|].
    apply andb_prop in H2. destruct H2 as [H2 _]. apply andb_prop in H2. apply H2.
  Qed.

  Lemma var_bottleneck_split : separated -> forall v,
    var_bottleneck_b tol s val v = var_bottleneck_b tol s1 val v && var_bottleneck_b tol s2 val v.
  Proof.
    intros Hsep v. unfold var_bottleneck_b.
    change (existsb _ (m_cns s)) with (bneck (l1 ++ l2) v). change (existsb _ (m_cns s1)) with (bneck l1 v). change (existsb _ (m_cns s2)) with (bneck l2 v).
    change (at_bound_b tol s1 val v) with (at_bound_b tol s val v). change (at_bound_b tol s2 val v) with (at_bound_b tol s val v).
    assert (E : bneck (l1 ++ l2) v = bneck l1 v || bneck l2 v) by (unfold bneck; apply existsb_app).
    rewrite consumes_app, E. apply bottleneck_bools; [apply Hsep|exact (bneck_consumes l1 v)|exact (bneck_consumes l2 v)].
  Qed.
  Lemma bottleneck_split : separated -> bottleneck_b tol s val = bottleneck_b tol s1 val && bottleneck_b tol s2 val.
  Proof.
    intro Hsep. unfold bottleneck_b. cbn [m_vars s s1 s2]. rewrite <- forallb_andb. apply forallb_ext_in. intros v _. apply var_bottleneck_split. exact Hsep.
  Qed.
  Lemma feasible_split : alloc_feasible_b tol s val = alloc_feasible_b tol s1 val && alloc_feasible_b tol s2 val.
  Proof.
    unfold alloc_feasible_b. cbn [m_cns m_vars s s1 s2]. rewrite forallb_app.
    assert (V : forallb (var_feasible_b tol s val) (seq 0 (length vars)) =
                forallb (var_feasible_b tol s1 val) (seq 0 (length vars)) && forallb (var_feasible_b tol s2 val) (seq 0 (length vars))).
    { rewrite <- forallb_andb. apply forallb_ext_in. intros v _. unfold var_feasible_b.
      change (pen s1 v) with (pen s v). change (pen s2 v) with (pen s v). change (vbound s1 v) with (vbound s v). change (vbound s2 v) with (vbound s v).
      rewrite consumes_app. apply feasible_bools. }
    rewrite V. apply andb_mix.
  Qed.
End Local.

Lemma selective_char_split : forall tol l1 l2 vars val, separated l1 l2 vars ->
  (alloc_feasible_b tol (mkMsys l1 vars) val && bottleneck_b tol (mkMsys l1 vars) val = true /\
   alloc_feasible_b tol (mkMsys l2 vars) val && bottleneck_b tol (mkMsys l2 vars) val = true) <->
  alloc_feasible_b tol (mkMsys (l1 ++ l2) vars) val && bottleneck_b tol (mkMsys (l1 ++ l2) vars) val = true.
Proof.
  intros tol l1 l2 vars val H. rewrite (bottleneck_split tol l1 l2 vars val H), (feasible_split tol l1 l2 vars val).
  rewrite !andb_true_iff. tauto.
Qed.
