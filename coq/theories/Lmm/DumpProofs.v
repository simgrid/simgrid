(** Lmm/DumpProofs.v — the executable checker of dumped lmm::System states decides its specification. *)
From SGV Require Import Base.Tactics Lmm.System Lmm.Dump.
From Coq Require Import QArith.
Local Open Scope Z_scope.

Lemma forallb_Forall : forall A (f : A -> bool) (P : A -> Prop) l,
  (forall x, f x = true <-> P x) -> (forallb f l = true <-> Forall P l).
Proof.
  intros A f P l H. rewrite forallb_forall, Forall_forall. split; intros G x Hx; apply H, G, Hx.
Qed.
Lemma mem_In : forall v l, mem v l = true <-> In v (map fst l).
Proof.
  intros v l. unfold mem. rewrite existsb_exists, in_map_iff. split.
  - intros [e [H1 H2]]. apply Nat.eqb_eq in H2. exists e. split; assumption.
  - intros [e [H1 H2]]. exists e. split; [assumption|]. apply Nat.eqb_eq. assumption.
Qed.
Lemma mem_not_In : forall v l, negb (mem v l) = true <-> ~ In v (map fst l).
Proof. intros. rewrite negb_true_iff, <- mem_In. destruct (mem v l); split; congruence. Qed.

(** the specification, clause by clause *)
Definition counter_spec (d : dump) : Prop := Forall (fun k => d_cur k = sum_share (d_en k)) (d_cns d).
Definition limit_spec (d : dump) : Prop := Forall (fun k => d_limit k < 0 \/ d_cur k <= d_limit k) (d_cns d).
Definition full_cn (d : dump) (c : nat) : Prop :=
  exists k, find_cn d c = Some k /\ 0 <= d_limit k /\ d_cur k = d_limit k.
Definition nostarve_spec (d : dump) : Prop :=
  Forall (fun x => d_alive x = true -> qpos (d_staged x) = true ->
                   qpos (d_pen x) = false /\ exists e, In e (d_elems x) /\ full_cn d (fst e)) (d_vars d).
Definition consistent_spec (d : dump) : Prop :=
  Forall (fun x => d_alive x = true -> forall e, In e (d_elems x) ->
            exists k, find_cn d (fst e) = Some k /\
              if qpos (d_pen x) then In (d_vid x) (map fst (d_en k)) /\ ~ In (d_vid x) (map fst (d_dis k))
              else In (d_vid x) (map fst (d_dis k)) /\ ~ In (d_vid x) (map fst (d_en k))) (d_vars d)
  /\ Forall (fun k => forall e, In e (d_en k) -> exists x, find_var d (fst e) = Some x /\ d_alive x = true /\ qpos (d_pen x) = true) (d_cns d).
Definition want_spec (d : dump) : Prop :=
  Forall (fun x => d_alive x = true -> qpos (d_want x) = false -> qpos (d_pen x) = false /\ qpos (d_staged x) = false) (d_vars d).

Lemma counter_ok : forall d, counter_b d = true <-> counter_spec d.
Proof. intro d. apply forallb_Forall. intro k. apply Z.eqb_eq. Qed.
Lemma limit_ok : forall d, limit_b d = true <-> limit_spec d.
Proof. intro d. apply forallb_Forall. intro k. rewrite orb_true_iff, Z.ltb_lt, Z.leb_le. tauto. Qed.
Lemma dfull_ok : forall d c, dfull d c = true <-> full_cn d c.
Proof.
  intros d c. unfold dfull, full_cn. destruct (find_cn d c) as [k|].
  - rewrite andb_true_iff, Z.leb_le, Z.eqb_eq. split; [intro H; exists k; tauto|intros [k' [H1 H2]]; inv H1; tauto].
  - split; [discriminate|intros [k [H _]]; discriminate].
Qed.
Lemma nostarve_ok : forall d, nostarve_b d = true <-> nostarve_spec d.
Proof.
  intro d. apply forallb_Forall. intro x. rewrite orb_true_iff, negb_true_iff, andb_true_iff, negb_true_iff, existsb_exists.
  destruct (d_alive x), (qpos (d_staged x)); cbn; split; intro H; try (now left); try (intros; discriminate).
  - destruct H as [H|[H1 [e [H2 H3]]]]; [discriminate|]. intros _ _. split; [exact H1|]. exists e. split; [exact H2|apply dfull_ok; exact H3].
  - right. destruct (H eq_refl eq_refl) as [H1 [e [H2 H3]]]. split; [exact H1|]. exists e. split; [exact H2|apply dfull_ok; exact H3].
Qed.
Lemma consistent_ok : forall d, consistent_b d = true <-> consistent_spec d.
Proof.
  intro d. unfold consistent_b, consistent_spec. rewrite andb_true_iff.
  match goal with |- (?A /\ ?B) <-> (?C /\ ?D) => assert (HA : A <-> C); [|assert (HB : B <-> D); [|tauto]] end.
  - apply forallb_Forall. intro x. rewrite orb_true_iff, negb_true_iff, forallb_forall. split.
    + intros [H|H] Ha e He; [congruence|]. specialize (H e He). destruct (find_cn d (fst e)) as [k|]; [|discriminate].
      exists k. split; [reflexivity|]. destruct (qpos (d_pen x)); apply andb_prop in H; destruct H as [H1 H2];
        apply mem_In in H1; apply mem_not_In in H2; split; assumption.
    + intro H. destruct (d_alive x); [right|now left]. intros e He. destruct (H eq_refl e He) as [k [Hk Hq]]. rewrite Hk.
      destruct (qpos (d_pen x)); destruct Hq as [H1 H2]; apply mem_In in H1; apply mem_not_In in H2; rewrite H1, H2; reflexivity.
  - apply forallb_Forall. intro k. rewrite forallb_forall. split.
    + intros H e He. specialize (H e He). destruct (find_var d (fst e)) as [x|]; [|discriminate]. apply andb_prop in H. exists x. tauto.
    + intros H e He. destruct (H e He) as [x [H1 [H2 H3]]]. rewrite H1, H2, H3. reflexivity.
Qed.
Lemma want_ok : forall d, want_b d = true <-> want_spec d.
Proof.
  intro d. apply forallb_Forall. intro x. rewrite !orb_true_iff, andb_true_iff, !negb_true_iff.
  destruct (d_alive x), (qpos (d_want x)); cbn; split; intro H; try tauto; try (intros; discriminate).
  intros _ _. destruct H as [[H|H]|H]; try discriminate. exact H.
Qed.

Definition dump_spec (d : dump) : Prop :=
  counter_spec d /\ limit_spec d /\ nostarve_spec d /\ consistent_spec d /\ want_spec d.
(* a clause contributes no code exactly when its test passes *)
Lemma code_nil : forall (b : bool) (n : Z) l, (if b then [] else [n]) ++ l = [] <-> b = true /\ l = [].
Proof. intros [|] n l; cbn; split; [auto|tauto|discriminate|intros [H _]; discriminate]. Qed.
Theorem c18_codes_sound_complete : forall d, c18_codes d = [] <-> dump_spec d.
Proof.
  intro d. unfold c18_codes, dump_spec. rewrite <- counter_ok, <- limit_ok, <- nostarve_ok, <- consistent_ok, <- want_ok, !code_nil.
  destruct (want_b d); split; intros (A & B & C & D & E); try discriminate; repeat split; assumption.
Qed.
