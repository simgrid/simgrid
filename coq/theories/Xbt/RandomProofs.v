(** C45 — proofs about Xbt/Random.v (the rejection bound, unbiasedness, ranges with the casts). *)
From SGV Require Import Base.PlainLia Xbt.Random.
From Coq Require Import QArith Lqa.
Local Open Scope Z_scope.

Definition INT_MIN : Z := - 2 ^ 31.
Definition INT_MAX : Z := 2 ^ 31 - 1.
Definition is_int (x : Z) : Prop := INT_MIN <= x <= INT_MAX.
Definition raw (v : Z) : Prop := 0 <= v < W32.

(* the named constants, as numbers that [lia] can read *)
Ltac unf := unfold is_int, raw, INT_MIN, INT_MAX, GMAX, W32, W64 in *.

Lemma limit_is_multiple : forall r, 1 <= r <= GMAX -> limit_of r = r * (GMAX / r).
Proof. intros r H. unfold limit_of. pose proof (Z.div_mod GMAX r). lia. Qed.

Lemma limit_multiple : forall r, 1 <= r <= GMAX ->
  (r | limit_of r) /\ 0 < limit_of r <= GMAX /\ GMAX < 2 * limit_of r.
Proof.
  intros r H. rewrite limit_is_multiple by exact H. unfold GMAX in *.
  assert (Hq : 1 <= (2 ^ 32 - 1) / r) by (apply Z.div_le_lower_bound; lia).
  pose proof (Z.mul_div_le (2 ^ 32 - 1) r ltac:(lia)).
  pose proof (Z.mul_succ_div_gt (2 ^ 32 - 1) r ltac:(lia)).
  split; [exists ((2 ^ 32 - 1) / r); lia|]. nia.
Qed.

Lemma limit_div : forall r, 1 <= r <= GMAX -> limit_of r / r = GMAX / r.
Proof. intros r H. rewrite limit_is_multiple by exact H. rewrite Z.mul_comm. apply Z.div_mul. lia. Qed.

Lemma accept_range : forall r v k, 1 <= r -> accept r v = Some k -> 0 <= k < r.
Proof.
  intros r v k Hr H. unfold accept in H. destruct (limit_of r <=? v); [discriminate|]. inv H.
  apply Z.mod_pos_bound. lia.
Qed.

Lemma unbiased : forall r k v, 1 <= r <= GMAX -> 0 <= k < r -> 0 <= v ->
  (accept r v = Some k <-> exists j, 0 <= j < limit_of r / r /\ v = k + j * r).
Proof.
  intros r k v Hr Hk Hv. rewrite limit_div by exact Hr. unfold accept.
  rewrite limit_is_multiple by exact Hr. set (q := GMAX / r).
  split.
  - destruct (r * q <=? v) eqn:E; [discriminate|]. intro H. inv H. apply Z.leb_gt in E.
    exists (v / r). pose proof (Z.div_mod v r ltac:(lia)). pose proof (Z.mod_pos_bound v r ltac:(lia)).
    split; [|lia]. split; [apply Z.div_pos; lia|]. apply Z.div_lt_upper_bound; lia.
  - intros (j & Hj & ->). destruct (r * q <=? k + j * r) eqn:E.
    + apply Z.leb_le in E. nia.
    + f_equal. rewrite Z.mod_add by lia. apply Z.mod_small. lia.
Qed.

Lemma range_of_exact : forall min max, is_int min -> is_int max -> min <= max -> range_of min max = max - min.
Proof. intros min max H1 H2 H. unfold range_of. rewrite <- Zminus_mod. apply Z.mod_small. unf. lia. Qed.

(* static_cast<int> picks, among the numbers equal to its argument modulo 2^32, the one that is an int *)
Lemma to_int32_eq : forall x k, is_int x -> to_int32 (x + k * W32) = x.
Proof.
  intros x k H. unfold to_int32. rewrite Z.mod_add by discriminate. unf.
  destruct (Z.neg_nonneg_cases x) as [Hx|Hx].
  - rewrite <- (Z.mod_add x 1), Z.mod_small by lia. destruct (Z.ltb_spec (x + 1 * 2 ^ 32) (2 ^ 31)); lia.
  - rewrite Z.mod_small by lia. destruct (Z.ltb_spec x (2 ^ 31)); lia.
Qed.
Lemma to_int32_ulong : forall a m, is_int (a + m) -> to_int32 ((a + to_ulong m) mod W64) = a + m.
Proof.
  intros a m H. unfold to_ulong. rewrite (Z.mod_eq m W64), (Z.mod_eq (a + _) W64) by discriminate.
  set (q1 := m / W64). set (q2 := (a + (m - W64 * q1)) / W64).
  replace (a + (m - W64 * q1) - W64 * q2) with (a + m + (- 2 ^ 32 * (q1 + q2)) * W32) by (unfold W64, W32; lia).
  apply to_int32_eq, H.
Qed.

Lemma reject_loop_spec : forall limit vals v rest,
  reject_loop vals limit = Some (v, rest) ->
  exists rejected, vals = rejected ++ v :: rest /\ Forall (fun w => limit <= w) rejected /\ v < limit.
Proof.
  induction vals as [|w vals IH]; cbn; intros v rest H; [discriminate|].
  destruct (limit <=? w) eqn:E.
  - apply IH in H as (rej & -> & F & L). exists (w :: rej). split; [reflexivity|]. split; [|exact L].
    constructor; [now apply Z.leb_le|exact F].
  - inv H. exists []. split; [reflexivity|]. split; [constructor|now apply Z.leb_gt].
Qed.

Lemma draw_int_eq : forall vals min max, is_int min -> is_int max -> min <= max ->
  draw_int vals min max =
  if max - min =? GMAX then
    match vals with v :: rest => Some (to_int32 ((v + to_ulong min) mod W64), rest) | [] => None end
  else match reject_loop vals (limit_of (max - min + 1)) with
       | Some (v, rest) => Some (min + v mod (max - min + 1), rest)
       | None => None
       end.
Proof.
  intros vals min max H1 H2 H. unfold draw_int. rewrite range_of_exact by assumption.
  destruct (max - min =? GMAX); [reflexivity|].
  destruct (reject_loop vals (limit_of (max - min + 1))) as [[v rest]|]; [|reflexivity].
  pose proof (Z.mod_pos_bound v (max - min + 1) ltac:(lia)). unfold result_of.
  rewrite to_int32_ulong, Z.add_comm; [reflexivity|unf; lia].
Qed.

Lemma draw_int_spec : forall vals min max x rest,
  is_int min -> is_int max -> min <= max -> max - min < GMAX ->
  draw_int vals min max = Some (x, rest) ->
  exists rejected v, vals = rejected ++ v :: rest /\
    Forall (fun w => accept (max - min + 1) w = None) rejected /\ accept (max - min + 1) v = Some (x - min).
Proof.
  intros vals min max x rest H1 H2 H Hlt D. rewrite draw_int_eq in D by assumption.
  destruct (Z.eqb_spec (max - min) GMAX) as [E|_]; [lia|].
  destruct (reject_loop vals (limit_of (max - min + 1))) as [[v rest']|] eqn:R; [|discriminate]. inv D.
  apply reject_loop_spec in R as (rej & -> & F & L). exists rej, v. split; [reflexivity|]. split.
  - eapply Forall_impl; [|exact F]. intros w Hw. unfold accept. apply Z.leb_le in Hw. now rewrite Hw.
  - unfold accept. apply Z.leb_gt in L. rewrite L. f_equal. lia.
Qed.

Lemma draw_int_in_range : forall vals min max x rest,
  is_int min -> is_int max -> min <= max -> Forall raw vals ->
  draw_int vals min max = Some (x, rest) -> min <= x <= max.
Proof.
  intros vals min max x rest H1 H2 H Hraw D. rewrite draw_int_eq in D by assumption.
  destruct (Z.eqb_spec (max - min) GMAX) as [E|_].
  - destruct vals as [|v vals]; [discriminate|]. inv D. inv Hraw. rewrite to_int32_ulong; unf; lia.
  - destruct (reject_loop vals (limit_of (max - min + 1))) as [[v rest']|]; [|discriminate]. inv D.
    pose proof (Z.mod_pos_bound v (max - min + 1) ltac:(lia)). lia.
Qed.

Lemma full_range_case : forall v rest, raw v ->
  draw_int (v :: rest) INT_MIN INT_MAX = Some (v - 2 ^ 31, rest).
Proof. intros v rest Hv. rewrite draw_int_eq by (unf; lia). cbn [Z.eqb]. rewrite to_int32_ulong; [reflexivity|unf; lia]. Qed.

(* the loop ends as soon as the stream holds an acceptable value: more than half of the raw outputs are *)
Lemma draw_int_total : forall vals min max, is_int min -> is_int max -> min <= max ->
  Exists (fun v => v < limit_of (max - min + 1)) vals -> vals <> [] -> draw_int vals min max <> None.
Proof.
  intros vals min max H1 H2 H Hex Hne. rewrite draw_int_eq by assumption.
  destruct (max - min =? GMAX); [destruct vals; congruence|].
  assert (R : reject_loop vals (limit_of (max - min + 1)) <> None).
  { clear Hne. induction Hex as [v vals Hv|v vals Hex IH]; cbn [reject_loop].
    - apply Z.leb_gt in Hv. rewrite Hv. discriminate.
    - destruct (limit_of (max - min + 1) <=? v); [exact IH|discriminate]. }
  destruct (reject_loop vals (limit_of (max - min + 1))) as [[v rest]|]; congruence.
Qed.

Lemma numerator_range : forall vals n rest, Forall raw vals -> draw_numerator vals = Some (n, rest) -> 0 <= n < GMAX.
Proof.
  induction vals as [|v vals IH]; cbn; intros n rest F H; [discriminate|].
  match type of H with (if ?b then _ else _) = _ => destruct b eqn:E end.
  - inv F. eapply IH; eauto.
  - injection H as <- <-. apply Z.eqb_neq in E. inv F. unf. lia.
Qed.

(* min + (max - min) * numerator / divisor, exact *)
Definition real_q (mn mx : Q) (n : Z) : Q := (mn + (mx - mn) * (n # 4294967295))%Q.

Lemma real_in_range : forall mn mx n, (mn <= mx)%Q -> 0 <= n < GMAX ->
  (mn <= real_q mn mx n)%Q /\ (real_q mn mx n <= mx)%Q /\ ((mn < mx)%Q -> (real_q mn mx n < mx)%Q).
Proof.
  intros mn mx n Hle Hn. unfold real_q. set (t := (n # 4294967295)%Q).
  assert (T0 : (0 <= t)%Q) by (unfold t, Qle; cbn; lia).
  assert (T1 : (t < 1)%Q) by (unfold t, Qlt, GMAX in *; cbn; lia).
  clearbody t.
  assert (P0 : (0 <= (mx - mn) * t)%Q) by (apply Qmult_le_0_compat; lra).
  assert (P1 : (0 <= (mx - mn) * (1 - t))%Q) by (apply Qmult_le_0_compat; lra).
  split; [lra|]. split; [lra|]. intro Hlt.
  assert (P2 : (0 < (mx - mn) * (1 - t))%Q) by (apply Qmult_lt_0_compat; lra).
  lra.
Qed.

(** * MT19937: the seeding recurrence with its reduction modulo 2^32 written as a mask
    (the kernel evaluates [Z.land] in linear time and [Z.modulo] by long division) *)
Fixpoint mt_init_mask (n : nat) (i prev : Z) : list Z :=
  match n with
  | O => []
  | S n' => let x := Z.land (1812433253 * (Z.lxor prev (Z.shiftr prev 30)) + i) 4294967295 in
            x :: mt_init_mask n' (i + 1) x
  end.
Lemma mt_init_go_mask : forall n i prev, mt_init_go n i prev = mt_init_mask n i prev.
Proof.
  induction n as [|n IH]; intros i prev; cbn [mt_init_go mt_init_mask]; [reflexivity|].
  rewrite IH. change 4294967295 with (Z.ones 32). rewrite Z.land_ones by discriminate. reflexivity.
Qed.
