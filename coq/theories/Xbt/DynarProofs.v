(** C50 — xbt_dynar refines a plain list: every operation of the model of dynar.cpp commutes with the abstraction
    [abs d = firstn (used d) (data d)], whatever xbt_realloc leaves in fresh cells. *)
From SGV Require Import Base.PlainLia Xbt.Dynar.
From Coq Require Import Sorted Permutation.
Local Open Scope Z_scope.

Definition Inv (d : dynar) : Prop := (used d <= size d)%nat.

Lemma firstn_app_all : forall (A : Type) (x y : list A) n, length x = n -> firstn n (x ++ y) = x.
Proof.
  intros A x y n H. subst n. rewrite <- (Nat.add_0_r (length x)). rewrite firstn_app_2. cbn. apply app_nil_r.
Qed.
Lemma firstn_app_le : forall (A : Type) (x y : list A) n, (n <= length x)%nat -> firstn n (x ++ y) = firstn n x.
Proof.
  intros A x y n H. rewrite firstn_app. replace (n - length x)%nat with 0%nat by lia. cbn. apply app_nil_r.
Qed.
Lemma nth_firstn' : forall (l : list Z) n i d, (i < n)%nat -> nth i (firstn n l) d = nth i l d.
Proof.
  induction l as [|x r IH]; intros n i d H.
  - rewrite firstn_nil. reflexivity.
  - destruct n; [lia|]. destruct i; cbn; [reflexivity|]. apply IH. lia.
Qed.
Lemma last_nth' : forall (l : list Z) d, last l d = nth (length l - 1) l d.
Proof.
  induction l as [|x r IH]; intro d; [reflexivity|].
  destruct r as [|y r']; [reflexivity|].
  change (last (x :: y :: r') d) with (last (y :: r') d). rewrite IH. cbn [length].
  replace (S (S (length r')) - 1)%nat with (S (length (y :: r') - 1)) by (cbn [length]; lia). reflexivity.
Qed.

Lemma ins_length : forall x l, length (ins x l) = S (length l).
Proof. induction l as [|y r IH]; cbn; [reflexivity|]. destruct (x <=? y); cbn; lia. Qed.
Lemma isort_length : forall l, length (isort l) = length l.
Proof. induction l as [|x r IH]; cbn; [reflexivity|]. rewrite ins_length. lia. Qed.
Lemma ins_perm : forall x l, Permutation (ins x l) (x :: l).
Proof.
  induction l as [|y r IH]; cbn; [apply Permutation_refl|].
  destruct (x <=? y); [apply Permutation_refl|].
  eapply perm_trans; [apply perm_skip; exact IH|apply perm_swap].
Qed.
Lemma isort_perm : forall l, Permutation (isort l) l.
Proof.
  induction l as [|x r IH]; cbn; [constructor|].
  eapply perm_trans; [apply ins_perm|apply perm_skip; exact IH].
Qed.
Lemma ins_sorted : forall x l, Sorted Z.le l -> Sorted Z.le (ins x l).
Proof.
  induction l as [|y r IH]; intro H; cbn; [repeat constructor|].
  destruct (x <=? y) eqn:E.
  - constructor; [exact H|constructor; lia].
  - inv H. constructor; [apply IH; assumption|].
    destruct r as [|z r']; cbn; [constructor; lia|].
    destruct (x <=? z); constructor; try lia. inv H3. assumption.
Qed.
Lemma isort_sorted : forall l, Sorted Z.le (isort l).
Proof. induction l as [|x r IH]; cbn; [constructor|]. apply ins_sorted. exact IH. Qed.

Lemma expand_props : forall junk d nb, Inv d ->
  firstn (used d) (data (expand junk d nb)) = abs d /\ (nb <= length (data (expand junk d nb)))%nat.
Proof.
  intros junk d nb HI. unfold expand, abs. destruct (Nat.ltb_spec (size d) nb) as [E|E]; [|split; [reflexivity|exact E]].
  set (ns := if Nat.ltb (2 * (size d + 1)) nb then nb else (2 * (size d + 1))%nat).
  assert (Hns : (nb <= ns /\ size d < ns)%nat) by (unfold ns; destruct (Nat.ltb_spec (2 * (size d + 1)) nb); lia).
  unfold resize. destruct (Nat.eqb_spec ns (size d)) as [E3|_]; [lia|].
  cbn [data]. unfold size in *. rewrite (firstn_all2 (n := ns)) by lia. split; [apply firstn_app_le, HI|].
  rewrite app_length, repeat_length. lia.
Qed.

Lemma length_cons : forall (x : Z) l, length (x :: l) = S (length l).
Proof. reflexivity. Qed.
Hint Rewrite app_length skipn_length repeat_length length_cons : len.
Hint Rewrite firstn_length_le using (rewrite ?skipn_length; lia) : len.

Lemma insert_raw : forall (a : list Z) u idx v,
  (idx <= u)%nat -> (u + 1 <= length a)%nat ->
  let a' := firstn idx a ++ v :: firstn (u - idx) (skipn idx a) ++ skipn (u + 1) a in
  length a' = length a /\
  firstn (u + 1) a' = firstn idx (firstn u a) ++ v :: skipn idx (firstn u a).
Proof.
  intros a u idx v Hi Hu. cbn zeta. split; [autorewrite with len; lia|].
  rewrite firstn_firstn, Nat.min_l, skipn_firstn_comm, app_comm_cons, app_assoc by exact Hi.
  apply firstn_app_all. autorewrite with len. lia.
Qed.

Lemma remove_raw : forall (a : list Z) u idx,
  (idx < u)%nat -> (u <= length a)%nat ->
  let a' := firstn idx a ++ firstn (u - 1 - idx) (skipn (idx + 1) a) ++ skipn (u - 1) a in
  length a' = length a /\
  firstn (u - 1) a' = firstn idx (firstn u a) ++ skipn (S idx) (firstn u a).
Proof.
  intros a u idx Hi Hu. cbn zeta. split; [autorewrite with len; lia|].
  rewrite firstn_firstn, Nat.min_l, skipn_firstn_comm, app_assoc by lia.
  replace (idx + 1)%nat with (S idx) by lia. replace (u - 1 - idx)%nat with (u - S idx)%nat by lia.
  apply firstn_app_all. autorewrite with len. lia.
Qed.

Lemma set_raw_inside : forall (a : list Z) u idx v,
  (idx < u)%nat -> (u <= length a)%nat ->
  let a' := firstn idx a ++ v :: skipn (idx + 1) a in
  length a' = length a /\
  firstn u a' = firstn idx (firstn u a) ++ v :: skipn (S idx) (firstn u a).
Proof.
  intros a u idx v Hi Hu. cbn zeta. split; [autorewrite with len; lia|].
  rewrite firstn_firstn, Nat.min_l, skipn_firstn_comm, firstn_app, firstn_length_le by lia.
  rewrite (firstn_all2 (firstn idx a)) by (autorewrite with len; lia).
  replace (u - idx)%nat with (S (u - S idx)) by lia. replace (idx + 1)%nat with (S idx) by lia. reflexivity.
Qed.

Lemma set_raw_beyond : forall (a : list Z) u idx v,
  (u <= idx)%nat -> (idx + 1 <= length a)%nat ->
  let a' := firstn u a ++ repeat 0 (idx - u) ++ v :: skipn (idx + 1) a in
  length a' = length a /\
  firstn (idx + 1) a' = firstn u a ++ repeat 0 (idx - u) ++ [v].
Proof.
  intros a u idx v Hi Hu. cbn zeta. split; [autorewrite with len; lia|].
  change (v :: skipn (idx + 1) a) with ([v] ++ skipn (idx + 1) a). rewrite (app_assoc (repeat _ _)), (app_assoc (firstn u a)).
  apply firstn_app_all. autorewrite with len. cbn [length]. lia.
Qed.

Lemma abs_length : forall d, Inv d -> length (abs d) = used d.
Proof. intros d H. unfold abs. apply firstn_length_le. exact H. Qed.

Definition refines (c : option (dynar * list Z)) (s : option (list Z * list Z)) : Prop :=
  match c, s with
  | Some (d', r), Some (l', r') => Inv d' /\ abs d' = l' /\ r = r'
  | None, None => True
  | _, _ => False
  end.

Lemma insert_refines : forall junk d i v, Inv d -> refines (step junk d (InsertAt i v)) (spec_step (abs d) (InsertAt i v)).
Proof.
  intros junk d i v HI. cbn [step spec_step]. unfold insert_at. rewrite (abs_length d HI).
  destruct (Nat.ltb_spec (used d) i) as [E|E]; [rewrite (proj2 (Nat.leb_gt _ _) E); exact I|].
  rewrite (proj2 (Nat.leb_le _ _) E). destruct (expand_props junk d (used d + 1) HI) as (Hab & Hs).
  set (a := data (expand junk d (used d + 1))) in *.
  destruct (insert_raw a (used d) i v E Hs) as [Hl Hf]. cbn zeta in Hl, Hf. repeat split.
  - unfold Inv, size. cbn [data used]. rewrite Hl. exact Hs.
  - unfold abs at 1. cbn [data used]. rewrite Hf, Hab. reflexivity.
Qed.

Lemma remove_refines : forall junk d i, Inv d -> refines (step junk d (RemoveAt i)) (spec_step (abs d) (RemoveAt i)).
Proof.
  intros junk d i HI. cbn [step spec_step]. unfold remove_at. rewrite (abs_length d HI).
  destruct (Nat.ltb_spec i (used d)) as [E|E]; [|exact I].
  destruct (remove_raw (data d) (used d) i E HI) as [Hl Hf]. cbn zeta in Hl, Hf. repeat split.
  - unfold Inv, size in *. cbn [data used]. rewrite Hl. lia.
  - unfold abs at 1. cbn [data used]. rewrite Hf. reflexivity.
  - unfold abs. rewrite nth_firstn' by exact E. reflexivity.
Qed.

Lemma set_refines : forall junk d i v, Inv d -> refines (step junk d (SetAt i v)) (spec_step (abs d) (SetAt i v)).
Proof.
  intros junk d i v HI. cbn [step spec_step]. unfold set_at. rewrite (abs_length d HI).
  destruct (Nat.leb_spec (used d) i) as [E|E].
  - rewrite (proj2 (Nat.ltb_ge _ _) E). destruct (expand_props junk d (i + 1) HI) as (Hab & Hs).
    set (a := data (expand junk d (i + 1))) in *.
    destruct (set_raw_beyond a (used d) i v E Hs) as [Hl Hf]. cbn zeta in Hl, Hf. repeat split.
    + unfold Inv, size. cbn [data used]. rewrite Hl. exact Hs.
    + unfold abs at 1. cbn [data used]. rewrite Hf, Hab. reflexivity.
  - rewrite (proj2 (Nat.ltb_lt _ _) E).
    destruct (set_raw_inside (data d) (used d) i v E HI) as [Hl Hf]. cbn zeta in Hl, Hf. repeat split.
    + unfold Inv, size. cbn [data used]. rewrite Hl. exact HI.
    + unfold abs at 1. cbn [data used]. rewrite Hf. reflexivity.
Qed.

Theorem dynar_refines_list : forall junk d o, Inv d -> refines (step junk d o) (spec_step (abs d) o).
Proof.
  intros junk d o HI. pose proof (abs_length d HI) as HL.
  destruct o as [v| | |v|i v|i|i|i v| |v| | |];
    [| | | |apply insert_refines, HI|apply remove_refines, HI| |apply set_refines, HI| | | | |].
  - (* push = insert at the end *)
    pose proof (insert_refines junk d (used d) v HI) as H. cbn [step spec_step] in *.
    rewrite <- HL, Nat.leb_refl, firstn_all, skipn_all, HL in H. exact H.
  - (* pop = remove the last *)
    pose proof (remove_refines junk d (used d - 1) HI) as H. cbn [step spec_step] in *.
    destruct (Nat.eqb_spec (used d) 0) as [E|E]; [destruct (abs d); [exact I|cbn [length] in HL; lia]|].
    rewrite (proj2 (Nat.ltb_lt _ _)) in H by lia.
    replace (firstn (used d - 1) (abs d) ++ skipn (S (used d - 1)) (abs d)) with (removelast (abs d)) in H
      by (rewrite skipn_all2, app_nil_r, removelast_firstn_len by lia; f_equal; lia).
    rewrite <- HL, <- last_nth', HL in H. destruct (abs d); [cbn [length] in HL; lia|exact H].
  - (* shift = remove the first *)
    pose proof (remove_refines junk d 0 HI) as H. cbn [step spec_step] in *. destruct (abs d); exact H.
  - (* unshift = insert at the front *) exact (insert_refines junk d 0 v HI).
  - cbn [step spec_step]. rewrite HL. destruct (Nat.ltb_spec i (used d)) as [E|E]; [|exact I].
    repeat split; [exact HI|]. unfold abs. rewrite nth_firstn' by exact E. reflexivity.
  - repeat split; [exact HI|]. rewrite HL. reflexivity.
  - repeat split. exact HI.
  - repeat split.
    + unfold Inv, size in *. cbn [data used]. rewrite app_length, isort_length, skipn_length, firstn_length_le by exact HI. lia.
    + unfold abs at 1. cbn [data used]. apply firstn_app_all. rewrite isort_length. exact HL.
  - repeat split. unfold Inv. cbn [used]. lia.
  - repeat split. exact HI.
Qed.

(* whole histories: the dynar and the list stay related, stop at the same operation, give the same answers *)
Fixpoint run_c (junk : Z) (d : dynar) (ops : list op) : option (dynar * list (list Z)) :=
  match ops with
  | [] => Some (d, [])
  | o :: r => match step junk d o with
              | Some (d', res) => match run_c junk d' r with Some (d'', rs) => Some (d'', res :: rs) | None => None end
              | None => None
              end
  end.
Fixpoint run_s (l : list Z) (ops : list op) : option (list Z * list (list Z)) :=
  match ops with
  | [] => Some (l, [])
  | o :: r => match spec_step l o with
              | Some (l', res) => match run_s l' r with Some (l'', rs) => Some (l'', res :: rs) | None => None end
              | None => None
              end
  end.

Theorem dynar_history_refines : forall junk ops d, Inv d ->
  match run_c junk d ops, run_s (abs d) ops with
  | Some (d', rs), Some (l', rs') => Inv d' /\ abs d' = l' /\ rs = rs'
  | None, None => True
  | _, _ => False
  end.
Proof.
  intros junk ops. induction ops as [|o r IH]; intros d HI; cbn [run_c run_s].
  - repeat split. exact HI.
  - pose proof (dynar_refines_list junk d o HI) as H. unfold refines in H.
    destruct (step junk d o) as [[d1 res]|]; destruct (spec_step (abs d) o) as [[l1 res']|]; try contradiction; [|exact I].
    destruct H as (H1 & H2 & H3). subst l1 res'. specialize (IH d1 H1).
    destruct (run_c junk d1 r) as [[d2 rs]|]; destruct (run_s (abs d1) r) as [[l2 rs']|]; try contradiction; [|exact I].
    destruct IH as (I1 & I2 & I3). subst. repeat split. exact I1.
Qed.

Lemma empty_inv : Inv (mkD [] 0).
Proof. unfold Inv, size. cbn. lia. Qed.
