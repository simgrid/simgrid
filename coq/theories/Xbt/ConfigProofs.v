(** C48.  What setting a flag through a string does is said once, by outcome ([set_string_inv]); [set_get],
    [set_succeeds] and the count of callback runs are read off it.  The parsers are characterised on the decimal texts
    that [int_text] and [render] build. *)
From SGV Require Import Base.PlainLia Xbt.Strtod Xbt.Units Xbt.UnitsProofs Gen.CfgFlags Xbt.Config.
From Coq Require Import QArith.
Local Open Scope Z_scope.

(* [Config.str_eqb] is the same function as [Units.str_eqb] *)
Lemma seqb_eq : forall a b, Config.str_eqb a b = true <-> a = b.
Proof. exact str_eqb_eq. Qed.
Lemma seqb_refl : forall a, Config.str_eqb a a = true.
Proof. intro a. now apply seqb_eq. Qed.
Lemma seqb_neq : forall a b, a <> b -> Config.str_eqb a b = false.
Proof. intros a b H. destruct (Config.str_eqb a b) eqn:E; [apply seqb_eq in E; congruence|reflexivity]. Qed.

Definition keeps_name (f : item -> item) : Prop := forall it, i_name (f it) = i_name it.

Lemma find_upd_same : forall its n f, keeps_name f ->
  find_item (upd_item its n f) n = option_map f (find_item its n).
Proof.
  intros its n f Hf. induction its as [|it its IH]; cbn; [reflexivity|].
  destruct (Config.str_eqb (i_name it) n) eqn:E.
  - rewrite Hf, E. reflexivity.
  - rewrite E. exact IH.
Qed.

Lemma find_upd_other : forall its n m f, keeps_name f -> m <> n ->
  find_item (upd_item its n f) m = find_item its m.
Proof.
  intros its n m f Hf Hne. induction its as [|it its IH]; cbn; [reflexivity|].
  destruct (Config.str_eqb (i_name it) n) eqn:E.
  - rewrite Hf. apply seqb_eq in E. rewrite E. rewrite (seqb_neq n m) by congruence. exact IH.
  - destruct (Config.str_eqb (i_name it) m); [reflexivity|exact IH].
Qed.

Definition stored (v : value) (it : item) : item :=
  {| i_name := i_name it; i_ty := i_ty it; i_val := v; i_default := false; i_calls := i_calls it + 1 |}.

Lemma set_string_inv : forall valid c n s,
  match set_string valid c n s with
  | Ok c' | ErrInvalid c' =>
      exists r it v, resolve c n = Some r /\ find_item (c_items c) r = Some it /\ parse (i_ty it) s = Some v /\
        (valid r v = true <-> set_string valid c n s = Ok c') /\
        get c' n = Some v /\ calls c' r = calls c r + 1 /\
        (forall m, m <> r -> find_item (c_items c') m = find_item (c_items c) m) /\
        c_aliases c' = c_aliases c
  | ErrUnknown => resolve c n = None \/ exists r, resolve c n = Some r /\ find_item (c_items c) r = None
  | ErrParse => exists r it, resolve c n = Some r /\ find_item (c_items c) r = Some it /\ parse (i_ty it) s = None
  | ErrAbort _ => False
  end.
Proof.
  intros valid c n s. unfold set_string.
  destruct (resolve c n) as [r|] eqn:R; [|now left].
  destruct (find_item (c_items c) r) as [it|] eqn:F; [|right; eauto].
  destruct (parse (i_ty it) s) as [v|] eqn:P; [|eauto].
  assert (Hf : keeps_name (stored v)) by (intro; reflexivity).
  fold (stored v). set (c' := {| c_items := upd_item (c_items c) r (stored v); c_aliases := c_aliases c |}).
  assert (Hres : resolve c' n = Some r).
  { unfold resolve in *. cbn [c_items c_aliases c'].
    destruct (find_item (c_items c) n) eqn:Fn.
    - inv R. rewrite find_upd_same, F by exact Hf. reflexivity.
    - rewrite find_upd_other, Fn by (exact Hf || congruence). exact R. }
  assert (Hget : get c' n = Some v)
    by (unfold get; rewrite Hres; cbn [c_items c']; rewrite find_upd_same, F by exact Hf; reflexivity).
  assert (Hcalls : calls c' r = calls c r + 1)
    by (unfold calls; cbn [c_items c']; rewrite find_upd_same, F by exact Hf; reflexivity).
  assert (Hother : forall m, m <> r -> find_item (c_items c') m = find_item (c_items c) m)
    by (intros m Hm; apply find_upd_other; assumption).
  destruct (valid r v) eqn:V; exists r, it, v; rewrite V; repeat split; try assumption; try reflexivity; discriminate.
Qed.

Lemma set_get : forall valid c n s c', set_string valid c n s = Ok c' ->
  exists r it v, resolve c n = Some r /\ find_item (c_items c) r = Some it /\ parse (i_ty it) s = Some v /\
    valid r v = true /\ get c' n = Some v /\ calls c' r = calls c r + 1 /\
    (forall m, m <> r -> find_item (c_items c') m = find_item (c_items c) m) /\ c_aliases c' = c_aliases c.
Proof.
  intros valid c n s c' H. pose proof (set_string_inv valid c n s) as I. rewrite H in I.
  destruct I as (r & it & v & H1 & H2 & H3 & H4 & H5 & H6 & H7 & H8).
  exists r, it, v. repeat split; try assumption. now apply H4.
Qed.

Lemma set_succeeds : forall valid c n s r it v,
  resolve c n = Some r -> find_item (c_items c) r = Some it -> parse (i_ty it) s = Some v -> valid r v = true ->
  exists c', set_string valid c n s = Ok c' /\ get c' n = Some v.
Proof.
  intros valid c n s r it v R F P V. pose proof (set_string_inv valid c n s) as I.
  unfold set_string in *. rewrite R, F, P, V in *.
  destruct I as (r' & it' & v' & H1 & H2 & H3 & _ & H5 & _). eexists. split; [reflexivity|]. congruence.
Qed.

Lemma callback_runs_once_even_when_it_rejects : forall valid c n s c', set_string valid c n s = ErrInvalid c' ->
  exists r it v, resolve c n = Some r /\ find_item (c_items c) r = Some it /\ parse (i_ty it) s = Some v /\
    valid r v = false /\ calls c' r = calls c r + 1 /\
    (forall m, m <> r -> find_item (c_items c') m = find_item (c_items c) m).
Proof.
  intros valid c n s c' H. pose proof (set_string_inv valid c n s) as I. rewrite H in I.
  destruct I as (r & it & v & H1 & H2 & H3 & H4 & H5 & H6 & H7 & H8).
  exists r, it, v. repeat split; try assumption.
  destruct (valid r v) eqn:V; [|reflexivity]. destruct H4 as [H4 _]. specialize (H4 eq_refl). discriminate.
Qed.

Lemma reject_unparsable : forall valid c n s r it,
  resolve c n = Some r -> find_item (c_items c) r = Some it -> parse (i_ty it) s = None ->
  set_string valid c n s = ErrParse.
Proof. intros valid c n s r it R F P. unfold set_string. now rewrite R, F, P. Qed.

Lemma unknown_name : forall valid c n s,
  find_item (c_items c) n = None -> find_alias (c_aliases c) n = None -> set_string valid c n s = ErrUnknown.
Proof. intros valid c n s F A. unfold set_string, resolve. now rewrite F, A. Qed.

Lemma alias_same : forall valid c a r it s,
  find_item (c_items c) a = None -> find_alias (c_aliases c) a = Some r -> find_item (c_items c) r = Some it ->
  set_string valid c a s = set_string valid c r s.
Proof. intros valid c a r it s Fa A Fr. unfold set_string, resolve. rewrite Fa, A, Fr. cbv beta iota. rewrite Fr. reflexivity. Qed.

(* the flags the built library registers (Gen/CfgFlags.v is regenerated from it) *)
Definition reg_cfg : cfg :=
  {| c_items := map (fun p => {| i_name := fst p; i_ty := ty_of_code (snd p); i_val := VInt 0; i_default := true; i_calls := 1 |}) cfg_items;
     c_aliases := cfg_aliases |}.
Lemma find_item_in : forall its it, In it its -> find_item its (i_name it) <> None.
Proof.
  intros its it. unfold find_item. induction its as [|x its IH]; cbn [find In]; [tauto|].
  intros [->|H]; [rewrite seqb_refl; discriminate|]. destruct (Config.str_eqb (i_name x) (i_name it)); [discriminate|auto].
Qed.
(* evaluated on the [forall] form in which they are used *)
Lemma aliases_resolve : forall ar, In ar cfg_aliases ->
  match resolve reg_cfg (fst ar) with Some r => Config.str_eqb r (snd ar) | None => false end = true.
Proof. apply forallb_forall. vm_compute. reflexivity. Qed.
Lemma aliases_target : forall ar, In ar cfg_aliases ->
  existsb (fun p => Config.str_eqb (fst p) (snd ar)) cfg_items = true.
Proof. apply forallb_forall. vm_compute. reflexivity. Qed.

Lemma registered_names_resolve :
  (forall n t, In (n, t) cfg_items -> resolve reg_cfg n = Some n) /\
  (forall a r, In (a, r) cfg_aliases -> resolve reg_cfg a = Some r /\ exists t, In (r, t) cfg_items).
Proof.
  split.
  - intros n t Hin. unfold resolve.
    apply (in_map (fun p => {| i_name := fst p; i_ty := ty_of_code (snd p); i_val := VInt 0; i_default := true; i_calls := 1 |}))
      in Hin.
    apply find_item_in in Hin. cbn [i_name fst] in Hin. change (find_item (c_items reg_cfg) n <> None) in Hin.
    destruct (find_item (c_items reg_cfg) n); [reflexivity|now destruct Hin].
  - intros a r Hin. split.
    + pose proof (aliases_resolve _ Hin) as Ha. cbn [fst snd] in Ha.
      destruct (resolve reg_cfg a); [|discriminate]. apply seqb_eq in Ha. now rewrite Ha.
    + pose proof (aliases_target _ Hin) as Ht. cbn [snd] in Ht.
      apply existsb_exists in Ht as ([n t] & Hin' & E). cbn [fst] in E. apply seqb_eq in E. subst. eauto.
Qed.

Lemma parse_bool_spec : forall s b,
  parse_bool s = Some b <->
  (if b then In (map lower s) true_lits else In (map lower s) false_lits /\ ~ In (map lower s) true_lits).
Proof.
  intros s b. unfold parse_bool. set (l := map lower s).
  assert (Hex : forall L, existsb (Config.str_eqb l) L = true <-> In l L).
  { intro L. rewrite existsb_exists. split.
    - intros (x & Hin & E). apply seqb_eq in E. now subst.
    - intro Hin. exists l. split; [exact Hin|apply seqb_refl]. }
  pose proof (Hex true_lits) as Ht. pose proof (Hex false_lits) as Hf.
  destruct (existsb (Config.str_eqb l) true_lits); [|destruct (existsb (Config.str_eqb l) false_lits)];
    destruct b; intuition congruence.
Qed.

(* decimal integers: [spaces][sign]d1 d2 … with d1 <> '0' *)
Lemma strtol_digits_dec : forall ds g, all is_digit ds -> ds <> [] -> hd 0 ds <> 48 -> hd_not is_digit g ->
  strtol_digits (ds ++ g) = (Some (digits_val ds), g).
Proof.
  intros ds g Hd Hne Hz Hg. destruct ds as [|d ds]; [congruence|]. cbn [hd] in Hz.
  assert (E : (d =? 48) = false) by (apply Z.eqb_neq; exact Hz).
  assert (S : span is_digit ((d :: ds) ++ g) = (d :: ds, g)) by (apply span_app; assumption).
  unfold strtol_digits.
  destruct ((d :: ds) ++ g) as [|z [|x [|h r]]] eqn:L; cbn [app] in L; try discriminate;
    injection L as <- L'; rewrite ?E, ?andb_false_l; rewrite S; reflexivity.
Qed.

Definition int_text (sp : str) (sg : option bool) (ds : str) : str := sp ++ sign_str sg ++ ds.
Definition int_val (sg : option bool) (ds : str) : Z := if is_neg sg then - digits_val ds else digits_val ds.

Lemma parse_long_dec : forall sp sg ds g,
  all is_space sp -> all is_digit ds -> ds <> [] -> hd 0 ds <> 48 -> hd_not is_digit g ->
  parse_long (int_text sp sg ds ++ g) =
  if (int_val sg ds <? LONG_MIN) || (LONG_MAX <? int_val sg ds) then None
  else match g with [] => Some (int_val sg ds) | _ => None end.
Proof.
  intros sp sg ds g Hsp Hd Hne Hz Hg. unfold parse_long, int_text.
  destruct ds as [|d ds']; [congruence|].
  assert (Hd0 : is_digit d = true) by (unfold all in Hd; cbn in Hd; now apply andb_true_iff in Hd as [? _]).
  pose proof (digit_not _ Hd0) as (D1 & D2 & _).
  replace ((sp ++ sign_str sg ++ d :: ds') ++ g) with (sp ++ (sign_str sg ++ (d :: ds') ++ g))
    by (now rewrite <- !app_assoc).
  rewrite skip_spaces_app; [|exact Hsp|destruct sg as [[|]|]; cbn; auto].
  rewrite split_sign_str by (cbn; exact D2).
  rewrite strtol_digits_dec by assumption. reflexivity.
Qed.

Lemma parse_int_dec : forall sp sg ds,
  all is_space sp -> all is_digit ds -> ds <> [] -> hd 0 ds <> 48 ->
  parse_int (int_text sp sg ds) =
  if (int_val sg ds <? INT_MIN) || (INT_MAX <? int_val sg ds) then None else Some (int_val sg ds).
Proof.
  intros sp sg ds Hsp Hd Hne Hz. unfold parse_int.
  rewrite <- (app_nil_r (int_text sp sg ds)). rewrite parse_long_dec by (cbn; auto).
  unfold LONG_MIN, LONG_MAX, INT_MIN, INT_MAX.
  change (2 ^ 63) with 9223372036854775808. change (2 ^ 31) with 2147483648.
  destruct ((int_val sg ds <? - (9223372036854775808)) || (9223372036854775808 - 1 <? int_val sg ds)) eqn:E1;
    destruct ((int_val sg ds <? - (2147483648)) || (2147483648 - 1 <? int_val sg ds)) eqn:E2; try reflexivity; lia.
Qed.

Lemma parse_int_trailing_rejected : forall sp sg ds g,
  all is_space sp -> all is_digit ds -> ds <> [] -> hd 0 ds <> 48 -> hd_not is_digit g -> g <> [] ->
  parse_int (int_text sp sg ds ++ g) = None.
Proof.
  intros sp sg ds g Hsp Hd Hne Hz Hg Hgn. unfold parse_int. rewrite parse_long_dec by assumption.
  destruct ((int_val sg ds <? LONG_MIN) || (LONG_MAX <? int_val sg ds)); [reflexivity|].
  destruct g; [congruence|reflexivity].
Qed.

(* decimal reals: the number grammar of C27, fully consumed *)
Lemma parse_double_dec : forall d, wf d ->
  parse_double (render d) = if erange (dvalue d) then None else Some (DFin (dvalue d)).
Proof.
  intros d Hwf. unfold parse_double. rewrite <- (app_nil_r (render d)). rewrite strtod_render by auto.
  destruct (erange (dvalue d)); reflexivity.
Qed.

Lemma parse_double_trailing_rejected : forall d u, wf d -> unit_shape u = true -> u <> [] ->
  parse_double (render d ++ u) = None.
Proof.
  intros d u Hwf Hu Hne. unfold parse_double. rewrite strtod_render by auto.
  destruct (erange (dvalue d)); [reflexivity|]. destruct u; [congruence|reflexivity].
Qed.
