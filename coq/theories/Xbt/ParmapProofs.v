(** C49 — every apply() of the Parmap model processes each element exactly once, under every schedule. *)
From SGV Require Import Base.PlainLia Base.Facts Xbt.Parmap.
From Coq Require Import Permutation.

Definition hold_w (w : worker) : list nat := match wpc w with WGot i => [i] | _ => [] end.
Definition hold_m (p : mpc_t) : list nat := match p with MGot i => [i] | _ => [] end.
Definition holders (s : state) : list nat := hold_m (mpc s) ++ flat_map hold_w (ws s).

(* the worker finished round R (or, for R = 0, has just been created) and waits for round R+1 *)
Definition idle_b (R : nat) (w : worker) : bool :=
  match wpc w with WStart => Nat.eqb (wround w) R | WWait | WBlock _ => Nat.eqb (wround w) (S R) | _ => false end.
Definition idle_at (R : nat) (w : worker) : Prop := idle_b R w = true.
Definition working_at (R : nat) (w : worker) : Prop :=
  wround w = R /\ match wpc w with WFetch | WGot _ | WSignal => True | _ => False end.
(* during round R: not started yet / inside work() or about to signal / signalled *)
Definition PB (R : nat) (w : worker) : Prop :=
  (exists R0, R = S R0 /\ idle_at R0 w) \/ working_at R w \/ idle_at R w.
Definition cnt (R : nat) (l : list worker) : nat := length (filter (idle_b R) l).
Definition below (n : nat) (i : nat) : bool := Nat.ltb i n.
(* the master is inside master_wait() (testing the counter or blocked) *)
Definition waiting_b (p : mpc_t) : bool := match p with MWait | MBlock _ => true | _ => false end.
(* the worker is inside worker_wait() *)
Definition wb (p : wpc_t) : bool := match p with WWait | WBlock _ => true | _ => false end.

Definition PhaseB (s : state) : Prop :=
  Forall (PB (wr s)) (ws s) /\ tc s = S (cnt (wr s) (ws s))
  /\ Permutation (applied s ++ filter (below (len s)) (holders s)) (seq 0 (Nat.min (ci s) (len s)))
  /\ (forall i, mpc s = MGot i -> i < ci s) /\ (waiting_b (mpc s) = true -> len s <= ci s).

Definition done_ok (s : state) : Prop := Forall (fun d => Permutation (snd d) (seq 0 (fst d))) (done s).

Definition Inv (s : state) : Prop :=
  done_ok s /\
  match mpc s with
  | MIdle => Forall (idle_at (wr s)) (ws s)
  | M1 => Forall (idle_at (wr s)) (ws s) /\ ci s = 0 /\ applied s = []
  | M2 => Forall (idle_at (wr s)) (ws s) /\ ci s = 0 /\ applied s = [] /\ tc s = 1
  | _ => PhaseB s
  end.

Lemma upd_decomp : forall (l : list worker) k w, nth_error l k = Some w ->
  exists l1 l2, l = l1 ++ w :: l2 /\ forall w', upd k w' l = l1 ++ w' :: l2.
Proof.
  intros l k w H. apply nth_error_split in H. destruct H as (l1 & l2 & -> & Hk). exists l1, l2. split; [reflexivity|].
  intro w'. unfold upd. subst k.
  rewrite firstn_app, firstn_all, Nat.sub_diag. cbn [firstn]. rewrite app_nil_r.
  replace (S (length l1)) with (length (l1 ++ [w])) by (rewrite app_length; cbn; lia).
  replace (l1 ++ w :: l2) with ((l1 ++ [w]) ++ l2) by (rewrite <- app_assoc; reflexivity).
  rewrite skipn_app, skipn_all, Nat.sub_diag. reflexivity.
Qed.

Lemma idle_hold : forall R w, idle_at R w -> hold_w w = [].
Proof. intros R w H. unfold idle_at, idle_b in H. unfold hold_w. destruct (wpc w); try discriminate; reflexivity. Qed.
Lemma all_idle_hold : forall R l, Forall (idle_at R) l -> flat_map hold_w l = [].
Proof.
  intros R l H. induction H as [|w r Hw Hr IH]; [reflexivity|]. cbn. rewrite (idle_hold R w Hw), IH. reflexivity.
Qed.
Lemma filter_length_le : forall (f : worker -> bool) l, length (filter f l) <= length l.
Proof. intros f l. induction l as [|x r IH]; cbn; [lia|]. destruct (f x); cbn; lia. Qed.
Lemma cnt_all : forall R l, cnt R l = length l -> Forall (idle_at R) l.
Proof.
  intros R l. unfold cnt. induction l as [|w r IH]; intro H; [constructor|]. cbn in H.
  pose proof (filter_length_le (idle_b R) r) as Hle.
  destruct (idle_b R w) eqn:E; cbn in H; [|lia]. constructor; [exact E|]. apply IH. lia.
Qed.
Lemma idle_prev_not_now : forall R w, idle_at R w -> idle_b (S R) w = false.
Proof.
  intros R w H. unfold idle_at, idle_b in *. destruct (wpc w); try reflexivity;
    apply Nat.eqb_eq in H; apply Nat.eqb_neq; lia.
Qed.
Lemma cnt_prev : forall R l, Forall (idle_at R) l -> cnt (S R) l = 0.
Proof.
  intros R l H. unfold cnt. induction H as [|w r Hw Hr IH]; [reflexivity|]. cbn. rewrite (idle_prev_not_now R w Hw). exact IH.
Qed.

Lemma fetch_perm : forall n A X Y c,
  Permutation (A ++ filter (below n) (X ++ Y)) (seq 0 (Nat.min c n)) ->
  Permutation (A ++ filter (below n) (X ++ c :: Y)) (seq 0 (Nat.min (S c) n)).
Proof.
  intros n A X Y c H. rewrite filter_app in *. cbn [filter]. unfold below at 2. destruct (Nat.ltb c n) eqn:E.
  - apply Nat.ltb_lt in E. replace (Nat.min (S c) n) with (S c) by lia. replace (Nat.min c n) with c in H by lia.
    rewrite seq_S. cbn [plus]. rewrite app_assoc. eapply perm_trans; [apply Permutation_sym; apply Permutation_middle|].
    rewrite <- app_assoc. eapply perm_trans; [apply perm_skip; exact H|]. apply Permutation_cons_append.
  - apply Nat.ltb_ge in E. replace (Nat.min (S c) n) with (Nat.min c n) by lia. exact H.
Qed.
Lemma got_perm : forall n A X Y i S0, i < n ->
  Permutation (A ++ filter (below n) (X ++ i :: Y)) S0 ->
  Permutation ((i :: A) ++ filter (below n) (X ++ Y)) S0.
Proof.
  intros n A X Y i S0 Hi H. rewrite filter_app in *. cbn [filter] in H. unfold below at 2 in H.
  replace (Nat.ltb i n) with true in H by (symmetry; apply Nat.ltb_lt; exact Hi).
  eapply perm_trans; [|exact H]. cbn [app]. rewrite app_assoc. rewrite app_assoc. apply Permutation_middle.
Qed.
Lemma got_drop : forall n X Y i, ~ i < n -> filter (below n) (X ++ i :: Y) = filter (below n) (X ++ Y).
Proof.
  intros n X Y i Hi. rewrite 2 filter_app. cbn [filter]. unfold below at 2.
  replace (Nat.ltb i n) with false by (symmetry; apply Nat.ltb_ge; lia). reflexivity.
Qed.

Ltac simp := cbn [ci tc wr len mpc ws applied done todo fst snd hold_m app waiting_b].

(* the master moves inside master_wait() (load+test <-> blocked): nothing observable changes *)
Lemma set_mpc_wait_inv : forall s p, Inv s -> waiting_b (mpc s) = true -> waiting_b p = true -> Inv (set_mpc s p).
Proof.
  intros s p [Hd HI] Hw Hp. unfold Inv, set_mpc. simp. split; [exact Hd|].
  assert (HB : PhaseB s) by (destruct (mpc s); try discriminate; exact HI).
  assert (Hh : forall q, waiting_b q = true -> hold_m q = []) by (intros q Hq; destruct q; try discriminate; reflexivity).
  destruct HB as (H1 & H2 & H3 & H4 & H5).
  assert (G : PhaseB (mkS (ci s) (tc s) (wr s) (len s) p (ws s) (applied s) (done s) (todo s))).
  { unfold PhaseB. simp. repeat split; try assumption.
    - unfold holders in *. simp. rewrite (Hh _ Hw) in H3. rewrite (Hh _ Hp). exact H3.
    - intros i Hi. rewrite Hi in Hp. discriminate.
    - intros _. apply H5. exact Hw. }
  destruct p; try discriminate; exact G.
Qed.

(* apply() returns from master_wait() having SEEN thread_counter >= num_workers *)
Lemma master_return_inv : forall s, Inv s -> waiting_b (mpc s) = true -> S (length (ws s)) <= tc s -> Inv (master_return s).
Proof.
  intros s [Hd HI] Hw E.
  assert (HB : PhaseB s) by (destruct (mpc s); try discriminate; exact HI).
  destruct HB as (H1 & H2 & H3 & H4 & H5). specialize (H5 Hw).
  assert (Hall : Forall (idle_at (wr s)) (ws s)).
  { apply cnt_all. pose proof (filter_length_le (idle_b (wr s)) (ws s)). unfold cnt in *. lia. }
  unfold master_return. split; simp; [|exact Hall]. constructor; [|exact Hd]. simp.
  unfold holders in H3. replace (hold_m (mpc s)) with (@nil nat) in H3 by (destruct (mpc s); try discriminate; reflexivity).
  cbn [app] in H3. rewrite (all_idle_hold _ _ Hall) in H3. cbn [filter] in H3.
  rewrite app_nil_r in H3. replace (Nat.min (ci s) (len s)) with (len s) in H3 by lia. exact H3.
Qed.

(* the master's wait returns (for whatever reason, also spuriously): the `while` sends it back to the test *)
Lemma wake_master_inv : forall s, Inv s -> Inv (wake_master as_written s).
Proof.
  intros s HI. unfold wake_master. destruct (mpc s) eqn:Em; try exact HI. cbn [m_loop as_written].
  apply set_mpc_wait_inv; [exact HI|rewrite Em; reflexivity|reflexivity].
Qed.

Lemma step_master_inv : forall s, Inv s -> Inv (step_master as_written s).
Proof.
  intros s HInv. pose proof HInv as [Hd HI]. unfold step_master. destruct (mpc s) eqn:Em.
  - (* MIdle *) destruct (todo s) as [|n r]; [split; [exact Hd|rewrite Em; exact HI]|].
    split; [exact Hd|]. simp. repeat split. exact HI.
  - (* M1 *) destruct HI as (H1 & H2 & H3). split; [exact Hd|]. simp. repeat split; assumption.
  - (* M2 *) destruct HI as (H1 & H2 & H3 & H4). split; [exact Hd|]. simp. unfold PhaseB. simp. repeat split.
    + eapply Forall_impl; [|exact H1]. intros w Hw. left. exists (wr s). split; [reflexivity|exact Hw].
    + rewrite H4, (cnt_prev _ _ H1). reflexivity.
    + rewrite H3, H2. unfold holders. simp. rewrite (all_idle_hold _ _ H1). cbn. constructor.
    + discriminate.
    + discriminate.
  - (* MFetch *) destruct HI as (H1 & H2 & H3 & H4 & H5). split; [exact Hd|]. simp. unfold PhaseB. simp. repeat split; try assumption.
    + unfold holders in *. rewrite Em in H3. simp. cbn [hold_m app] in H3.
      apply (fetch_perm (len s) (applied s) [] (flat_map hold_w (ws s)) (ci s)). exact H3.
    + intros i Hi. inv Hi. lia.
    + discriminate.
  - (* MGot *) destruct HI as (H1 & H2 & H3 & H4 & H5). specialize (H4 i Em).
    unfold holders in H3. rewrite Em in H3. cbn [hold_m app] in H3.
    destruct (Nat.ltb i (len s)) eqn:E; (split; [exact Hd|]); simp; unfold PhaseB; simp; repeat split; try assumption; try discriminate.
    + apply Nat.ltb_lt in E. unfold holders. simp. apply (got_perm (len s) (applied s) [] _ i _ E). exact H3.
    + apply Nat.ltb_ge in E. unfold holders. simp.
      pose proof (got_drop (len s) [] (flat_map hold_w (ws s)) i ltac:(lia)) as Hg. cbn [app] in Hg. rewrite Hg in H3. exact H3.
    + intros _. apply Nat.ltb_ge in E. lia.
  - (* MWait *) destruct (Nat.leb (S (length (ws s))) (tc s)) eqn:E.
    + apply Nat.leb_le in E. apply master_return_inv; [exact HInv|rewrite Em; reflexivity|exact E].
    + apply set_mpc_wait_inv; [exact HInv|rewrite Em; reflexivity|reflexivity].
  - (* MBlock *) destruct (Nat.eqb (tc s) c); [exact HInv|]. apply wake_master_inv. exact HInv.
Qed.

Lemma PB_idle_prev_step : forall R w, PB R w -> wpc w = WStart -> PB R (mkW WWait (S (wround w))) /\
  idle_b R (mkW WWait (S (wround w))) = idle_b R w.
Proof.
  intros R w H Hp. unfold PB, idle_at, working_at, idle_b in *. rewrite Hp in *. cbn.
  destruct H as [(R0 & -> & H)|[[_ []]|H]].
  - apply Nat.eqb_eq in H. split; [left; exists R0; split; [reflexivity|apply Nat.eqb_eq; lia]|].
    transitivity false; [apply Nat.eqb_neq; lia|symmetry; apply Nat.eqb_neq; lia].
  - apply Nat.eqb_eq in H. split; [right; right; apply Nat.eqb_eq; lia|].
    transitivity true; [apply Nat.eqb_eq; lia|symmetry; apply Nat.eqb_eq; lia].
Qed.

(* moving inside worker_wait() (load+test <-> blocked) keeps the worker where it is in the round protocol *)
Lemma PB_wait_block : forall R w p', PB R w -> wb (wpc w) = true -> wb p' = true ->
  PB R (mkW p' (wround w)) /\ idle_b R (mkW p' (wround w)) = idle_b R w /\ hold_w w = [] /\ hold_w (mkW p' (wround w)) = [].
Proof.
  intros R w p' H Hw Hp. unfold PB, idle_at, working_at, idle_b, hold_w in *.
  destruct (wpc w); try discriminate; destruct p'; try discriminate; cbn [wpc wround];
    (split; [|repeat split]);
    (destruct H as [(R0 & -> & H)|[[_ []]|H]]; [left; exists R0; split; [reflexivity|exact H]|right; right; exact H]).
Qed.
Lemma idle_wait_block : forall R w p', idle_at R w -> wb (wpc w) = true -> wb p' = true -> idle_at R (mkW p' (wround w)).
Proof.
  intros R w p' H Hw Hp. unfold idle_at, idle_b in *. destruct (wpc w); try discriminate; destruct p'; try discriminate; exact H.
Qed.

Lemma cnt_split : forall R l1 w l2,
  cnt R (l1 ++ w :: l2) = cnt R l1 + (if idle_b R w then 1 else 0) + cnt R l2.
Proof. intros R l1 w l2. unfold cnt. rewrite filter_app, app_length. cbn [filter]. destruct (idle_b R w); cbn [length]; lia. Qed.
Lemma hold_split : forall l1 w l2,
  flat_map hold_w (l1 ++ w :: l2) = flat_map hold_w l1 ++ hold_w w ++ flat_map hold_w l2.
Proof. intros l1 w l2. rewrite flat_map_app. cbn [flat_map]. reflexivity. Qed.

Lemma replace_worker : forall s l1 w l2 w' A' ci' tc',
  ws s = l1 ++ w :: l2 -> PhaseB s -> PB (wr s) w' ->
  tc' + (if idle_b (wr s) w then 1 else 0) = tc s + (if idle_b (wr s) w' then 1 else 0) ->
  ci s <= ci' ->
  Permutation (A' ++ filter (below (len s)) ((hold_m (mpc s) ++ flat_map hold_w l1) ++ hold_w w' ++ flat_map hold_w l2))
              (seq 0 (Nat.min ci' (len s))) ->
  PhaseB (mkS ci' tc' (wr s) (len s) (mpc s) (l1 ++ w' :: l2) A' (done s) (todo s)).
Proof.
  intros s l1 w l2 w' A' ci' tc' Hl (H1 & H2 & H3 & H4 & H5) Hw' Htc Hci Hperm.
  unfold PhaseB. simp. rewrite Hl in H1, H2. rewrite cnt_split in H2. rewrite cnt_split.
  apply Forall_app in H1. destruct H1 as [F1 F2]. inv F2. repeat split.
  - apply Forall_app. split; [exact F1|]. constructor; assumption.
  - lia.
  - unfold holders. simp. rewrite hold_split, app_assoc. exact Hperm.
  - intros i Hi. specialize (H4 i Hi). lia.
  - intro Hm. specialize (H5 Hm). lia.
Qed.

Definition keeps_phaseB (f : state -> state) : Prop := forall s, PhaseB s ->
  PhaseB (f s) /\ mpc (f s) = mpc s /\ done (f s) = done s.

(* worker k moves inside worker_wait(): to the test when [p'] = WWait, into the blocking call when [p'] = WBlock _ *)
Lemma wait_block_phaseB : forall s k w p', PhaseB s -> nth_error (ws s) k = Some w -> wb (wpc w) = true -> wb p' = true ->
  PhaseB (set_w s k (mkW p' (wround w))).
Proof.
  intros s k w p' HB En Hw Hp. unfold set_w. destruct (upd_decomp _ _ _ En) as (l1 & l2 & Hl & Hu).
  pose proof HB as (H1 & H2 & H3 & H4 & H5).
  assert (HPw : PB (wr s) w) by (rewrite Hl in H1; exact (Forall_elt _ _ _ H1)).
  destruct (PB_wait_block _ _ p' HPw Hw Hp) as (P1 & P2 & P3 & P4). rewrite Hu.
  apply (replace_worker s l1 w l2); try assumption; [rewrite P2; lia|lia|].
  rewrite P4. unfold holders in H3. rewrite Hl, hold_split, app_assoc, P3 in H3. exact H3.
Qed.
Lemma wake_worker_phaseB : forall k, keeps_phaseB (fun s => wake_worker as_written s k).
Proof.
  intros k s HB. unfold wake_worker. destruct (nth_error (ws s) k) as [w|] eqn:En; [|split; [exact HB|split; reflexivity]].
  destruct (wpc w) eqn:Ep; try (split; [exact HB|split; reflexivity]). cbn [w_loop as_written].
  split; [|split; reflexivity]. apply wait_block_phaseB; [exact HB|exact En|rewrite Ep; reflexivity|reflexivity].
Qed.

(* a worker inside work(), or about to signal, belongs to the current round *)
Lemma PB_working : forall R p r, PB R (mkW p r) -> match p with WFetch | WGot _ | WSignal => True | _ => False end -> r = R.
Proof.
  intros R p r [(R0 & _ & Hi)|[[Hr _]|Hi]] Hp; [|exact Hr|]; unfold idle_at, idle_b in Hi; cbn in Hi;
    destruct p; try contradiction; discriminate.
Qed.

Lemma step_worker_phaseB : forall k, keeps_phaseB (fun s => step_worker as_written s k).
Proof.
  intros k s HB. unfold step_worker. destruct (nth_error (ws s) k) as [w|] eqn:En; [|split; [exact HB|split; reflexivity]].
  destruct (upd_decomp _ _ _ En) as (l1 & l2 & Hl & Hu). pose proof HB as (H1 & H2 & H3 & H4 & H5).
  assert (Hw : PB (wr s) w) by (rewrite Hl in H1; exact (Forall_elt _ _ _ H1)).
  assert (Hold : Permutation (applied s ++ filter (below (len s)) ((hold_m (mpc s) ++ flat_map hold_w l1) ++ hold_w w ++ flat_map hold_w l2))
                             (seq 0 (Nat.min (ci s) (len s)))).
  { unfold holders in H3. rewrite Hl, hold_split, app_assoc in H3. exact H3. }
  destruct w as [p r]. cbn [wpc wround]. unfold hold_w at 2 in Hold. cbn [wpc] in Hold.
  destruct p as [| |r0| |i|]; cbn [app] in Hold; try (pose proof (PB_working _ _ _ Hw I) as Hr; subst r).
  - (* WStart *) destruct (PB_idle_prev_step _ _ Hw eq_refl) as [P1 P2]. cbn [wround] in P1, P2. rewrite Hu. split; [|split; reflexivity].
    apply (replace_worker s l1 _ l2 _ _ _ _ Hl HB P1); [rewrite P2; lia|lia|exact Hold].
  - (* WWait *) destruct (Nat.eqb (wr s) r) eqn:E;
      [|split; [|split; reflexivity]; apply (wait_block_phaseB s k _ _ HB En); reflexivity].
    apply Nat.eqb_eq in E. subst r. rewrite Hu. split; [|split; reflexivity].
    apply (replace_worker s l1 _ l2 _ _ _ _ Hl HB); [right; left; split; [reflexivity|exact I]| |lia|exact Hold].
    cbn [idle_b wpc wround]. rewrite (proj2 (Nat.eqb_neq _ _) (Nat.neq_succ_diag_r (wr s))). lia.
  - (* WBlock *) destruct (Nat.eqb (wr s) r0); [split; [exact HB|split; reflexivity]|]. apply (wake_worker_phaseB k s HB).
  - (* WFetch *) rewrite Hu. split; [|split; reflexivity].
    apply (replace_worker s l1 _ l2 _ _ _ _ Hl HB); [right; left; split; [reflexivity|exact I]|reflexivity|lia|].
    apply fetch_perm. exact Hold.
  - (* WGot *) destruct (Nat.ltb_spec i (len s)) as [E|E]; rewrite Hu; (split; [|split; reflexivity]);
      (apply (replace_worker s l1 _ l2 _ _ _ _ Hl HB); [right; left; split; [reflexivity|exact I]|reflexivity|lia|]).
    + apply got_perm; assumption.
    + rewrite got_drop in Hold by lia. exact Hold.
  - (* WSignal *) rewrite Hu. split; [|split; reflexivity].
    apply (replace_worker s l1 _ l2 _ _ _ _ Hl HB); [right; right; apply Nat.eqb_refl| |lia|exact Hold].
    cbn [idle_b wpc wround]. rewrite Nat.eqb_refl. lia.
Qed.

(* while the master is between two apply() calls (or publishing the next one) workers can only move to their wait *)
Definition keeps_phaseA (f : state -> state) : Prop := forall s, Forall (idle_at (wr s)) (ws s) ->
  Forall (idle_at (wr s)) (ws (f s)) /\ mpc (f s) = mpc s /\ done (f s) = done s
  /\ ci (f s) = ci s /\ tc (f s) = tc s /\ applied (f s) = applied s /\ wr (f s) = wr s.

Lemma wait_block_phaseA : forall s k w p', Forall (idle_at (wr s)) (ws s) -> nth_error (ws s) k = Some w ->
  wb (wpc w) = true -> wb p' = true -> Forall (idle_at (wr s)) (upd k (mkW p' (wround w)) (ws s)).
Proof.
  intros s k w p' HF En Hw Hp. destruct (upd_decomp _ _ _ En) as (l1 & l2 & Hl & Hu). rewrite Hu.
  rewrite Hl in HF. apply Forall_app in HF. destruct HF as [F1 F2]. inv F2.
  apply Forall_app. split; [exact F1|]. constructor; [|assumption]. apply idle_wait_block; assumption.
Qed.
Lemma wake_worker_phaseA : forall k, keeps_phaseA (fun s => wake_worker as_written s k).
Proof.
  intros k s HF. unfold wake_worker. destruct (nth_error (ws s) k) as [w|] eqn:En; [|repeat split; exact HF].
  destruct (wpc w) eqn:Ep; try (repeat split; exact HF). cbn [w_loop as_written]. unfold set_w. simp. repeat split.
  apply wait_block_phaseA; [exact HF|exact En|rewrite Ep; reflexivity|reflexivity].
Qed.
Lemma step_worker_phaseA : forall k, keeps_phaseA (fun s => step_worker as_written s k).
Proof.
  intros k s HF. unfold step_worker. destruct (nth_error (ws s) k) as [w|] eqn:En; [|repeat split; exact HF].
  destruct (upd_decomp _ _ _ En) as (l1 & l2 & Hl & Hu). pose proof HF as HF'. rewrite Hl in HF'. apply Forall_app in HF'. destruct HF' as [F1 F2]. inv F2.
  unfold idle_at, idle_b in H1. destruct (wpc w) eqn:Ep; try discriminate.
  - cbn. repeat split. rewrite Hu. apply Forall_app. split; [exact F1|]. constructor; [|exact H2].
    unfold idle_at, idle_b. cbn. apply Nat.eqb_eq in H1. apply Nat.eqb_eq. lia.
  - apply Nat.eqb_eq in H1. replace (Nat.eqb (wr s) (wround w)) with false by (symmetry; apply Nat.eqb_neq; lia).
    unfold set_w. simp. repeat split.
    apply wait_block_phaseA; [exact HF|exact En|rewrite Ep; reflexivity|reflexivity].
  - destruct (Nat.eqb (wr s) r); [repeat split; exact HF|]. apply (wake_worker_phaseA k s HF).
Qed.

(* anything a worker does (a step, or a wait that returns) preserves the invariant *)
Lemma worker_like_inv : forall f, keeps_phaseA f -> keeps_phaseB f -> forall s, Inv s -> Inv (f s).
Proof.
  intros f FA FB s [Hd HI]. unfold Inv, done_ok in *.
  destruct (mpc s) eqn:Em; try (destruct (FB s HI) as (B1 & B2 & B3); rewrite B2, B3, Em; split; assumption).
  - destruct (FA s HI) as (A1 & A2 & A3 & A4 & A5 & A6 & A7). rewrite A2, A3, Em, A7. split; assumption.
  - destruct HI as (H1 & H2 & H3). destruct (FA s H1) as (A1 & A2 & A3 & A4 & A5 & A6 & A7).
    rewrite A2, A3, Em, A4, A6, A7. repeat split; assumption.
  - destruct HI as (H1 & H2 & H3 & H4). destruct (FA s H1) as (A1 & A2 & A3 & A4 & A5 & A6 & A7).
    rewrite A2, A3, Em, A4, A5, A6, A7. repeat split; assumption.
Qed.
Lemma step_worker_inv : forall s k, Inv s -> Inv (step_worker as_written s k).
Proof. intros s k. apply (worker_like_inv _ (step_worker_phaseA k) (step_worker_phaseB k)). Qed.
Lemma wake_worker_inv : forall s k, Inv s -> Inv (wake_worker as_written s k).
Proof. intros s k. apply (worker_like_inv _ (wake_worker_phaseA k) (wake_worker_phaseB k)). Qed.

Lemma step_inv : forall s e, Inv s -> Inv (step as_written s e).
Proof.
  intros s [[|k]|[|k]] HI; cbn [step];
    [apply step_master_inv|apply step_worker_inv|apply wake_master_inv|apply wake_worker_inv]; exact HI.
Qed.

Lemma init_inv : forall nw applies, Inv (init nw applies).
Proof.
  intros nw applies. split; [constructor|]. cbn. apply Forall_forall. intros w Hw. apply repeat_spec in Hw. subst w. reflexivity.
Qed.

Theorem run_inv : forall sched s, Inv s -> Inv (run sched s).
Proof. intros sched s. exact (fold_left_inv _ Inv step_inv sched s). Qed.

(** every completed apply() processed each of its elements exactly once, whatever the schedule *)
Theorem each_once_per_round : forall nw applies sched,
  Forall (fun d => Permutation (snd d) (seq 0 (fst d))) (done (run sched (init nw applies))).
Proof. intros nw applies sched. apply (run_inv sched (init nw applies) (init_inv nw applies)). Qed.

(* in terms of the counters the driver observes *)
Lemma count_perm : forall j l l', Permutation l l' -> length (filter (Nat.eqb j) l) = length (filter (Nat.eqb j) l').
Proof.
  intros j l l' H. induction H; cbn; try lia.
  - destruct (Nat.eqb j x); cbn; lia.
  - destruct (Nat.eqb j x), (Nat.eqb j y); cbn; lia.
Qed.
Lemma count_seq_out : forall j s n, j < s -> length (filter (Nat.eqb j) (seq s n)) = 0.
Proof.
  intros j s n. revert s. induction n as [|n IH]; intros s H; [reflexivity|]. cbn [seq filter].
  replace (Nat.eqb j s) with false by (symmetry; apply Nat.eqb_neq; lia). apply IH. lia.
Qed.
Lemma count_seq : forall j s n, s <= j < s + n -> length (filter (Nat.eqb j) (seq s n)) = 1.
Proof.
  intros j s n. revert s. induction n as [|n IH]; intros s H; [lia|]. cbn [seq filter].
  destruct (Nat.eqb j s) eqn:E.
  - apply Nat.eqb_eq in E. subst j. cbn [length]. rewrite count_seq_out by lia. reflexivity.
  - apply Nat.eqb_neq in E. apply IH. lia.
Qed.
Theorem counts_all_one : forall nw applies sched d,
  In d (done (run sched (init nw applies))) -> counts (fst d) (snd d) = repeat 1 (fst d).
Proof.
  intros nw applies sched d Hd. pose proof (each_once_per_round nw applies sched) as H. rewrite Forall_forall in H.
  specialize (H d Hd). unfold counts.
  assert (G : forall s n, (forall j, s <= j < s + n -> length (filter (Nat.eqb j) (snd d)) = 1) ->
                          map (fun j => length (filter (Nat.eqb j) (snd d))) (seq s n) = repeat 1 n).
  { intros s n. revert s. induction n as [|n IH]; intros s Hj; [reflexivity|]. cbn. f_equal; [apply Hj; lia|].
    apply IH. intros j Hjr. apply Hj. lia. }
  apply G. intros j Hj. rewrite (count_perm j _ _ H). apply count_seq. lia.
Qed.

Theorem each_once_spec : forall v, each_once v = true <-> v = repeat 1 (length v).
Proof.
  induction v as [|c r IH]; [cbn; split; reflexivity|]. unfold each_once in *. cbn [forallb length repeat].
  rewrite andb_true_iff, IH. split.
  - intros [H1 H2]. apply Nat.eqb_eq in H1. subst c. f_equal. exact H2.
  - intro H. inv H. split; [reflexivity|]. rewrite <- H2. exact H2.
Qed.

(* the master cannot be between two apply() calls while a worker is still inside one:
   when apply() has returned, every worker has signalled the current round and waits for the next *)
Theorem round_barrier : forall nw applies sched,
  let s := run sched (init nw applies) in
  mpc s = MIdle -> Forall (idle_at (wr s)) (ws s).
Proof.
  intros nw applies sched s Hm. destruct (run_inv sched (init nw applies) (init_inv nw applies)) as [_ H].
  fold s in H. rewrite Hm in H. exact H.
Qed.

(* the completed apply() calls are the requested ones, in order *)
Definition pending (s : state) : list nat := match mpc s with MIdle => [] | _ => [len s] end.
Definition order_of (s : state) : list nat := rev (map fst (done s)) ++ pending s ++ todo s.
Lemma wake_master_order : forall s, order_of (wake_master as_written s) = order_of s.
Proof. intro s. unfold wake_master, order_of, pending. destruct (mpc s) eqn:Em; cbn; rewrite ?Em; reflexivity. Qed.
Lemma wake_worker_order : forall s k, order_of (wake_worker as_written s k) = order_of s.
Proof.
  intros s k. unfold wake_worker, order_of, pending. destruct (nth_error (ws s) k) as [w|]; [|reflexivity].
  destruct (wpc w); reflexivity.
Qed.
Lemma step_order : forall s e, order_of (step as_written s e) = order_of s.
Proof.
  intros s [[|k]|[|k]]; cbn [step]; [| |apply wake_master_order|apply wake_worker_order].
  - unfold step_master. destruct (mpc s) eqn:Em; try (unfold order_of, pending; rewrite ?Em; reflexivity).
    + unfold order_of, pending. destruct (todo s) eqn:Et; cbn; rewrite ?Em, ?Et; reflexivity.
    + unfold order_of, pending. destruct (Nat.ltb i (len s)); cbn; rewrite ?Em; reflexivity.
    + unfold order_of, pending, master_return, set_mpc. destruct (Nat.leb (S (length (ws s))) (tc s)); cbn; rewrite ?Em;
        [rewrite <- app_assoc|]; reflexivity.
    + destruct (Nat.eqb (tc s) c); [reflexivity|apply wake_master_order].
  - unfold step_worker. destruct (nth_error (ws s) k) as [w|] eqn:En; [|reflexivity].
    destruct (wpc w); try reflexivity.
    + destruct (Nat.eqb (wr s) (wround w)); reflexivity.
    + destruct (Nat.eqb (wr s) r); [reflexivity|apply wake_worker_order].
    + destruct (Nat.ltb i (len s)); reflexivity.
Qed.
Theorem rounds_in_order : forall nw applies sched,
  let s := run sched (init nw applies) in
  rev (map fst (done s)) ++ pending s ++ todo s = applies.
Proof.
  intros nw applies sched. change (order_of (run sched (init nw applies)) = applies).
  apply (fold_left_inv _ (fun s => order_of s = applies)); [|reflexivity]. intros s e <-. apply step_order.
Qed.

(** * the theorems are sensitive to the re-check: with a single, non-rechecked wait they fail *)
(* 2 threads, one apply() on 2 elements.  The worker takes element 1 and is still inside the user function when the
   master, having processed element 0, finds thread_counter = 1 < 2 and blocks; its wait returns spuriously (EINTR) and
   apply() returns: element 1 has been processed 0 times, and the worker is still inside round 1. *)
Definition single_master_wait : variant := mkV false true.
Definition single_worker_wait : variant := mkV true false.
Definition sched_eintr : list ev :=
  [Step 0; Step 0; Step 0; Step 0; Step 1; Step 1; Step 1; Step 0; Step 0; Step 0; Step 0; Spurious 0].
Lemma single_wait_eintr :
  let s := run_v single_master_wait sched_eintr (init 2 [2]) in
  mpc s = MIdle /\ done s = [(2, [0])] /\ ws s = [mkW (WGot 1) 1] /\ wr s = 1.
Proof. vm_compute. repeat split. Qed.
(* 3 threads, no spurious event at all: worker 1 finishes between the master's load of thread_counter (1) and its
   futex_wait(&thread_counter, 1), which therefore returns at once (EAGAIN) while worker 2 still holds element 2 *)
Definition sched_eagain : list ev :=
  [Step 0; Step 0; Step 0; Step 1; Step 1; Step 2; Step 2; Step 0; Step 1; Step 2; Step 0; Step 0; Step 0; Step 0;
   Step 1; Step 1; Step 1; Step 1; Step 0].
Lemma single_wait_eagain :
  let s := run_v single_master_wait sched_eagain (init 3 [3]) in
  mpc s = MIdle /\ done s = [(3, [1; 0])] /\ nth_error (ws s) 1 = Some (mkW (WGot 2) 1).
Proof. vm_compute. repeat split. Qed.
