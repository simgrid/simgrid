(** C50 — xbt_dict refines a finite map, for any hash function.
    Abstraction: [get d : K -> option Z].  The theorems at the end are the finite-map laws (empty / set / remove /
    length / enumeration) for the concrete bucket-array model, rehash included. *)
From SGV Require Import Base.PlainLia Base.Facts Xbt.Dict.
Local Open Scope Z_scope.

Section DictProofs.
Variable K : Type.
Variable keqb : K -> K -> bool.
Variable hash : K -> Z.
Hypothesis keqb_eq : forall a b, keqb a b = true <-> a = b.

Local Notation dict := (Dict.dict K).
Local Notation bucket := (Dict.bucket K).
Local Notation bfind := (Dict.bfind K keqb).
Local Notation breplace := (Dict.breplace K keqb).
Local Notation bremove := (Dict.bremove K keqb).
Local Notation upd := (Dict.upd K).
Local Notation cell := (Dict.cell K hash).
Local Notation tsize := (Dict.tsize K).
Local Notation table := (Dict.table K).
Local Notation count := (Dict.count K).
Local Notation fill := (Dict.fill K).
Local Notation mkDict := (Dict.mkDict K).
Local Notation get := (Dict.get K keqb hash).
Local Notation set := (Dict.set K keqb hash).
Local Notation remove := (Dict.remove K keqb hash).
Local Notation rehash := (Dict.rehash K hash).
Local Notation enumerate := (Dict.enumerate K).
Local Notation empty := (Dict.empty K).
Local Notation stays := (Dict.stays K hash).
Local Notation moves := (Dict.moves K hash).
Local Notation stay_cells := (Dict.stay_cells K hash).
Local Notation twin_cells := (Dict.twin_cells K hash).

Lemma keqb_refl : forall k, keqb k k = true.
Proof. intro k. apply keqb_eq. reflexivity. Qed.
Lemma keqb_neq : forall a b, a <> b -> keqb a b = false.
Proof. intros a b H. destruct (keqb a b) eqn:E; [apply keqb_eq in E; contradiction|reflexivity]. Qed.
Lemma k_dec : forall a b : K, a = b \/ a <> b.
Proof. intros a b. destruct (keqb a b) eqn:E; [left; apply keqb_eq; exact E|right; intro H; apply keqb_eq in H; congruence]. Qed.

Lemma option_ext : forall (a b : option Z), (forall v, a = Some v <-> b = Some v) -> a = b.
Proof.
  intros [x|] [y|] H; try reflexivity.
  - apply H. reflexivity.
  - destruct (H x) as [H1 _]. specialize (H1 eq_refl). discriminate.
  - destruct (H y) as [_ H1]. specialize (H1 eq_refl). discriminate.
Qed.

Lemma bfind_none : forall k (b : bucket), bfind k b = None <-> ~ In k (map fst b).
Proof.
  intros k b. induction b as [|[k' v'] r IH]; cbn [Dict.bfind map fst In]; [tauto|].
  destruct (keqb k k') eqn:E.
  - apply keqb_eq in E. subst. split; [discriminate|]. intro H. exfalso. apply H. left. reflexivity.
  - rewrite IH. split; intro H; [intros [H1|H1]; [subst; rewrite keqb_refl in E; discriminate|tauto]|tauto].
Qed.
Lemma bfind_in : forall k v (b : bucket), NoDup (map fst b) -> (bfind k b = Some v <-> In (k, v) b).
Proof.
  intros k v b. induction b as [|[k' v'] r IH]; cbn [Dict.bfind map fst In]; intro Hn.
  - split; [discriminate|tauto].
  - inv Hn. destruct (keqb k k') eqn:E.
    + apply keqb_eq in E. subst k'. split; intro H.
      * inv H. left. reflexivity.
      * destruct H as [H|H]; [inv H; reflexivity|]. apply (in_map fst) in H. contradiction.
    + rewrite (IH H2). split; intro H; [right; exact H|].
      destruct H as [H|H]; [inv H; rewrite keqb_refl in E; discriminate|exact H].
Qed.

Lemma breplace_keys : forall k v (b : bucket), map fst (breplace k v b) = map fst b.
Proof.
  intros k v b. induction b as [|[k0 v0] r IH]; cbn [Dict.breplace]; [reflexivity|].
  destruct (keqb k k0); cbn [map fst]; [reflexivity|]. f_equal. exact IH.
Qed.
Lemma bfind_breplace : forall k v k' (b : bucket),
  bfind k' (breplace k v b) = if keqb k' k then option_map (fun _ => v) (bfind k b) else bfind k' b.
Proof.
  intros k v k' b. induction b as [|[k0 v0] r IH]; cbn [Dict.breplace Dict.bfind]; [destruct (keqb k' k); reflexivity|].
  destruct (keqb k k0) eqn:E; cbn [Dict.bfind].
  - apply keqb_eq in E. subst k0. destruct (keqb k' k); reflexivity.
  - rewrite IH. destruct (keqb k' k0) eqn:E0; [|reflexivity]. apply keqb_eq in E0. subst k0.
    rewrite (keqb_neq k' k); [reflexivity|]. intro H. subst k'. rewrite keqb_refl in E. discriminate.
Qed.
Lemma bfind_app : forall k (b r : bucket),
  bfind k (b ++ r) = match bfind k b with Some x => Some x | None => bfind k r end.
Proof. intros k b r. induction b as [|[k0 v0] b IH]; cbn [app Dict.bfind]; [reflexivity|]. destruct (keqb k k0); [reflexivity|exact IH]. Qed.
Lemma bremove_keys : forall k (b : bucket), NoDup (map fst b) ->
  NoDup (map fst (bremove k b)) /\ incl (map fst (bremove k b)) (map fst b).
Proof.
  intros k b. induction b as [|[k0 v0] r IH]; cbn [Dict.bremove map fst]; intro Hn; [split; [exact Hn|apply incl_refl]|].
  inv Hn. destruct (keqb k k0); [split; [exact H2|apply incl_tl, incl_refl]|].
  destruct (IH H2) as [I1 I2]. cbn [map fst]. split; [|apply incl_cons; [left; reflexivity|apply incl_tl; exact I2]].
  constructor; [|exact I1]. intro H. apply H1, I2, H.
Qed.
Lemma bfind_bremove : forall k k' (b : bucket), NoDup (map fst b) ->
  bfind k' (bremove k b) = if keqb k' k then None else bfind k' b.
Proof.
  intros k k' b. induction b as [|[k0 v0] r IH]; cbn [Dict.bremove Dict.bfind map fst]; intro Hn; [destruct (keqb k' k); reflexivity|].
  inv Hn. destruct (keqb k k0) eqn:E; cbn [Dict.bfind].
  - apply keqb_eq in E. subst k0. destruct (keqb k' k) eqn:E'; [|reflexivity].
    apply keqb_eq in E'. subst k'. apply bfind_none. exact H1.
  - rewrite (IH H2). destruct (keqb k' k0) eqn:E0; [|reflexivity]. apply keqb_eq in E0. subst k0.
    rewrite (keqb_neq k' k); [reflexivity|]. intro H. subst k'. rewrite keqb_refl in E. discriminate.
Qed.
Lemma bremove_length : forall k (b : bucket), bfind k b <> None -> S (length (bremove k b)) = length b.
Proof.
  intros k b. induction b as [|[k0 v0] r IH]; cbn [Dict.bfind Dict.bremove length]; [congruence|].
  destruct (keqb k k0); [reflexivity|]. intro H. cbn [length]. f_equal. exact (IH H).
Qed.

Lemma upd_length : forall i b (t : list bucket), length (upd i b t) = length t.
Proof. intros i b t. revert i. induction t as [|x r IH]; intros [|i]; cbn; try reflexivity. f_equal. apply IH. Qed.
Lemma nth_error_upd : forall (t : list bucket) i j b, (i < length t)%nat ->
  nth_error (upd i b t) j = if Nat.eqb j i then Some b else nth_error t j.
Proof.
  induction t as [|x r IH]; intros i j b Hi; [cbn in Hi; lia|].
  destruct i as [|i]; destruct j as [|j]; cbn; try reflexivity.
  apply IH. cbn in Hi. lia.
Qed.
Lemma nth_upd : forall (t : list bucket) i j b, (i < length t)%nat -> (j < length t)%nat ->
  nth j (upd i b t) [] = if Nat.eqb j i then b else nth j t [].
Proof.
  intros t i j b Hi Hj. apply nth_error_nth. rewrite nth_error_upd by exact Hi.
  destruct (Nat.eqb j i); [reflexivity|apply nth_error_nth'; exact Hj].
Qed.
Lemma concat_upd_length : forall (t : list bucket) i b, (i < length t)%nat ->
  (length (concat (upd i b t)) + length (nth i t []) = length (concat t) + length b)%nat.
Proof.
  induction t as [|x r IH]; intros i b Hi; [cbn in Hi; lia|].
  destruct i as [|i]; cbn [Dict.upd concat nth]; rewrite !app_length; [lia|].
  cbn in Hi. specialize (IH i b). lia.
Qed.
Lemma in_concat_nth : forall (e : K * Z) (t : list bucket),
  In e (concat t) <-> exists j b, nth_error t j = Some b /\ In e b.
Proof.
  intros e t. rewrite in_concat. split.
  - intros [b [H1 H2]]. apply In_nth_error in H1. destruct H1 as [j H1]. exists j, b. tauto.
  - intros [j [b [H1 H2]]]. exists b. split; [eapply nth_error_In; exact H1|exact H2].
Qed.

Definition DInv (d : dict) : Prop :=
  (exists p, 0 <= p /\ tsize d = 2 ^ p) /\
  (forall i b, nth_error (table d) i = Some b ->
     NoDup (map fst b) /\ forall e, In e b -> cell (tsize d) (fst e) = i) /\
  count d = Z.of_nat (length (concat (table d))).

Definition G (d : dict) (k : K) (v : Z) : Prop := In (k, v) (concat (table d)).

(* the mask [sz - 1] is not negative, so the cell index is the masked hash whatever the sign of the hash *)
Lemma cell_land : forall sz k, 0 < sz -> Z.of_nat (cell sz k) = Z.land (hash k) (sz - 1).
Proof. intros sz k H. apply Z2Nat.id, Z.land_nonneg. right. lia. Qed.
Lemma land_mask : forall h p, 0 <= p -> Z.land h (2 ^ p - 1) = h mod 2 ^ p.
Proof. intros h p Hp. rewrite <- Z.land_ones, Z.ones_equiv by exact Hp. reflexivity. Qed.
Lemma cell_mod : forall p k, 0 <= p -> Z.of_nat (cell (2 ^ p) k) = hash k mod 2 ^ p.
Proof. intros p k Hp. rewrite cell_land by (apply Z.pow_pos_nonneg; lia). apply land_mask, Hp. Qed.

Lemma cell_lt : forall d k, DInv d -> (cell (tsize d) k < length (table d))%nat.
Proof.
  intros d k ((p & Hp & Hs) & _). apply Nat2Z.inj_lt. fold (tsize d). rewrite Hs, cell_mod by exact Hp.
  apply Z.mod_pos_bound, Z.pow_pos_nonneg; lia.
Qed.
Lemma cell_bucket : forall d k, DInv d ->
  nth_error (table d) (cell (tsize d) k) = Some (nth (cell (tsize d) k) (table d) []).
Proof. intros d k HI. apply nth_error_nth'. apply cell_lt. exact HI. Qed.

Lemma G_bucket : forall d k v, DInv d -> (G d k v <-> In (k, v) (nth (cell (tsize d) k) (table d) [])).
Proof.
  intros d k v HI. unfold G. rewrite in_concat_nth. split.
  - intros (j & b & H1 & H2). destruct HI as (_ & P2 & _). destruct (P2 j b H1) as [_ Hc].
    specialize (Hc _ H2). cbn [fst] in Hc. subst j. rewrite (nth_error_nth _ _ _ H1). exact H2.
  - intro H. eexists. eexists. split; [apply cell_bucket; exact HI|exact H].
Qed.
Lemma get_iff : forall d k v, DInv d -> (get d k = Some v <-> G d k v).
Proof.
  intros d k v HI. rewrite G_bucket by exact HI. unfold Dict.get. apply bfind_in.
  pose proof HI as (_ & P2 & _). eapply P2. apply cell_bucket. exact HI.
Qed.

(* replacing the bucket of [k]'s cell by one in which only key [k] is looked up differently *)
Lemma upd_cell : forall d k (b' : bucket) cnt fl,
  DInv d ->
  let c := cell (tsize d) k in
  let b := nth c (table d) [] in
  NoDup (map fst b') ->
  (forall k', k' <> k -> bfind k' b' = bfind k' b) ->
  cnt + Z.of_nat (length b) = count d + Z.of_nat (length b') ->
  let d' := mkDict (upd c b' (table d)) cnt fl in
  DInv d' /\ get d' k = bfind k b' /\ forall k', k' <> k -> get d' k' = get d k'.
Proof.
  intros d k b' cnt fl HI c b Hn Hb Hc d'.
  pose proof (cell_lt d k HI) as Hlt. fold c in Hlt. pose proof HI as (P1 & P2 & P3).
  assert (Hts : tsize d' = tsize d) by (unfold Dict.tsize, d'; cbn [Dict.table]; rewrite upd_length; reflexivity).
  assert (Hget : forall k', get d' k' = if Nat.eqb (cell (tsize d) k') c then bfind k' b' else get d k').
  { intro k'. unfold Dict.get. rewrite Hts. unfold d'. cbn [Dict.table]. rewrite nth_upd by (exact Hlt || apply cell_lt, HI).
    destruct (Nat.eqb (cell (tsize d) k') c); reflexivity. }
  split; [split; [|split]|split].
  - rewrite Hts. exact P1.
  - intros i bi Hi. unfold d' in Hi. cbn [Dict.table] in Hi. rewrite nth_error_upd in Hi by exact Hlt. rewrite Hts.
    destruct (Nat.eqb_spec i c) as [->|_]; [|apply P2; exact Hi]. inv Hi. split; [exact Hn|]. intros [k' v'] He. cbn [fst].
    destruct (k_dec k' k) as [->|Hne]; [reflexivity|].
    destruct (P2 c b (cell_bucket d k HI)) as [Hnb Hcell]. apply (Hcell (k', v')), (bfind_in _ _ _ Hnb).
    rewrite <- (Hb k' Hne). apply bfind_in; assumption.
  - unfold d'. cbn [Dict.count Dict.table]. pose proof (concat_upd_length (table d) c b' Hlt) as Hl. fold b in Hl. lia.
  - rewrite Hget. unfold c. rewrite Nat.eqb_refl. reflexivity.
  - intros k' Hne. rewrite Hget. destruct (Nat.eqb_spec (cell (tsize d) k') c) as [E|_]; [|reflexivity].
    unfold Dict.get. rewrite E. apply Hb, Hne.
Qed.

Lemma cell_double : forall p k, 0 <= p ->
  cell (2 * 2 ^ p) k = cell (2 ^ p) k \/ cell (2 * 2 ^ p) k = (cell (2 ^ p) k + Z.to_nat (2 ^ p))%nat.
Proof.
  intros p k Hp. pose proof (cell_mod p k Hp) as H1. pose proof (cell_mod (Z.succ p) k (Z.le_le_succ_r _ _ Hp)) as H2.
  rewrite Z.pow_succ_r in H2 by exact Hp. rewrite (Z.mul_comm 2) in H2 at 2. rewrite Z.rem_mul_r, <- H1 in H2 by lia.
  assert (Hpos : 0 < 2 ^ p) by (apply Z.pow_pos_nonneg; lia).
  pose proof (Z.mod_pos_bound (hash k / 2 ^ p) 2 eq_refl) as Hb.
  assert (E : (hash k / 2 ^ p) mod 2 = 0 \/ (hash k / 2 ^ p) mod 2 = 1) by lia.
  destruct E as [E|E]; rewrite E in H2; [left|right]; lia.
Qed.
Lemma stays_cell : forall sz i (e : K * Z), 0 < sz -> (stays (sz - 1) (Z.of_nat i) e = true <-> cell sz (fst e) = i).
Proof. intros sz i e H. unfold Dict.stays. rewrite Z.eqb_eq, <- cell_land by exact H. apply Nat2Z.inj_iff. Qed.

Lemma stay_cells_length : forall m s (t : list bucket), length (stay_cells m s t) = length t.
Proof. intros m s t. revert s. induction t as [|b r IH]; intro s; cbn; [reflexivity|]. f_equal. apply IH. Qed.
Lemma twin_cells_length : forall m s (t : list bucket), length (twin_cells m s t) = length t.
Proof. intros m s t. revert s. induction t as [|b r IH]; intro s; cbn; [reflexivity|]. f_equal. apply IH. Qed.
Lemma tsize_rehash : forall d, tsize (rehash d) = 2 * tsize d.
Proof. intro d. unfold Dict.tsize, Dict.rehash. cbn [Dict.table]. rewrite app_length, stay_cells_length, twin_cells_length. lia. Qed.
Lemma nth_error_stay : forall m (t : list bucket) s i,
  nth_error (stay_cells m s t) i = option_map (filter (stays m (s + Z.of_nat i))) (nth_error t i).
Proof.
  intros m t. induction t as [|b r IH]; intros s i; destruct i as [|i]; cbn [Dict.stay_cells nth_error option_map]; try reflexivity.
  - rewrite Z.add_0_r. reflexivity.
  - rewrite IH. replace (s + 1 + Z.of_nat i) with (s + Z.of_nat (S i)) by lia. reflexivity.
Qed.
Lemma nth_error_twin : forall m (t : list bucket) s i,
  nth_error (twin_cells m s t) i = option_map (fun b => rev (filter (moves m (s + Z.of_nat i)) b)) (nth_error t i).
Proof.
  intros m t. induction t as [|b r IH]; intros s i; destruct i as [|i]; cbn [Dict.twin_cells nth_error option_map]; try reflexivity.
  - rewrite Z.add_0_r. reflexivity.
  - rewrite IH. replace (s + 1 + Z.of_nat i) with (s + Z.of_nat (S i)) by lia. reflexivity.
Qed.
Lemma split_in : forall (e : K * Z) m (t : list bucket) s,
  In e (concat (stay_cells m s t)) \/ In e (concat (twin_cells m s t)) <-> In e (concat t).
Proof.
  intros e m t. induction t as [|b r IH]; intro s; cbn [Dict.stay_cells Dict.twin_cells concat]; [cbn; tauto|].
  rewrite !in_app_iff, <- (IH (s + 1)), <- in_rev, !filter_In. unfold Dict.moves.
  destruct (stays m s e); cbn [negb]; intuition congruence.
Qed.
Lemma filter_split_length : forall (p : K * Z -> bool) (b : bucket),
  (length (filter p b) + length (filter (fun e => negb (p e)) b) = length b)%nat.
Proof. intros p b. induction b as [|e r IH]; cbn; [reflexivity|]. destruct (p e); cbn; lia. Qed.
Lemma split_length : forall m (t : list bucket) s,
  (length (concat (stay_cells m s t)) + length (concat (twin_cells m s t)) = length (concat t))%nat.
Proof.
  intros m t. induction t as [|b r IH]; intro s; cbn [Dict.stay_cells Dict.twin_cells concat]; [reflexivity|].
  rewrite !app_length, rev_length. specialize (IH (s + 1)).
  pose proof (filter_split_length (stays m s) b) as H. unfold Dict.moves. lia.
Qed.
Lemma NoDup_map_filter : forall (p : K * Z -> bool) (b : bucket), NoDup (map fst b) -> NoDup (map fst (filter p b)).
Proof.
  intros p b. induction b as [|e r IH]; cbn; intro H; [constructor|]. inv H.
  destruct (p e); cbn; [constructor|]; try (apply IH; assumption).
  intro Hin. apply in_map_iff in Hin. destruct Hin as [x [Hx1 Hx2]]. apply filter_In in Hx2. destruct Hx2 as [Hx2 _].
  apply H2. rewrite <- Hx1. apply in_map. exact Hx2.
Qed.

Lemma rehash_G : forall d k v, G (rehash d) k v <-> G d k v.
Proof. intros d k v. unfold G, Dict.rehash. cbn [Dict.table]. rewrite concat_app, in_app_iff. apply split_in. Qed.
Lemma rehash_inv : forall d, DInv d -> DInv (rehash d).
Proof.
  intros d HI. pose proof HI as ((p & Hp & Hs) & P2 & P3).
  assert (Hpos : 0 < 2 * tsize d) by (rewrite Hs; apply Z.mul_pos_pos, Z.pow_pos_nonneg; lia).
  split; [|split].
  - exists (Z.succ p). split; [lia|]. rewrite tsize_rehash, Hs, Z.pow_succ_r by exact Hp. reflexivity.
  - intros i b Hi. rewrite tsize_rehash. unfold Dict.rehash in Hi. cbn [Dict.table] in Hi.
    destruct (Nat.ltb_spec i (length (table d))) as [E|E].
    + rewrite nth_error_app1, nth_error_stay in Hi by (rewrite stay_cells_length; exact E).
      destruct (nth_error (table d) i) as [b0|] eqn:E0; [|discriminate]. inv Hi.
      split; [apply NoDup_map_filter, (P2 i b0 E0)|].
      intros e He. apply filter_In in He. apply (stays_cell _ _ _ Hpos), He.
    + rewrite nth_error_app2, stay_cells_length, nth_error_twin in Hi by (rewrite stay_cells_length; exact E).
      destruct (nth_error (table d) (i - length (table d))) as [b0|] eqn:E0; [|discriminate]. inv Hi.
      destruct (P2 _ b0 E0) as [Hn Hc]. split; [rewrite map_rev; apply NoDup_rev, NoDup_map_filter, Hn|].
      intros e He. apply in_rev, filter_In in He. destruct He as [He1 He2]. specialize (Hc e He1).
      apply negb_true_iff, not_true_iff_false in He2. rewrite (stays_cell _ _ _ Hpos) in He2.
      rewrite Hs in *. unfold Dict.tsize in Hs. destruct (cell_double p (fst e) Hp); lia.
  - unfold Dict.rehash. cbn [Dict.count Dict.table]. rewrite concat_app, app_length, P3.
    pose proof (split_length (2 * tsize d - 1) (table d) 0). lia.
Qed.
Lemma rehash_get : forall d k, DInv d -> get (rehash d) k = get d k.
Proof.
  intros d k HI. apply option_ext. intro v. rewrite !get_iff by (try apply rehash_inv; exact HI). apply rehash_G.
Qed.

Lemma empty_inv : DInv empty.
Proof.
  split; [|split].
  - exists 7. split; [lia|reflexivity].
  - intros i b Hi. unfold Dict.empty in Hi. cbn [Dict.table] in Hi. apply nth_error_In in Hi. apply repeat_spec in Hi.
    subst b. split; [constructor|intros e []].
  - reflexivity.
Qed.
Theorem get_empty : forall k, get empty k = None.
Proof. intro k. unfold Dict.get, Dict.empty. cbn [Dict.table]. rewrite nth_repeat. reflexivity. Qed.

Lemma set_laws : forall d k v, DInv d ->
  DInv (set d k v) /\ get (set d k v) k = Some v /\ (forall k', k' <> k -> get (set d k v) k' = get d k')
  /\ count (set d k v) = count d + match get d k with Some _ => 0 | None => 1 end.
Proof.
  intros d k v HI. destruct (proj1 (proj2 HI) _ _ (cell_bucket d k HI)) as [Hn _].
  unfold Dict.set. set (c := cell (tsize d) k) in *. set (b := nth c (table d) []) in *. change (get d k) with (bfind k b).
  destruct (bfind k b) as [x|] eqn:Ef.
  - destruct (upd_cell d k (breplace k v b) (count d) (fill d) HI) as (U1 & U2 & U3).
    + rewrite breplace_keys. exact Hn.
    + intros k' Hne. rewrite bfind_breplace, (keqb_neq _ _ Hne). reflexivity.
    + fold c b. rewrite <- (map_length fst (breplace k v b)), breplace_keys, map_length. reflexivity.
    + rewrite bfind_breplace, keqb_refl in U2. fold c b in U2. rewrite Ef in U2.
      split; [exact U1|]. split; [exact U2|]. split; [exact U3|]. cbn [Dict.count]. lia.
  - (* the new element goes to the end of the chain; a chain that was empty may trigger a rehash *)
    assert (A : forall fl, let d' := mkDict (upd c (b ++ [(k, v)]) (table d)) (count d + 1) fl in
                DInv d' /\ get d' k = Some v /\ forall k', k' <> k -> get d' k' = get d k').
    { intro fl. destruct (upd_cell d k (b ++ [(k, v)]) (count d + 1) fl HI) as (U1 & U2 & U3).
      - rewrite map_app. apply NoDup_snoc; [exact Hn|apply bfind_none, Ef].
      - intros k' Hne. fold c b. rewrite bfind_app. cbn [Dict.bfind]. rewrite (keqb_neq _ _ Hne). destruct (bfind k' b); reflexivity.
      - fold c b. rewrite app_length. cbn [length]. lia.
      - rewrite bfind_app, Ef in U2. cbn [Dict.bfind] in U2. rewrite keqb_refl in U2. exact (conj U1 (conj U2 U3)). }
    destruct b as [|e0 b0]; [|destruct (A (fill d)) as (A1 & A2 & A3); tauto].
    specialize (A (fill d + 1)). cbn [app] in A. set (d1 := mkDict _ _ _) in *. destruct A as (A1 & A2 & A3).
    destruct (fill d1 * 100 / tsize d1 >? 80); [|tauto].
    split; [apply rehash_inv, A1|]. rewrite !rehash_get by exact A1. split; [exact A2|].
    split; [intros k' Hne; rewrite rehash_get by exact A1; apply A3, Hne|reflexivity].
Qed.

Theorem set_inv : forall d k v, DInv d -> DInv (set d k v).
Proof. intros d k v HI. apply set_laws, HI. Qed.
Theorem get_set_same : forall d k v, DInv d -> get (set d k v) k = Some v.
Proof. intros d k v HI. apply set_laws, HI. Qed.
Theorem get_set_other : forall d k v k', DInv d -> k' <> k -> get (set d k v) k' = get d k'.
Proof. intros d k v k' HI. apply set_laws, HI. Qed.
Theorem count_set : forall d k v, DInv d ->
  count (set d k v) = count d + match get d k with Some _ => 0 | None => 1 end.
Proof. intros d k v HI. apply set_laws, HI. Qed.

Theorem remove_spec : forall d k, DInv d ->
  match remove d k with
  | None => get d k = None
  | Some d' => get d k <> None /\ DInv d' /\ get d' k = None /\ (forall k', k' <> k -> get d' k' = get d k')
               /\ count d' = count d - 1
  end.
Proof.
  intros d k HI. destruct (proj1 (proj2 HI) _ _ (cell_bucket d k HI)) as [Hn _].
  unfold Dict.remove. set (c := cell (tsize d) k) in *. set (b := nth c (table d) []) in *. change (get d k) with (bfind k b).
  destruct (bfind k b) as [x|] eqn:Ef; [|reflexivity]. split; [discriminate|].
  destruct (upd_cell d k (bremove k b) (count d - 1) (fill d - (if Dict.nonempty K (bremove k b) then 0 else 1)) HI)
    as (U1 & U2 & U3).
  - apply bremove_keys, Hn.
  - intros k' Hne. rewrite bfind_bremove, (keqb_neq _ _ Hne) by exact Hn. reflexivity.
  - fold c b. rewrite <- (bremove_length k b) by congruence. lia.
  - rewrite bfind_bremove, keqb_refl in U2 by exact Hn. tauto.
Qed.

Lemma NoDup_keys_app : forall (b r : bucket), NoDup (map fst b) -> NoDup (map fst r) ->
  (forall e e', In e b -> In e' r -> fst e <> fst e') -> NoDup (map fst (b ++ r)).
Proof.
  intros b r Hb Hr Hd. rewrite map_app. apply NoDup_app_disj; [exact Hb|exact Hr|].
  intros x (e & <- & He)%in_map_iff (e' & E & He')%in_map_iff. exact (Hd e e' He He' (eq_sym E)).
Qed.

Theorem enumerate_spec : forall d, DInv d ->
  NoDup (map fst (enumerate d)) /\ (forall k v, In (k, v) (enumerate d) <-> get d k = Some v)
  /\ count d = Z.of_nat (length (enumerate d)).
Proof.
  intros d HI. pose proof HI as (P1 & P2 & P3). split; [|split].
  - unfold Dict.enumerate.
    assert (Hgen : forall (t : list bucket) s,
      (forall i b, nth_error t i = Some b -> NoDup (map fst b) /\ forall e, In e b -> cell (tsize d) (fst e) = (s + i)%nat) ->
      NoDup (map fst (concat t))).
    { induction t as [|b r IH]; intros s H; [constructor|]. cbn [concat].
      destruct (H 0%nat b eq_refl) as [Hn Hc].
      assert (Hr : NoDup (map fst (concat r))).
      { apply (IH (S s)). intros i bi Hi. destruct (H (S i) bi Hi) as [H1 H2]. split; [exact H1|]. intros e He. rewrite (H2 e He). lia. }
      apply NoDup_keys_app; [exact Hn|exact Hr|]. intros e e' He He' Heq.
      apply in_concat_nth in He'. destruct He' as (j & bj & Hj1 & Hj2).
      destruct (H (S j) bj Hj1) as [_ Hj3]. specialize (Hj3 _ Hj2). specialize (Hc _ He). rewrite Heq in Hc. lia. }
    apply (Hgen (table d) 0%nat). exact P2.
  - intros k v. symmetry. apply get_iff. exact HI.
  - exact P3.
Qed.
End DictProofs.

(** the instance run by the correspondence *)
Lemma leqb_eq : forall a b, leqb a b = true <-> a = b.
Proof.
  induction a as [|x a IH]; intros [|y b]; cbn; split; intro H; try reflexivity; try discriminate.
  - apply andb_true_iff in H. destruct H as [H1 H2]. apply IH in H2. f_equal; [lia|exact H2].
  - inv H. apply andb_true_iff. split; [lia|apply IH; reflexivity].
Qed.
Lemma djb2_nonneg : forall s, 0 <= djb2 s.
Proof.
  intro s. unfold djb2. assert (H : forall l h, 0 <= h -> 0 <= fold_left (fun h c => (h * 33 + c) mod 2 ^ 32) l h).
  { induction l as [|c r IH]; intros h Hh; cbn [fold_left]; [exact Hh|]. apply IH. apply Z.mod_pos_bound. lia. }
  apply H. lia.
Qed.
