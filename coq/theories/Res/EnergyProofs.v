(** C23 — proofs about SGV.Res.Energy: an update adds power * elapsed time ([update_step]), so a period adds power * its
    duration however many calls fall into it ([period_run]), and a timeline adds [energy_spec]. *)
From Coq Require Import QArith Lqa.
From SGV Require Import Base.PlainLia Res.NetFormula Res.ActionProofs Res.NetFormulaProofs Res.Energy.
Local Open Scope Q_scope.

Section Host.
Variable c : hcfg.

Lemma update_step s k t d :
  e_last s == t -> 0 <= d -> c_now k == t + d ->
  e_total (update c s k) == e_total s + watts c (e_pstate s) (c_load k) * d /\
  e_last (update c s k) == t + d /\
  e_pstate (update c s k) = st_of (c_on k) (c_pstate k).
Proof.
  intros Hl Hd Hn. unfold update. destruct (Qlt_bool (e_last s) (c_now k)) eqn:E; cbn [e_total e_last e_pstate].
  - split; [|split; [exact Hn|reflexivity]].
    assert (Hx : c_now k - e_last s == d) by lra. rewrite Hx. reflexivity.
  - apply Qlt_bool_false in E. assert (Hz : d == 0) by lra. split; [|split; [lra|reflexivity]].
    rewrite Hz. ring.
Qed.

Definition durations_ok (p : period) : Prop := 0 <= s_first p /\ Forall (fun d => 0 <= d) (s_more p).

Lemma fold_plus_shift more : forall x a b, x == a + b -> fold_left Qplus more x == a + fold_left Qplus more b.
Proof.
  induction more as [|y r IH]; intros x a b H; cbn [fold_left]; [exact H|]. apply IH. rewrite H. ring.
Qed.

Lemma period_run p nxt : forall more d t s,
  e_pstate s = st_of (s_on p) (s_ps p) -> e_last s == t -> 0 <= d -> Forall (fun x => 0 <= x) more ->
  let cs := fst (period_calls t p d more nxt) in
  let t' := snd (period_calls t p d more nxt) in
  e_pstate (run c s cs) = st_of (fst nxt) (snd nxt) /\
  e_total (run c s cs) == e_total s + watts c (st_of (s_on p) (s_ps p)) (s_load p) * fold_left Qplus more d /\
  e_last (run c s cs) == t' /\ t' == t + fold_left Qplus more d.
Proof.
  induction more as [|d' r IH]; intros d t s Hps Hl Hd Hmore; cbn [period_calls].
  - cbn [fst snd run fold_left].
    destruct (update_step s {| c_now := t + d; c_on := fst nxt; c_pstate := snd nxt; c_load := s_load p |} t d Hl Hd)
      as [H1 [H2 H3]]; [reflexivity|].
    cbn [c_on c_pstate c_load] in *. rewrite Hps in H1. repeat split; try assumption; reflexivity.
  - destruct (period_calls (t + d) p d' r nxt) as [cs t'] eqn:Epc. cbn [fst snd run fold_left].
    set (k := {| c_now := t + d; c_on := s_on p; c_pstate := s_ps p; c_load := s_load p |}).
    destruct (update_step s k t d Hl Hd) as [H1 [H2 H3]]; [reflexivity|].
    cbn [c_on c_pstate c_load k] in *. rewrite Hps in H1.
    inversion Hmore as [|x l Hd' Hr]; subst.
    specialize (IH d' (t + d) (update c s k) H3 H2 Hd' Hr). rewrite Epc in IH. cbn [fst snd] in IH.
    destruct IH as [I1 [I2 [I3 I4]]]. fold (run c (update c s k) cs).
    split; [exact I1|]. split; [|split; [exact I3|]].
    + rewrite I2, H1, (fold_plus_shift r (d + d') d d') by reflexivity. ring.
    + rewrite I4, (fold_plus_shift r (d + d') d d') by reflexivity. ring.
Qed.

Definition first_state (ps : list period) (final : bool * Z) : Z :=
  match ps with [] => st_of (fst final) (snd final) | p :: _ => st_of (s_on p) (s_ps p) end.

Theorem energy_integral : forall ps t s final,
  Forall durations_ok ps -> e_pstate s = first_state ps final -> e_last s == t ->
  e_total (run c s (timeline_calls t ps final)) == e_total s + energy_spec c ps.
Proof.
  induction ps as [|p r IH]; intros t s final Hok Hps Hl; cbn [timeline_calls energy_spec fold_right].
  - cbn [run fold_left]. ring.
  - inversion Hok as [|x l [Hf Hm] Hr]; subst.
    set (nxt := match r with [] => final | q :: _ => (s_on q, s_ps q) end).
    pose proof (period_run p nxt (s_more p) (s_first p) t s Hps Hl Hf Hm) as H.
    destruct (period_calls t p (s_first p) (s_more p) nxt) as [cs t'] eqn:Epc. cbn [fst snd] in H.
    destruct H as [H1 [H2 [H3 H4]]].
    unfold run in *. rewrite fold_left_app.
    rewrite (IH t' (fold_left (update c) cs s) final Hr).
    + rewrite H2. unfold energy_spec, duration. ring.
    + rewrite H1. unfold nxt, first_state. destruct r; reflexivity.
    + exact H3.
Qed.

(** powers are non-negative, so the reported energy never decreases, whatever the calls *)
Definition cfg_ok : Prop :=
  0 <= h_off c /\ Forall (fun r => 0 <= p_idle r /\ 0 <= p_eps r /\ p_eps r <= p_max r) (h_ranges c).

Lemma cpu_load_le_1 ps load : cpu_load_of c ps load <= 1.
Proof.
  unfold cpu_load_of. destruct (Qle_bool _ 0); [lra|].
  destruct (Qlt_bool 1 _) eqn:E; [lra|]. apply Qlt_bool_false in E. exact E.
Qed.

Lemma watts_nonneg ps load : cfg_ok -> 0 <= watts c ps load.
Proof.
  intros [Hoff Hr]. unfold watts, watts_at. destruct (ps =? pstate_off)%Z; [exact Hoff|].
  destruct (nth_error (h_ranges c) (Z.to_nat ps)) as [r|] eqn:E; [|lra].
  apply nth_error_In in E. rewrite Forall_forall in Hr. destruct (Hr r E) as [H1 [H2 H3]].
  pose proof (cpu_load_le_1 ps load) as Hle.
  destruct (Qlt_bool 0 (cpu_load_of c ps load)) eqn:E0; [|exact H1].
  apply Qlt_bool_iff in E0. nra.
Qed.

Lemma update_monotone s k : cfg_ok -> e_total s <= e_total (update c s k).
Proof.
  intro Hok. unfold update. destruct (Qlt_bool (e_last s) (c_now k)) eqn:E; cbn [e_total]; [|lra].
  apply Qlt_bool_iff in E. pose proof (watts_nonneg (e_pstate s) (c_load k) Hok). nra.
Qed.

Theorem energy_monotone : forall ks s, cfg_ok -> e_total s <= e_total (run c s ks).
Proof.
  induction ks as [|k r IH]; intros s Hok; cbn [run fold_left]; [lra|].
  pose proof (update_monotone s k Hok). pose proof (IH (update c s k) Hok). unfold run in *. lra.
Qed.

Theorem watts_off : forall ps load, watts c (st_of false ps) load = h_off c.
Proof. reflexivity. Qed.

(* an on host at a pstate of positive speed, [x] being the used fraction of the cores *)
Lemma watts_on ps r load x : (0 <= ps)%Z -> nth_error (h_ranges c) (Z.to_nat ps) = Some r ->
  0 < nth (Z.to_nat ps) (h_speeds c) 0 -> load / nth (Z.to_nat ps) (h_speeds c) 0 / inject_Z (h_cores c) == x -> x <= 1 ->
  watts c (st_of true ps) load == if Qlt_bool 0 x then p_eps r + x * (p_max r - p_eps r) else p_idle r.
Proof.
  intros Hps Hr Hs Hx Hle. unfold watts, watts_at, st_of, cpu_load_of. cbv zeta.
  assert (E : (ps =? pstate_off)%Z = false) by (apply Z.eqb_neq; unfold pstate_off; lia).
  assert (E1 : Qle_bool (nth (Z.to_nat ps) (h_speeds c) 0) 0 = false) by (apply Qleb_false; exact Hs).
  assert (E2 : Qlt_bool 1 (load / nth (Z.to_nat ps) (h_speeds c) 0 / inject_Z (h_cores c)) = false)
    by (apply Qlt_bool_false; rewrite Hx; exact Hle).
  rewrite E, Hr, E1, E2, (Qlt_bool_proper 0 0 (Qeq_refl 0) _ _ Hx).
  destruct (Qlt_bool 0 x); [rewrite Hx|]; reflexivity.
Qed.

Theorem watts_idle : forall ps r load, (0 <= ps)%Z -> nth_error (h_ranges c) (Z.to_nat ps) = Some r ->
  0 < nth (Z.to_nat ps) (h_speeds c) 0 -> (1 <= h_cores c)%Z -> load == 0 ->
  watts c (st_of true ps) load == p_idle r.
Proof.
  intros ps r load Hps Hr Hs Hc Hl. rewrite (watts_on ps r load 0 Hps Hr Hs); [reflexivity| |lra].
  rewrite Hl. unfold Qdiv. ring.
Qed.

Theorem watts_busy : forall ps r load, (0 <= ps)%Z -> nth_error (h_ranges c) (Z.to_nat ps) = Some r ->
  let speed := nth (Z.to_nat ps) (h_speeds c) 0 in
  let frac := load / (speed * inject_Z (h_cores c)) in       (* used fraction of the cores *)
  0 < speed -> (1 <= h_cores c)%Z -> 0 < load -> frac <= 1 ->
  watts c (st_of true ps) load == p_eps r + frac * (p_max r - p_eps r).
Proof.
  intros ps r load Hps Hr speed frac Hs Hc Hl Hf. subst speed. apply inject_Z_ge1 in Hc.
  assert (Hpos : 0 < frac) by (apply Qlt_shift_div_l; [nra|lra]).
  rewrite (watts_on ps r load frac Hps Hr Hs); [|unfold frac; field; split; lra|exact Hf].
  apply Qlt_bool_iff in Hpos. rewrite Hpos. reflexivity.
Qed.
End Host.

(** links: every update adds power * elapsed time, so any sequence of updates at the dates where the load changes
    integrates idle + (busy - idle) * load/bandwidth *)
Theorem link_integral : forall c (samples : list (Q * Q * Q)) s,
  le_total (fold_left (fun st x => link_update c st (le_last st + fst (fst x)) (snd (fst x)) (snd x)) samples s) ==
  le_total s + fold_right (fun x e => link_power c (snd (fst x)) (snd x) * fst (fst x) + e) 0 samples.
Proof.
  intros c samples. induction samples as [|[[dt load] bw] r IH]; intro s; cbn [fold_left fold_right fst snd]; [ring|].
  rewrite IH. unfold link_update; cbn [le_total le_last].
  assert (H : le_last s + dt - le_last s == dt) by ring. rewrite H. ring.
Qed.
