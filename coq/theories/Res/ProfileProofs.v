(** C22 — proofs about SGV.Res.Profile: firing the deltas of a pattern from the end of the previous iteration gives its
    absolute dates back, moved by j * period; dates are compared with == because the model keeps them reduced (Qred). *)
From Coq Require Import QArith Lqa Sorting.Sorted.
From SGV Require Import Base.Tactics Res.NetFormula Res.ActionProofs Res.Profile.
Local Open Scope Q_scope.

(* (date, value) pairs equal up to == on dates *)
Definition evq (x y : pt) : Prop := fst x == fst y /\ snd x = snd y.
Definition shift (o : Q) (p : pt) : pt := (o + fst p, snd p).

Lemma run_iter_cons s d v r :
  run_iter s ((d, v) :: r) = ((Qred (s + d), v) :: fst (run_iter (Qred (s + d)) r), snd (run_iter (Qred (s + d)) r)).
Proof. cbn [run_iter]. destruct (run_iter (Qred (s + d)) r). reflexivity. Qed.

(* firing the deltas of [pts] (computed w.r.t. [last]) from [start] yields the dates of [pts] moved by start - last *)
Lemma run_iter_deltas : forall pts start last o, start - last == o ->
  Forall2 evq (fst (run_iter start (deltas last pts))) (map (shift o) pts) /\
  snd (run_iter start (deltas last pts)) == o + last_date last pts.
Proof.
  induction pts as [|[d v] r IH]; intros start last o Ho; cbn [deltas map last_date].
  - split; [constructor|cbn [run_iter snd]; lra].
  - rewrite run_iter_cons. cbn [fst snd].
    destruct (IH (Qred (start + (d - last))) d o) as [I1 I2]; [rewrite Qred_correct; lra|]. split; [|exact I2].
    constructor; [|exact I1]. split; cbn [shift fst snd]; [rewrite Qred_correct; lra|reflexivity].
Qed.

(* a later iteration: the loop delay added to the first delta moves the whole (non-empty) pattern *)
Lemma run_iter_bump ld p0 rest start o : start + ld == o ->
  Forall2 evq (fst (run_iter start (bump ld (deltas 0 (p0 :: rest))))) (map (shift o) (p0 :: rest)) /\
  snd (run_iter start (bump ld (deltas 0 (p0 :: rest)))) == o + last_date 0 (p0 :: rest).
Proof.
  intro Ho. destruct p0 as [d v]. cbn [deltas bump map last_date]. rewrite run_iter_cons. cbn [fst snd].
  destruct (run_iter_deltas rest (Qred (start + (d - 0 + ld))) d o) as [I1 I2]; [rewrite Qred_correct; lra|]. split; [|exact I2].
  constructor; [|exact I1]. split; cbn [shift fst snd]; [rewrite Qred_correct; lra|reflexivity].
Qed.

Fixpoint spec_iters (period : Q) (pts : list pt) (j : nat) (n : nat) : list (list pt) :=
  match n with O => [] | S n' => map (shift (inject_Z (Z.of_nat j) * period)) pts :: spec_iters period pts (S j) n' end.

(* iteration j fires its k-th event at j*P + d_k *)
Lemma run_iters_spec period p0 rest : forall (n j : nat) (first : bool) (start : Q),
  (if first then start else start + loop_delay period (p0 :: rest)) == inject_Z (Z.of_nat j) * period ->
  Forall2 (Forall2 evq) (run_iters period (p0 :: rest) first n start) (spec_iters period (p0 :: rest) j n).
Proof.
  induction n as [|n IH]; intros j first start Hs; cbn [run_iters spec_iters]; [constructor|]. cbv zeta.
  set (pts := p0 :: rest) in *. set (o := inject_Z (Z.of_nat j) * period) in *.
  set (ds := if first then deltas 0 pts else bump (loop_delay period pts) (deltas 0 pts)).
  assert (H : Forall2 evq (fst (run_iter start ds)) (map (shift o) pts) /\ snd (run_iter start ds) == o + last_date 0 pts).
  { unfold ds. destruct first; [apply run_iter_deltas; lra|apply run_iter_bump; exact Hs]. }
  destruct (run_iter start ds) as [l e]. cbn [fst snd] in H. destruct H as [H1 H2]. constructor; [exact H1|].
  apply (IH (S j) false e). unfold loop_delay. rewrite Nat2Z.inj_succ, <- Z.add_1_r, inject_Z_plus. change (inject_Z 1) with 1. unfold o in H2. lra.
Qed.

(* the value seen at date t is the value of the last event at a date <= t (dates sorted) *)
Theorem value_at_spec : forall evs init t,
  StronglySorted (fun x y : pt => fst x <= fst y) evs ->
  ((forall e, In e evs -> t < fst e) /\ value_at init evs t = init) \/
  exists pre e post, evs = pre ++ e :: post /\ fst e <= t /\ (forall x, In x post -> t < fst x) /\ value_at init evs t = snd e.
Proof.
  induction evs as [|[d v] r IH]; intros init t Hs; cbn [value_at].
  - left. split; [intros e []|reflexivity].
  - inversion Hs as [|x l Hr Hall]; subst. destruct (Qle_bool d t) eqn:E.
    + apply Qle_bool_iff in E. right. destruct (IH v t Hr) as [[Hn Hv]|[pre [e [post [He [Hle [Hpost Hv]]]]]]].
      * exists [], (d, v), r. repeat split; [exact E|exact Hn|exact Hv].
      * exists ((d, v) :: pre), e, post. subst r. repeat split; assumption.
    + apply Qleb_false in E. left. split; [|reflexivity].
      intros e [<-|He]; [exact E|]. rewrite Forall_forall in Hall. specialize (Hall e He). cbn in Hall. cbn. lra.
Qed.
