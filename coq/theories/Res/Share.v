(** Res/Share.v — the multicore share of C21: k equal single-core executions on an n-core host of speed S.
    In the LMM system built by CpuCas01 this is ONE constraint of capacity n*S (CpuImpl::seal: core_count * speed) and k
    variables of weight 1, penalty 1, each bounded by S (CpuCas01Action: bound = requested_core * speed, 1 core).
    Stated as a lemma about allocations on that symmetric instance: the equal allocation S*min(1, n/k) is feasible and
    max-min fair (bottleneck characterization), and it is the ONLY feasible max-min fair allocation, so whatever correct
    solver is used, each execution progresses at S*min(1, n/k). No dependency on the Lmm development. *)
From Coq Require Import QArith Lqa List Lia.
Import ListNotations.
Local Open Scope Q_scope.

Definition qn (k : nat) : Q := inject_Z (Z.of_nat k).

(** S * min(1, n/k) *)
Definition share (n k : nat) (S : Q) : Q := if (k <=? n)%nat then S else S * (qn n / qn k).

Fixpoint sum (l : list Q) : Q := match l with [] => 0 | x :: r => x + sum r end.

(** capacity of the CPU constraint respected, every variable within [0, bound] *)
Definition feasible (cap bound : Q) (y : list Q) : Prop :=
  Forall (fun v => 0 <= v /\ v <= bound) y /\ sum y <= cap.
(** max-min fairness as the bottleneck condition: every variable is stopped either by its own bound or by the
    saturated constraint on which nobody gets more than it *)
Definition fair (cap bound : Q) (y : list Q) : Prop :=
  Forall (fun v => v == bound \/ (sum y == cap /\ Forall (fun w => w <= v) y)) y.

Definition equal_alloc (n k : nat) (S : Q) : list Q := repeat (share n k S) k.

(** the share as a reduced fraction, which the driver compares with the implementation's rates *)
Definition run_c21_share (inp : list Z) : list Z :=
  match inp with
  | n :: k :: sn :: sd :: _ =>
      let S := match sd with Zpos p => Qmake sn p | _ => Qmake sn 1 end in
      let r := Qred (share (Z.to_nat n) (Z.to_nat k) S) in [Qnum r; Zpos (Qden r)]
  | _ => []
  end.

Lemma qn_S : forall k, qn (S k) == 1 + qn k.
Proof.
  intro k. unfold qn. rewrite Nat2Z.inj_succ. unfold Z.succ. rewrite inject_Z_plus. ring.
Qed.
Lemma qn_0 : qn 0 == 0.
Proof. reflexivity. Qed.
Lemma qn_le : forall a b, (a <= b)%nat -> qn a <= qn b.
Proof. intros a b H. unfold qn. rewrite <- Zle_Qle. lia. Qed.
Lemma qn_lt : forall a b, (a < b)%nat -> qn a < qn b.
Proof. intros a b H. unfold qn. rewrite <- Zlt_Qlt. lia. Qed.
Lemma qn_pos : forall k, (0 < k)%nat -> 0 < qn k.
Proof. exact (qn_lt 0). Qed.

Lemma sum_repeat : forall x k, sum (repeat x k) == qn k * x.
Proof.
  intros x k. induction k as [| k IH].
  - cbn [repeat sum]. rewrite qn_0. ring.
  - cbn [repeat sum]. rewrite IH, qn_S. ring.
Qed.
Lemma sum_all_eq : forall y m, Forall (fun v => v == m) y -> sum y == qn (length y) * m.
Proof.
  induction y as [| x r IH]; intros m H.
  - cbn [sum length]. rewrite qn_0. ring.
  - inversion H as [| x0 r0 Hx Hr]; subst. cbn [sum length]. rewrite (IH m Hr), qn_S, Hx. ring.
Qed.
Lemma sum_le_bound : forall y b, Forall (fun v => v <= b) y -> sum y <= qn (length y) * b.
Proof.
  induction y as [| x r IH]; intros b H.
  - cbn [sum length]. rewrite qn_0. lra.
  - inversion H as [| x0 r0 Hx Hr]; subst. cbn [sum length]. pose proof (IH b Hr). rewrite qn_S. lra.
Qed.
Lemma sum_lt_bound : forall y b v, Forall (fun w => w <= b) y -> In v y -> v < b -> sum y < qn (length y) * b.
Proof.
  induction y as [| x r IH]; intros b v H Hin Hv; [destruct Hin |].
  inversion H as [| x0 r0 Hx Hr]; subst. cbn [sum length]. rewrite qn_S. destruct Hin as [-> | Hin].
  - pose proof (sum_le_bound r b Hr). lra.
  - pose proof (IH b v Hr Hin Hv). lra.
Qed.

Lemma feasible_In cap bound y :
  feasible cap bound y <-> (forall v, In v y -> 0 <= v /\ v <= bound) /\ sum y <= cap.
Proof. unfold feasible. rewrite Forall_forall. reflexivity. Qed.
Lemma fair_In cap bound y :
  fair cap bound y <-> forall v, In v y -> v == bound \/ (sum y == cap /\ forall w, In w y -> w <= v).
Proof. unfold fair. rewrite Forall_forall. setoid_rewrite Forall_forall. reflexivity. Qed.

Lemma share_le_S : forall n k S, 0 <= S -> (0 < k)%nat -> 0 <= share n k S /\ share n k S <= S.
Proof.
  intros n k S HS Hk. unfold share. destruct (k <=? n)%nat eqn:E; [split; lra |].
  apply Nat.leb_gt in E. pose proof (qn_pos k Hk) as Hkp. pose proof (qn_lt n k E) as Hnk.
  assert (Hn0 : 0 <= qn n) by exact (qn_le 0 n (Nat.le_0_l n)).
  assert (Hq : 0 <= qn n / qn k) by (apply Qle_shift_div_l; lra).
  assert (Hq1 : qn n / qn k <= 1) by (apply Qle_shift_div_r; lra).
  pose proof (Qmult_le_0_compat _ _ HS Hq). pose proof (Qmult_le_compat_r _ _ S Hq1 HS). split; lra.
Qed.

Lemma sum_equal_alloc : forall n k S, (0 < k)%nat ->
  sum (equal_alloc n k S) == if (k <=? n)%nat then qn k * S else qn n * S.
Proof.
  intros n k S Hk. unfold equal_alloc. rewrite sum_repeat. unfold share. destruct (k <=? n)%nat; [reflexivity |].
  field. pose proof (qn_pos k Hk). lra.
Qed.

Theorem share_feasible : forall n k S, 0 <= S -> (0 < k)%nat ->
  feasible (qn n * S) S (equal_alloc n k S).
Proof.
  intros n k S HS Hk. apply feasible_In. split.
  - intros v Hv. apply repeat_spec in Hv. subst v. apply share_le_S; assumption.
  - rewrite sum_equal_alloc by assumption. destruct (k <=? n)%nat eqn:E; [| lra].
    apply Nat.leb_le in E. apply Qmult_le_compat_r; [apply qn_le |]; assumption.
Qed.

Theorem share_fair : forall n k S, 0 <= S -> (0 < k)%nat ->
  fair (qn n * S) S (equal_alloc n k S).
Proof.
  intros n k S HS Hk. apply fair_In. intros v Hv. apply repeat_spec in Hv. subst v.
  pose proof (sum_equal_alloc n k S Hk) as Hsum. unfold share at 1. destruct (k <=? n)%nat eqn:E.
  - left. reflexivity.
  - right. split; [exact Hsum |]. intros w Hw. apply repeat_spec in Hw. subst w. unfold share. rewrite E. apply Qle_refl.
Qed.

(** uniqueness: any feasible max-min fair allocation gives every execution S * min(1, n/k) *)
Theorem share_unique : forall n k S y, 0 < S -> (0 < k)%nat -> length y = k ->
  feasible (qn n * S) S y -> fair (qn n * S) S y -> Forall (fun v => v == share n k S) y.
Proof.
  intros n k S y HS Hk Hlen Hfeas Hfair. apply feasible_In in Hfeas. destruct Hfeas as [Hrange Hcap].
  rewrite fair_In in Hfair.
  assert (Hub : Forall (fun w => w <= S) y) by (apply Forall_forall; intros w Hw; apply (Hrange w Hw)).
  apply Forall_forall. intros v Hv. unfold share. destruct (k <=? n)%nat eqn:E.
  - (* no contention: somebody below S would leave the constraint unsaturated *)
    apply Nat.leb_le in E. destruct (Hfair v Hv) as [Hb | [Hsat _]]; [assumption |].
    destruct (Qlt_le_dec v S) as [Hlt | Hge]; [exfalso | pose proof (Hrange v Hv); lra].
    pose proof (sum_lt_bound y S v Hub Hv Hlt) as H1. rewrite Hlen in H1.
    pose proof (Qmult_le_compat_r _ _ S (qn_le k n E) (Qlt_le_weak _ _ HS)). lra.
  - apply Nat.leb_gt in E. pose proof (qn_pos k Hk) as Hkp. pose proof (qn_lt n k E) as Hnk.
    (* somebody is stopped by the saturated constraint, otherwise everybody has S and the capacity is exceeded *)
    assert (Hex : exists m, In m y /\ sum y == qn n * S /\ forall w, In w y -> w <= m).
    { destruct (Forall_Exists_dec (fun w => w == S) (fun w => Qeq_dec w S) y) as [Hall | Hsome].
      - exfalso. pose proof (sum_all_eq y S Hall) as H1. rewrite Hlen in H1.
        pose proof (Qmult_lt_compat_r _ _ S HS Hnk). lra.
      - apply Exists_exists in Hsome. destruct Hsome as (m & Hm & Hne).
        destruct (Hfair m Hm) as [Hb | [Hsat Hmax]]; [contradiction |]. exists m. auto. }
    destruct Hex as (m & Hm & Hsat & Hmax).
    (* everybody else is then at that maximum too: by its own bound S >= m, or as another maximum *)
    assert (Hall : Forall (fun w => w == m) y).
    { apply Forall_forall. intros w Hw. pose proof (Hmax w Hw).
      destruct (Hfair w Hw) as [Hb | [_ Hmaxw]]; [pose proof (Hrange m Hm) | pose proof (Hmaxw m Hm)]; lra. }
    pose proof (sum_all_eq y m Hall) as H1. rewrite Hlen in H1.
    rewrite Forall_forall in Hall. rewrite (Hall v Hv).
    assert (Hm' : qn k * m == qn n * S) by lra.
    setoid_replace m with (qn k * m / qn k) by (field; lra). rewrite Hm'. field. lra.
Qed.
