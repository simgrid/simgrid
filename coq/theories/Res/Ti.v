(** Res/Ti.v — the trace-integration CPU model (cpu_ti.cpp), single core, one action among others.
    CpuTi::update_actions_finish_time computes, for an action with [rem] flops left,
        total_area = rem * sum_priority * penalty / peak     and     finish = trace.solve(now, total_area)
    where solve inverts the integral of the availability trace (scale values in time).  The FULL/LAZY models instead see the
    rate  scale * peak / (sum_priority * penalty)  in each trace segment.  [ti_solve] walks the trace segments seen from [now]
    (CpuTiTmgr::solve / CpuTiProfile::solve_simple find the same date by binary search in the table of partial integrals and
    reduce periodic traces to one period: that part is tied by the differential runs of C19 only). *)
From Coq Require Import QArith Lqa List.
From SGV Require Import Res.Action Res.ActionProofs.
Import ListNotations.
Local Open Scope Q_scope.

Fixpoint ti_solve (now amount : Q) (trace : list (Q * Q)) : option Q :=
  match trace with
  | [] => None
  | (d, sc) :: tr =>
      if Qltb 0 sc && Qle_bool amount (sc * d) then Some (now + amount / sc)
      else ti_solve (now + d) (amount - sc * d) tr
  end.

(** total_area for an action whose share of the CPU is peak / (sum_priority * penalty) *)
Definition ti_area (rem share : Q) : Q := rem / share.
(** the same trace as a rate history for the FULL / LAZY bookkeeping *)
Definition ti_hist (share : Q) (trace : list (Q * Q)) : list seg :=
  map (fun p => mkseg (fst p) (snd p * share) true) trace.
Definition trace_ok (trace : list (Q * Q)) : Prop := Forall (fun p => 0 <= fst p /\ 0 <= snd p) trace.

Lemma ti_seg_ok share d sc : 0 < share -> 0 <= d -> 0 <= sc -> seg_ok (mkseg d (sc * share) true).
Proof. intros Hs Hd Hsc. split; cbn [sd sr]; [assumption | apply Qmult_le_0_compat; lra]. Qed.

Lemma ti_hist_wf : forall share trace, 0 < share -> trace_ok trace -> wf (ti_hist share trace).
Proof.
  intros share trace Hs H. induction H as [| [d sc] tr [Hd Hsc] _ IH]; constructor; [| exact IH].
  apply ti_seg_ok; assumption.
Qed.

Lemma ti_eq_full_gen : forall trace share now amount rem, 0 < share -> trace_ok trace -> 0 < rem ->
  amount * share == rem ->
  oQeq (ti_solve now amount trace) (full_run 0 now rem (ti_hist share trace)).
Proof.
  induction trace as [| [d sc] tr IH]; intros share now amount rem Hs Hok Hrem Ham; [exact I |].
  inversion Hok as [| p l [Hd Hsc] Hok']; subst. cbn [fst snd] in Hd, Hsc.
  cbn [ti_solve]. change (ti_hist share ((d, sc) :: tr)) with (mkseg d (sc * share) true :: ti_hist share tr).
  destruct (full_step now rem _ (ti_hist share tr) Hrem (ti_seg_ok share d sc Hs Hd Hsc))
    as [(Hr0 & Hle & -> & _) | (Hlt & -> & _)]; cbn [sr sd] in *.
  - assert (Hsc0 : 0 < sc).
    { destruct (Qlt_le_dec 0 sc) as [H | H]; [assumption |]. assert (Hz : sc == 0) by lra. rewrite Hz in Hr0. exfalso. lra. }
    assert (E1 : Qltb 0 sc = true) by (apply Qltb_true; assumption).
    assert (E2 : Qle_bool amount (sc * d) = true).
    { apply Qle_bool_iff. apply (Qmult_le_r _ _ share Hs). rewrite Ham. lra. }
    rewrite E1, E2. cbn. rewrite <- Ham. field. split; intro Hz; lra.
  - assert (E : Qltb 0 sc && Qle_bool amount (sc * d) = false).
    { apply andb_false_iff. right. apply Qleb_false. apply (Qmult_lt_r _ _ share Hs). rewrite Ham. lra. }
    rewrite E. apply IH; try assumption; [lra |]. rewrite <- Ham. ring.
Qed.

(** C19 (TI): the date TI obtains by inverting the integral of the trace for total_area = rem / share is the completion
    date of the FULL bookkeeping fed with the rates scale * share *)
Theorem ti_eq_full : forall trace share now rem, 0 < share -> trace_ok trace -> 0 < rem ->
  oQeq (ti_solve now (ti_area rem share) trace) (full_run 0 now rem (ti_hist share trace)).
Proof.
  intros trace share now rem Hs Hok Hrem. apply ti_eq_full_gen; try assumption.
  unfold ti_area. field. intro Hz. lra.
Qed.
