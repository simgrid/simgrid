(** C20 — proofs about SGV.Res.NetFormula.  The solve with one variable is a minimum of bound/weight ratios capped by
    the variable's bound ([solve1_spec]); the scans of the code (latency, bandwidth bound, cpu bound) are folds that
    equal a sum or a [qmin_list]; the closed forms follow by comparing minima. *)
From Coq Require Import QArith Qminmax Lqa Morphisms.
From SGV Require Import Base.PlainLia Res.NetFormula Res.ActionProofs.
Local Open Scope Q_scope.

(** [Qlt_bool] is [Action.Qltb] under another name *)
Lemma Qlt_bool_iff a b : Qlt_bool a b = true <-> a < b.
Proof. exact (Qltb_true a b). Qed.
Lemma Qlt_bool_false a b : Qlt_bool a b = false <-> b <= a.
Proof. exact (Qltb_false a b). Qed.
Global Instance Qlt_bool_proper : Proper (Qeq ==> Qeq ==> eq) Qlt_bool.
Proof. intros a a' Ha b b' Hb. exact (Qltb_comp a a' b b' Ha Hb). Qed.
Global Instance Qle_bool_proper : Proper (Qeq ==> Qeq ==> eq) Qle_bool.
Proof. exact Qleb_comp. Qed.
Global Instance gamma_active_proper c : Proper (Qeq ==> eq) (gamma_active c).
Proof. intros a b H. unfold gamma_active. rewrite H. reflexivity. Qed.

(* how the code takes a minimum *)
Lemma if_lt_min u a : (if Qlt_bool u a then u else a) == Qmin a u.
Proof.
  destruct (Qlt_bool u a) eqn:E.
  - apply Qlt_bool_iff in E. rewrite Q.min_r; lra.
  - apply Qlt_bool_false in E. rewrite Q.min_l; lra.
Qed.

Lemma div1 q : q / 1 == q. Proof. field. Qed.
Lemma inject_Z_ge1 n : (1 <= n)%Z -> 1 <= inject_Z n.
Proof. intro H. rewrite Zle_Qle in H. exact H. Qed.

Lemma qmin_list_le l : forall a x, In x (a :: l) -> qmin_list a l <= x.
Proof.
  induction l as [|y r IH]; intros a x Hin; cbn [qmin_list].
  - destruct Hin as [->|[]]. apply Qle_refl.
  - destruct Hin as [->|[->|Hin]].
    + apply Qle_trans with (Qmin x y); [apply IH; left; reflexivity|apply Q.le_min_l].
    + apply Qle_trans with (Qmin a x); [apply IH; left; reflexivity|apply Q.le_min_r].
    + apply IH. right. exact Hin.
Qed.
Lemma qmin_list_attained l : forall a, exists x, In x (a :: l) /\ qmin_list a l == x.
Proof.
  induction l as [|y r IH]; intro a; cbn [qmin_list]; [exists a; split; [left|]; reflexivity|].
  destruct (IH (Qmin a y)) as [x [[<-|Hx] Hq]].
  - destruct (Q.min_spec a y) as [[_ E]|[_ E]]; [exists a|exists y]; (split; [cbn; tauto|rewrite Hq; exact E]).
  - exists x. split; [right; right; exact Hx|exact Hq].
Qed.
(* so whatever holds of all the elements holds of the minimum *)
Lemma qmin_list_all (P : Q -> Prop) {HP : Proper (Qeq ==> iff) P} l a :
  P a -> (forall x, In x l -> P x) -> P (qmin_list a l).
Proof. intros Ha Hl. destruct (qmin_list_attained l a) as [x [[<-|Hx] Hq]]; rewrite Hq; auto. Qed.
Lemma qmin_list_proper l : forall a b, a == b -> qmin_list a l == qmin_list b l.
Proof.
  induction l as [|y r IH]; intros a b H; cbn [qmin_list]; [exact H|]. apply IH. rewrite H. reflexivity.
Qed.

Lemma qmax_list_ge l : forall a x, In x (a :: l) -> x <= qmax_list a l.
Proof.
  induction l as [|y r IH]; intros a x Hin; cbn [qmax_list].
  - destruct Hin as [->|[]]. apply Qle_refl.
  - destruct Hin as [->|[->|Hin]].
    + apply Qle_trans with (Qmax x y); [apply Q.le_max_l|apply IH; left; reflexivity].
    + apply Qle_trans with (Qmax a x); [apply Q.le_max_r|apply IH; left; reflexivity].
    + apply IH. right. exact Hin.
Qed.
Lemma qmax_list_in l : forall a, In (qmax_list a l) (a :: l) \/ exists x, In x (a :: l) /\ qmax_list a l == x.
Proof.
  intro a. right. revert a. induction l as [|y r IH]; intro a; cbn [qmax_list]; [exists a; split; [left|]; reflexivity|].
  destruct (IH (Qmax a y)) as [x [[<-|Hx] Hq]].
  - destruct (Q.max_spec a y) as [[_ E]|[_ E]]; [exists y|exists a]; (split; [cbn; tauto|rewrite Hq; exact E]).
  - exists x. split; [right; right; exact Hx|exact Hq].
Qed.
Lemma qmax_list_proper l : forall a b, a == b -> qmax_list a l == qmax_list b l.
Proof.
  induction l as [|y r IH]; intros a b H; cbn [qmax_list]; [exact H|]. apply IH. rewrite H. reflexivity.
Qed.

Lemma qmin3 a g B : B <= a -> Qmin (Qmin a g) B == Qmin B g.
Proof. intro H. rewrite <- Q.min_assoc, (Q.min_comm g B), Q.min_assoc, (Q.min_r a B H). reflexivity. Qed.

Lemma min_share_some cs : forall a b, a == b ->
  exists m, min_share (Some a) cs = Some m /\ m == qmin_list b (map ratio cs).
Proof.
  induction cs as [|[bd w] r IH]; intros a b Hab; cbn [min_share map qmin_list].
  - exists a. split; [reflexivity|exact Hab].
  - apply IH. rewrite if_lt_min, Hab. reflexivity.
Qed.

Lemma solve1_spec c cs vb :
  solve1 (c :: cs) vb ==
  if Qle_bool 0 vb then Qmin vb (qmin_list (ratio c) (map ratio cs)) else qmin_list (ratio c) (map ratio cs).
Proof.
  unfold solve1. destruct c as [bd w]. cbn [min_share].
  destruct (min_share_some cs (bd / w) (ratio (bd, w))) as [m [-> Hq]]; [reflexivity|].
  destruct (Qle_bool 0 vb); cbn [andb]; [|exact Hq].
  rewrite if_lt_min, Hq. apply Q.min_comm.
Qed.

Lemma route_latency_spec r : forall acc, route_latency acc r == acc + total_latency r.
Proof.
  induction r as [|l r IH]; intro acc; cbn [route_latency total_latency fold_right]; [lra|].
  rewrite IH. unfold total_latency. lra.
Qed.

Definition links_ok (fwd : list flink) : Prop := forall l, In l fwd -> 0 < f_bw l /\ 0 <= f_lat l.
Definition backs_ok (back : list blink) : Prop := forall b, In b back -> 0 < b_bw b.

Lemma links_ok_tail l r : links_ok (l :: r) -> links_ok r.
Proof. intros Hok x Hx. apply Hok. right. exact Hx. Qed.

Lemma bandwidth_bound_pos r : forall bb b', 0 < bb -> bb == b' -> links_ok r ->
  bandwidth_bound bb r == qmin_list b' (map f_bw r).
Proof.
  induction r as [|l r IH]; intros bb b' Hpos Heq Hok; cbn [bandwidth_bound map qmin_list]; [exact Heq|].
  assert (Hl : 0 < f_bw l) by (apply Hok; left; reflexivity).
  assert (Hne : Qeq_bool bb (-1 # 1) = false).
  { destruct (Qeq_bool bb (-1 # 1)) eqn:E; [|reflexivity]. apply Qeq_bool_iff in E. lra. }
  rewrite Hne. cbn [orb]. apply IH; [| |exact (links_ok_tail l r Hok)].
  - destruct (Qlt_bool (f_bw l) bb); assumption.
  - rewrite if_lt_min, Heq. reflexivity.
Qed.

Lemma bandwidth_bound_spec l r : links_ok (l :: r) ->
  bandwidth_bound (-1 # 1) (l :: r) == qmin_list (f_bw l) (map f_bw r).
Proof.
  intro Hok. cbn [bandwidth_bound]. change (Qeq_bool (-1 # 1) (-1 # 1)) with true. cbn [orb].
  apply bandwidth_bound_pos; [apply Hok; left; reflexivity|reflexivity|exact (links_ok_tail l r Hok)].
Qed.

Lemma total_latency_nonneg r : links_ok r -> 0 <= total_latency r.
Proof.
  induction r as [|l r IH]; intro Hok; unfold total_latency; cbn [fold_right]; [lra|].
  assert (0 <= f_lat l) by (apply Hok; left; reflexivity).
  assert (0 <= total_latency r) by (apply IH, (links_ok_tail l r Hok)).
  unfold total_latency in *. lra.
Qed.

Lemma xw_val : xw == 5 # 100. Proof. reflexivity. Qed.
(* the first constraint of a forward link is on its bandwidth, with a weight of at least 1 *)
Lemma fwd_constraints_head ct l : exists w cs, fwd_constraints ct l = (f_bw l, w) :: cs /\ 1 <= w.
Proof.
  unfold fwd_constraints. destruct (f_pol l); eexists; eexists; (split; [reflexivity|]).
  - destruct (ct && f_inback l); unfold xw; lra.
  - destruct (ct && f_inback l); [apply Q.le_max_l|lra].
  - lra.
Qed.

Lemma beff_le_link ct fwd back l : links_ok fwd -> In l fwd -> beff ct fwd back <= f_bw l.
Proof.
  intros Hok Hin. destruct (fwd_constraints_head ct l) as (w & cs & Hc & Hw). assert (Hb : 0 < f_bw l) by apply Hok, Hin.
  assert (Hin2 : In (ratio (f_bw l, w)) (map ratio (constraints ct fwd back))).
  { apply in_map. unfold constraints. apply in_or_app. left. apply in_flat_map. exists l. rewrite Hc. split; [exact Hin|left; reflexivity]. }
  unfold beff. destruct (map ratio (constraints ct fwd back)) as [|x r]; [inversion Hin2|].
  apply Qle_trans with (ratio (f_bw l, w)); [apply qmin_list_le, Hin2|]. unfold ratio; cbn [fst snd]. apply Qle_shift_div_r; nra.
Qed.

Lemma beff_le_bwmin ct l r back : links_ok (l :: r) ->
  beff ct (l :: r) back <= qmin_list (f_bw l) (map f_bw r).
Proof.
  intro Hok. apply (qmin_list_all (Qle _)).
  - apply beff_le_link; [exact Hok|left; reflexivity].
  - intros x Hx. apply in_map_iff in Hx. destruct Hx as [k [<- Hk]]. apply beff_le_link; [exact Hok|right; exact Hk].
Qed.

(* a bounded variable on a non-empty route gets the smaller of its bound and the effective bandwidth *)
Lemma solve1_beff ct l r back vb : 0 <= vb ->
  solve1 (constraints ct (l :: r) back) vb == Qmin vb (beff ct (l :: r) back).
Proof.
  intro Hvb. apply Qle_bool_iff in Hvb. unfold beff, constraints. cbn [flat_map].
  destruct (fwd_constraints_head ct l) as (w & cs & -> & _). cbn [app]. rewrite solve1_spec, Hvb. reflexivity.
Qed.

Theorem comm_time_closed : forall c size l r back,
  links_ok (l :: r) ->
  comm_time c size (l :: r) back == comm_closed c size (l :: r) back.
Proof.
  intros c size l r back Hok. unfold comm_time, comm_closed. cbv zeta.
  assert (HL : route_latency 0 (l :: r) == total_latency (l :: r)) by (rewrite route_latency_spec; lra).
  pose proof (total_latency_nonneg (l :: r) Hok) as HLnn.
  pose proof (bandwidth_bound_spec l r Hok) as Hbb.
  pose proof (beff_le_bwmin (crosstraffic c) l r back Hok) as Hle.
  assert (Hbwmin : 0 < qmin_list (f_bw l) (map f_bw r)).
  { apply (qmin_list_all (Qlt 0)); [apply Hok; left; reflexivity|].
    intros x Hx. apply in_map_iff in Hx. destruct Hx as [k0 [<- Hk]]. apply Hok. right. exact Hk. }
  assert (Hub : Qlt_bool (bandwidth_bound (-1 # 1) (l :: r)) 0 = false) by (apply Qlt_bool_false; lra).
  rewrite Hub, (gamma_active_proper c _ _ HL).
  destruct (gamma_active c (total_latency (l :: r))) eqn:Eact.
  - (* the TCP-gamma bound is set *)
    apply andb_true_iff in Eact. destruct Eact as [EL Eg]. apply Qlt_bool_iff in EL. apply Qlt_bool_iff in Eg.
    assert (Hg : 0 < gamma c / (2 * total_latency (l :: r))) by (apply Qlt_shift_div_l; lra).
    rewrite solve1_beff by (rewrite Hbb, HL; apply Q.min_glb; lra).
    rewrite Hbb, HL, qmin3 by exact Hle. rewrite (Qmult_comm (bw_factor c size)). reflexivity.
  - (* no TCP-gamma bound: the variable is bounded by the smallest bandwidth only *)
    rewrite solve1_beff by lra.
    rewrite Hbb, HL, Q.min_r by exact Hle. rewrite (Qmult_comm (bw_factor c size)). reflexivity.
Qed.

(** the property text's formula, where it is what the code computes *)
Theorem comm_documented_partial : forall c size l r back,
  links_ok (l :: r) -> doc_side c size (l :: r) back = true ->
  comm_time c size (l :: r) back == comm_documented c size (l :: r) back.
Proof.
  intros c size l r back Hok Hside. rewrite comm_time_closed by exact Hok.
  unfold comm_closed, comm_documented, doc_side in *.
  set (L := total_latency (l :: r)) in *. set (B := beff (crosstraffic c) (l :: r) back) in *.
  set (g := gamma c / (2 * L)) in *. set (bwf := bw_factor c size) in *.
  destruct (gamma_active c L) eqn:Eact; cbn [negb orb] in Hside.
  - apply orb_true_iff in Hside. destruct Hside as [H1|H2].
    + apply Qeq_bool_iff in H1. rewrite H1. rewrite Qmult_1_r, Qmult_1_l. reflexivity.
    + apply andb_true_iff in H2. destruct H2 as [Ha Hb]. apply Qle_bool_iff in Ha. apply Qle_bool_iff in Hb.
      rewrite (Q.min_l B g Ha). rewrite (Q.min_l (B * bwf) g Hb). rewrite (Qmult_comm bwf B). reflexivity.
  - rewrite (Qmult_comm bwf B). reflexivity.
Qed.

(** and where it is not: LV08 defaults, one 10 GB/s link of latency 0.1 s, 1 GB, no cross-traffic (DESIGN 6) *)
Definition lv08 : netcfg :=
  {| lat_default := 1301 # 100; lat_tbl := []; bw_default := 97 # 100; bw_tbl := []; gamma := 4194304; crosstraffic := false |}.
Definition witness_link : flink := {| f_bw := 10000000000; f_lat := 1 # 10; f_pol := Shared; f_inback := true |}.
Lemma comm_documented_refuted :
  exists c size fwd back, links_ok fwd /\ fwd <> [] /\
    ~ comm_time c size fwd back == comm_documented c size fwd back.
Proof.
  exists lv08, 1000000000, [witness_link], []. split; [|split].
  - intros l [<-|[]]. cbn. split; [reflexivity|discriminate].
  - discriminate.
  - intro H. apply Qeq_bool_iff in H. vm_compute in H. discriminate.
Qed.

Lemma fwd_constraints_nocross x : fwd_constraints false x = [(f_bw x, 1)].
Proof. unfold fwd_constraints. destruct (f_pol x); reflexivity. Qed.

Lemma beff_no_crosstraffic l r back : beff false (l :: r) back == qmin_list (f_bw l) (map f_bw r).
Proof.
  unfold beff, constraints.
  assert (Hb : flat_map (back_constraints false) back = []) by (induction back; [reflexivity|assumption]).
  rewrite Hb, app_nil_r.
  assert (H : forall fwd a, qmin_list a (map ratio (flat_map (fwd_constraints false) fwd)) == qmin_list a (map f_bw fwd)).
  { induction fwd as [|x fwd IH]; intro a; [reflexivity|]. cbn [flat_map]. rewrite fwd_constraints_nocross.
    cbn [app map qmin_list]. rewrite IH. apply qmin_list_proper. unfold ratio; cbn [fst snd]. rewrite div1. reflexivity. }
  cbn [flat_map]. rewrite fwd_constraints_nocross. cbn [app map]. rewrite H. apply qmin_list_proper, div1.
Qed.

Theorem exec_time_spec : forall cores speed flops threads,
  (1 <= cores)%Z -> (1 <= threads)%Z -> 0 < speed ->
  exec_time cores speed flops threads == inject_Z threads * flops / (inject_Z (Z.min threads cores) * speed).
Proof.
  intros cores speed flops threads _ Ht Hs. unfold exec_time. pose proof (inject_Z_ge1 threads Ht) as Ht'.
  assert (E0 : Qle_bool 0 (inject_Z threads * speed) = true) by (apply Qle_bool_iff; nra).
  apply Qdiv_comp; [reflexivity|]. rewrite solve1_spec, E0. cbn [map qmin_list]. unfold ratio; cbn [fst snd]. rewrite div1.
  destruct (Z.min_spec threads cores) as [[Hlt ->]|[Hle ->]].
  - apply Q.min_l, Qmult_le_compat_r; [rewrite <- Zle_Qle; lia|lra].
  - apply Q.min_r, Qmult_le_compat_r; [rewrite <- Zle_Qle; lia|lra].
Qed.

Theorem exec_time_single : forall cores speed flops threads,
  (1 <= threads <= cores)%Z -> 0 < speed -> exec_time cores speed flops threads == flops / speed.
Proof.
  intros cores speed flops threads [Ht Hc] Hs. rewrite exec_time_spec by (assumption || lia).
  rewrite Z.min_l by lia. pose proof (inject_Z_ge1 threads Ht). field. split; lra.
Qed.

Theorem sleep_time_spec : forall d, timing_precision <= d -> sleep_time d == d.
Proof.
  intros d Hd. unfold sleep_time. unfold timing_precision in *.
  assert (E : Qlt_bool 0 d = true) by (apply Qlt_bool_iff; lra). rewrite E. apply Q.max_l. exact Hd.
Qed.

Theorem io_time_spec : forall r w is_read size, 0 < r -> 0 < w ->
  io_time r w is_read size == size / (if is_read then r else w).
Proof.
  intros r w is_read size Hr Hw. unfold io_time. rewrite solve1_spec.
  change (Qle_bool 0 (-1 # 1)) with false. cbn [map qmin_list]. unfold ratio; cbn [fst snd]. rewrite !div1.
  rewrite Q.min_r; [reflexivity|]. destruct is_read; [apply Q.le_max_l|apply Q.le_max_r].
Qed.

Definition part_ok (p : part) : Prop := 0 < p_speed p /\ (1 <= p_cores p)%Z.
Definition sf (p : part) : Q := p_speed p / p_flops p.
Definition fs (p : part) : Q := p_flops p / p_speed p.
(* what is known of the parts that compute something *)
Definition used_ok (p : part) : Prop := 0 < p_flops p /\ 0 < p_speed p /\ (1 <= p_cores p)%Z.

Lemma cpu_bound_used ps : forall acc, cpu_bound acc ps = cpu_bound acc (used ps).
Proof.
  induction ps as [|p r IH]; intro acc; [reflexivity|]. unfold used in *. cbn [cpu_bound filter].
  destruct (Qlt_bool 0 (p_flops p)) eqn:E.
  - cbn [cpu_bound]. rewrite E. apply IH.
  - apply IH.
Qed.

Lemma used_ok_in ps p : (forall p, In p ps -> part_ok p) -> In p (used ps) -> used_ok p.
Proof.
  intros Hok Hp. apply filter_In in Hp. destruct Hp as [Hin Hf]. apply Qlt_bool_iff in Hf.
  destruct (Hok p Hin). repeat split; assumption.
Qed.

Lemma sf_pos p : used_ok p -> 0 < sf p.
Proof. intros (Hf & Hs & _). apply Qlt_shift_div_l; lra. Qed.

(* the host constraint of a part allows at least speed/flops *)
Lemma sf_le_ratio p : used_ok p -> sf p <= ratio (inject_Z (p_cores p) * p_speed p, p_flops p).
Proof.
  intros (Hf & Hs & Hc). apply inject_Z_ge1 in Hc. unfold sf, ratio, Qdiv; cbn [fst snd].
  apply Qmult_le_compat_r; [nra|apply Qinv_le_0_compat; lra].
Qed.

Lemma cpu_bound_some us : (forall p, In p us -> 0 < p_flops p) -> forall a b, a == b ->
  exists m, cpu_bound (Some a) us = Some m /\ m == qmin_list b (map sf us).
Proof.
  intro Hpos. induction us as [|p r IH]; intros a b Hab; cbn [cpu_bound map qmin_list].
  - exists a. split; [reflexivity|exact Hab].
  - assert (E : Qlt_bool 0 (p_flops p) = true) by (apply Qlt_bool_iff; apply Hpos; left; reflexivity).
    rewrite E. apply IH; [intros q Hq; apply Hpos; right; exact Hq|]. unfold sf. rewrite Hab. reflexivity.
Qed.

Lemma inv_min_max a x : 0 < a -> 0 < x -> / Qmin a x == Qmax (/ a) (/ x).
Proof.
  intros Ha Hx. destruct (Q.min_spec a x) as [[H1 E1]|[H1 E1]]; rewrite E1.
  - symmetry. apply Q.max_l. apply Qlt_le_weak. apply -> Qinv_lt_contravar; assumption.
  - symmetry. apply Q.max_r. apply Qle_lteq in H1. destruct H1 as [H1|H1].
    + apply Qlt_le_weak. apply -> Qinv_lt_contravar; assumption.
    + rewrite H1. apply Qle_refl.
Qed.

Lemma inv_qmin_list us : (forall p, In p us -> 0 < p_flops p /\ 0 < p_speed p) -> forall a a', 0 < a -> a' == / a ->
  / qmin_list a (map sf us) == qmax_list a' (map fs us).
Proof.
  induction us as [|p r IH]; intros Hok a a' Ha Haa; cbn [map qmin_list qmax_list]; [rewrite Haa; reflexivity|].
  assert (Hp : 0 < p_flops p /\ 0 < p_speed p) by (apply Hok; left; reflexivity). destruct Hp as [Hf Hs].
  assert (Hsf : 0 < sf p) by (unfold sf; apply Qlt_shift_div_l; lra).
  apply IH.
  - intros q Hq. apply Hok. right. exact Hq.
  - destruct (Q.min_spec a (sf p)) as [[_ ->]|[_ ->]]; assumption.
  - rewrite inv_min_max by assumption. rewrite Haa. unfold sf, fs.
    assert (E : / (p_speed p / p_flops p) == p_flops p / p_speed p) by (field; split; lra).
    rewrite E. reflexivity.
Qed.

Theorem ptask_time_spec : forall ps, (forall p, In p ps -> part_ok p) -> ptask_time ps == ptask_spec ps.
Proof.
  intros ps Hok. unfold ptask_time, ptask_spec. rewrite cpu_bound_used.
  pose proof (fun p => used_ok_in ps p Hok) as Hu. destruct (used ps) as [|p us]; [reflexivity|].
  pose proof (Hu p (or_introl eq_refl)) as Hp.
  assert (Hus : forall q, In q us -> used_ok q) by (intros q Hq; apply Hu; right; exact Hq).
  cbn [cpu_bound map]. assert (E : Qlt_bool 0 (p_flops p) = true) by (apply Qlt_bool_iff, Hp). rewrite E.
  destruct (cpu_bound_some us) with (a := p_speed p / p_flops p) (b := sf p) as [m [-> Hm]];
    [intros q Hq; apply (Hus q Hq)|reflexivity|].
  (* the bound m is the smallest speed/flops: positive, and below what every host constraint allows,
     so the variable gets m *)
  assert (Hmpos : 0 < m).
  { rewrite Hm. apply (qmin_list_all (Qlt 0)); [apply sf_pos, Hp|].
    intros x Hx. apply in_map_iff in Hx. destruct Hx as [q [<- Hq]]. apply sf_pos, Hus, Hq. }
  assert (E0 : Qle_bool 0 m = true) by (apply Qle_bool_iff; lra).
  rewrite solve1_spec, E0, Q.min_l.
  2:{ rewrite Hm. apply (qmin_list_all (Qle _)).
      - apply Qle_trans with (sf p); [apply qmin_list_le; left; reflexivity|apply sf_le_ratio, Hp].
      - intros x Hx. rewrite map_map in Hx. apply in_map_iff in Hx. destruct Hx as [q [<- Hq]].
        apply Qle_trans with (sf q); [apply qmin_list_le; right; apply in_map, Hq|apply sf_le_ratio, Hus, Hq]. }
  rewrite Hm. unfold Qdiv. rewrite Qmult_1_l. apply inv_qmin_list.
  - intros q Hq. destruct (Hus q Hq) as (H1 & H2 & _). split; assumption.
  - apply sf_pos, Hp.
  - destruct Hp as (Hf & Hs & _). unfold sf, fs. field. split; lra.
Qed.

Theorem ptask_spec_is_max : forall ps p, In p ps -> 0 < p_flops p -> p_flops p / p_speed p <= ptask_spec ps.
Proof.
  intros ps p Hin Hf. unfold ptask_spec.
  assert (Hu : In p (used ps)) by (unfold used; apply filter_In; split; [exact Hin|apply Qlt_bool_iff; exact Hf]).
  assert (Hm : In (p_flops p / p_speed p) (map (fun q => p_flops q / p_speed q) (used ps))) by (apply (in_map (fun q => p_flops q / p_speed q)); exact Hu).
  destruct (map (fun q => p_flops q / p_speed q) (used ps)) as [|x r]; [inversion Hm|]. apply qmax_list_ge, Hm.
Qed.
