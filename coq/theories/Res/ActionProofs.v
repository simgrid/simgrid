(** Res/ActionProofs.v — proofs about Res/Action.v at eps = 0 (exact rationals). *)
From Coq Require Import QArith Qabs Lqa List.
From SGV Require Import Res.Action.
Import ListNotations.
Local Open Scope Q_scope.

Lemma Qleb_false x y : Qle_bool x y = false <-> y < x.
Proof. rewrite <- not_true_iff_false, Qle_bool_iff. split; [apply Qnot_le_lt | apply Qlt_not_le]. Qed.
Lemma Qltb_true x y : Qltb x y = true <-> x < y.
Proof. unfold Qltb. rewrite negb_true_iff. apply Qleb_false. Qed.
Lemma Qltb_false x y : Qltb x y = false <-> y <= x.
Proof. unfold Qltb. rewrite negb_false_iff. apply Qle_bool_iff. Qed.
Lemma Qltb_comp : forall a b c d, a == b -> c == d -> Qltb a c = Qltb b d.
Proof. intros a b c d H1 H2. unfold Qltb. rewrite H1, H2. reflexivity. Qed.

Lemma mul_le r x y : 0 <= r -> x <= y -> r * x <= r * y.
Proof. intros Hr H. rewrite !(Qmult_comm r). apply Qmult_le_compat_r; assumption. Qed.

Lemma dupd0_pos x v : 0 <= x - v -> dupd 0 x v = x - v.
Proof. intro H. apply Qltb_false in H. unfold dupd. cbv zeta. rewrite H. reflexivity. Qed.
Lemma dupd0_neg x v : x - v < 0 -> dupd 0 x v = 0.
Proof. intro H. apply Qltb_true in H. unfold dupd. cbv zeta. rewrite H. reflexivity. Qed.
Lemma dupd0_le : forall x v, 0 <= v -> 0 <= x -> dupd 0 x v <= x /\ 0 <= dupd 0 x v.
Proof.
  intros x v Hv Hx. destruct (Qlt_le_dec (x - v) 0) as [H | H].
  - rewrite dupd0_neg by assumption. split; [assumption | apply Qle_refl].
  - rewrite dupd0_pos by assumption. split; lra.
Qed.

Lemma ttc_pos rem r : 0 < rem -> 0 < r -> ttc rem r = Some (rem / r).
Proof. intros Hrem Hr. apply Qltb_true in Hrem, Hr. unfold ttc. rewrite Hrem, Hr. reflexivity. Qed.
Lemma ttc_none rem r : r <= 0 -> ttc rem r = None.
Proof. intro Hr. apply Qltb_false in Hr. unfold ttc. rewrite Hr. reflexivity. Qed.

Lemma integral_0 : forall h, wf h -> integral h 0 == 0.
Proof.
  intros h Hwf. destruct h as [| s h']; cbn [integral]; [reflexivity |].
  inversion Hwf as [| s0 h0 [Hd Hr] Hwf']; subst.
  apply Qle_bool_iff in Hd. rewrite Hd. ring.
Qed.
Lemma integral_comp : forall h x y, x == y -> integral h x == integral h y.
Proof.
  induction h as [| s h' IH]; intros x y Hxy; cbn [integral]; [reflexivity |].
  rewrite Hxy at 1. destruct (Qle_bool y (sd s)).
  - rewrite Hxy. reflexivity.
  - rewrite (IH (x - sd s) (y - sd s)); [reflexivity | rewrite Hxy; reflexivity].
Qed.
Lemma integral_nonneg : forall h x, wf h -> 0 <= x -> 0 <= integral h x.
Proof.
  induction h as [| s h' IH]; intros x Hwf Hx; cbn [integral]; [apply Qle_refl |].
  inversion Hwf as [| s0 h0 [Hd Hr] Hwf']; subst.
  destruct (Qle_bool x (sd s)) eqn:E.
  - apply Qmult_le_0_compat; assumption.
  - apply Qleb_false in E. assert (H1 : 0 <= integral h' (x - sd s)) by (apply IH; [assumption | lra]).
    pose proof (Qmult_le_0_compat _ _ Hr Hd). lra.
Qed.
Lemma integral_mono : forall h x y, wf h -> 0 <= x -> x <= y -> integral h x <= integral h y.
Proof.
  induction h as [| s h' IH]; intros x y Hwf Hx Hxy; cbn [integral]; [apply Qle_refl |].
  inversion Hwf as [| s0 h0 [Hd Hr] Hwf']; subst.
  destruct (Qle_bool x (sd s)) eqn:Ex; destruct (Qle_bool y (sd s)) eqn:Ey.
  - apply mul_le; assumption.
  - apply Qle_bool_iff in Ex. apply Qleb_false in Ey.
    assert (H1 : 0 <= integral h' (y - sd s)) by (apply integral_nonneg; [assumption | lra]).
    pose proof (mul_le (sr s) x (sd s) Hr Ex). lra.
  - apply Qleb_false in Ex. apply Qle_bool_iff in Ey. exfalso. lra.
  - apply Qleb_false in Ex. assert (H1 : integral h' (x - sd s) <= integral h' (y - sd s)) by (apply IH; [assumption | lra | lra]).
    lra.
Qed.

(** when the action's own completion is the engine's next event, the step finishes it: the [None] is unreachable *)
Lemma full_own_event_finishes : forall rem r d, 0 < rem -> ttc rem r = Some d ->
  Qle_bool (dupd 0 rem (r * d)) 0 = true.
Proof.
  intros rem r d Hrem H. destruct (Qlt_le_dec 0 r) as [Hr | Hr]; [| rewrite ttc_none in H by assumption; discriminate].
  rewrite ttc_pos in H by assumption. injection H as <-.
  assert (Hq : r * (rem / r) == rem) by (field; lra).
  rewrite dupd0_pos by lra. apply Qle_bool_iff. lra.
Qed.

(** what one FULL step does: either the action's own event comes first and finishes it, or the whole segment elapses
    and the work of the segment is subtracted *)
Lemma full_step now rem s h : 0 < rem -> seg_ok s ->
  (0 < sr s /\ rem <= sr s * sd s /\
   full_run 0 now rem (s :: h) = Some (now + rem / sr s) /\ full_rems 0 rem (s :: h) = [0]) \/
  (sr s * sd s < rem /\
   full_run 0 now rem (s :: h) = full_run 0 (now + sd s) (rem - sr s * sd s) h /\
   full_rems 0 rem (s :: h) = (rem - sr s * sd s) :: full_rems 0 (rem - sr s * sd s) h).
Proof.
  intros Hrem [Hd Hr]. cbn [full_run full_rems]. cbv zeta.
  destruct (Qlt_le_dec (sr s * sd s) rem) as [Hlt | Hle]; [right | left].
  - rewrite dupd0_pos by lra. assert (Hnf : Qle_bool (rem - sr s * sd s) 0 = false) by (apply Qleb_false; lra). rewrite Hnf.
    destruct (Qlt_le_dec 0 (sr s)) as [Hr0 | Hr0]; [| rewrite ttc_none by assumption; auto].
    rewrite ttc_pos by assumption.
    assert (E : Qle_bool (rem / sr s) (sd s) = false) by (apply Qleb_false, Qlt_shift_div_l; [assumption | lra]).
    rewrite E. auto.
  - assert (Hr0 : 0 < sr s).
    { destruct (Qlt_le_dec 0 (sr s)) as [H | H]; [assumption |]. assert (H0 : sr s == 0) by lra. rewrite H0 in Hle. lra. }
    pose proof (ttc_pos rem (sr s) Hrem Hr0) as Ht. rewrite Ht, (full_own_event_finishes rem (sr s) _ Hrem Ht).
    assert (E : Qle_bool (rem / sr s) (sd s) = true) by (apply Qle_bool_iff, Qle_shift_div_r; [assumption | lra]).
    rewrite E. auto.
Qed.

(** C21 work exact / remaining zero exactly at completion, for FULL:
    the completion date is the first date at which the integral of the rate reaches the cost *)
Lemma full_char : forall h now rem T, wf h -> 0 < rem -> full_run 0 now rem h = Some T ->
  now <= T /\ integral h (T - now) == rem /\ (forall y, 0 <= y -> y < T - now -> integral h y < rem).
Proof.
  induction h as [| s h' IH]; intros now rem T Hwf Hrem Hrun; [discriminate |].
  inversion Hwf as [| s0 h0 Hs Hwf']; subst. pose proof Hs as [Hd Hr]. cbn [integral].
  destruct (full_step now rem s h' Hrem Hs) as [(Hr0 & Hle & Hfin & _) | (Hlt & Hgo & _)].
  - rewrite Hfin in Hrun. injection Hrun as <-.
    assert (Hq : sr s * (rem / sr s) == rem) by (field; lra).
    assert (Hq0 : 0 <= rem / sr s) by (apply Qle_shift_div_l; lra).
    assert (Hq1 : rem / sr s <= sd s) by (apply Qle_shift_div_r; lra).
    split; [lra |].
    assert (E : Qle_bool (now + rem / sr s - now) (sd s) = true) by (apply Qle_bool_iff; lra). rewrite E.
    split; [lra |]. intros y Hy Hyl.
    assert (Ey : Qle_bool y (sd s) = true) by (apply Qle_bool_iff; lra). rewrite Ey.
    assert (Hy2 : sr s * y < sr s * (rem / sr s)) by (apply Qmult_lt_l; lra). lra.
  - rewrite Hgo in Hrun.
    assert (Hrem' : 0 < rem - sr s * sd s) by lra.
    destruct (IH _ _ _ Hwf' Hrem' Hrun) as (H1 & H2 & H3).
    split; [lra |]. split.
    + destruct (Qle_bool (T - now) (sd s)) eqn:E.
      * apply Qle_bool_iff in E. assert (Hz : T - (now + sd s) == 0) by lra.
        rewrite (integral_comp h' _ _ Hz), (integral_0 h' Hwf') in H2. exfalso. lra.
      * assert (Hz : T - now - sd s == T - (now + sd s)) by ring.
        rewrite (integral_comp h' _ _ Hz). lra.
    + intros y Hy Hyl. destruct (Qle_bool y (sd s)) eqn:E.
      * apply Qle_bool_iff in E. pose proof (mul_le (sr s) y (sd s) Hr E). lra.
      * apply Qleb_false in E. assert (H4 : integral h' (y - sd s) < rem - sr s * sd s) by (apply H3; lra). lra.
Qed.

Lemma full_rems_nonincr : forall h rem, wf h -> 0 < rem -> nonincr rem (full_rems 0 rem h).
Proof.
  induction h as [| s h' IH]; intros rem Hwf Hrem; [exact I |].
  inversion Hwf as [| s0 h0 Hs Hwf']; subst. pose proof Hs as [Hd Hr].
  destruct (full_step 0 rem s h' Hrem Hs) as [(_ & _ & _ & ->) | (Hlt & _ & ->)]; cbn [nonincr].
  - repeat split; lra.
  - pose proof (Qmult_le_0_compat _ _ Hr Hd). repeat split; try lra. apply IH; [assumption | lra].
Qed.

(** the list of remaining values ends with 0 exactly when the action completes within the history *)
Lemma full_rems_last : forall h now rem, wf h -> 0 < rem ->
  (exists T, full_run 0 now rem h = Some T) <-> last (full_rems 0 rem h) 1 == 0.
Proof.
  induction h as [| s h' IH]; intros now rem Hwf Hrem.
  - cbn. split; [intros [T H]; discriminate | intro H; exfalso; lra].
  - inversion Hwf as [| s0 h0 Hs Hwf']; subst.
    destruct (full_step now rem s h' Hrem Hs) as [(_ & _ & -> & ->) | (Hlt & -> & ->)].
    + cbn. split; [reflexivity | eauto].
    + rewrite (IH (now + sd s) (rem - sr s * sd s) Hwf') by lra.
      destruct (full_rems 0 (rem - sr s * sd s) h'); [cbn; split; intro; exfalso; lra | reflexivity].
Qed.

(** LAZY = FULL.  [linv now st rem]: at date [now] the LAZY state predicts that [rem] is left, and its heap entry
    is the one computed at its last update. *)
Definition linv (now : Q) (st : lstate) (rem : Q) : Prop :=
  l_lu st <= now /\ 0 <= l_lv st /\ rem == l_rem st - l_lv st * (now - l_lu st) /\
  l_heap st = lazy_date (l_lu st) (l_rem st) (l_lv st).

Lemma touch_ok_comp : forall h p q, p == q -> touch_ok p h -> touch_ok q h.
Proof.
  intros [| s h'] p q Hpq H; [exact I |]. cbn in *. destruct H as [[H | H] H']; split; auto.
  right. rewrite H. assumption.
Qed.

Lemma oQeq_refl : forall a, oQeq a a.
Proof. intros [x |]; cbn; [reflexivity | exact I]. Qed.

Lemma linv_init : forall cost t0, linv t0 (lazy_init cost t0) cost.
Proof. intros cost t0. repeat split; cbn [lazy_init l_rem l_lu l_lv]; try apply Qle_refl. ring. Qed.

Lemma linv_rem_pos now st rem : 0 < rem -> linv now st rem -> 0 < l_rem st.
Proof.
  intros Hrem (Hlu & Hlv & Hrel & _). assert (0 <= l_lv st * (now - l_lu st)) by (apply Qmult_le_0_compat; lra). lra.
Qed.

(** the solve at the start of a segment leaves a state that still predicts [rem], now at the rate of the segment *)
Lemma linv_solve now st rem s : 0 < rem -> seg_ok s -> linv now st rem -> (stouched s = true \/ sr s == l_lv st) ->
  let st1 := if stouched s then lazy_touch 0 now st (sr s) else st in
  linv now st1 rem /\ l_lv st1 == sr s.
Proof.
  intros Hrem [Hd Hr] Hinv Htouch. cbv zeta. destruct (stouched s).
  - pose proof (linv_rem_pos now st rem Hrem Hinv) as Ep. apply Qltb_true in Ep. destruct Hinv as (Hlu & Hlv & Hrel & _).
    unfold lazy_touch, lazy_update. cbv zeta. rewrite Ep, dupd0_pos by lra.
    repeat split; cbn [l_rem l_lu l_lv]; lra.
  - destruct Htouch as [Ht | Hsame]; [discriminate |]. split; [assumption | symmetry; assumption].
Qed.

(** the heap holds the date at which FULL's time to completion elapses *)
Lemma linv_heap_pos now st rem : 0 < rem -> linv now st rem -> 0 < l_lv st ->
  exists date, l_heap st = Some date /\ date == now + rem / l_lv st.
Proof.
  intros Hrem Hinv Hlv. pose proof (linv_rem_pos now st rem Hrem Hinv) as E2. destruct Hinv as (_ & _ & Hrel & ->).
  apply Qltb_true in Hlv as E1. apply Qltb_true in E2. unfold lazy_date. rewrite E1, E2.
  eexists. split; [reflexivity |]. rewrite Hrel. field. lra.
Qed.
Lemma linv_heap_none now st rem : linv now st rem -> l_lv st <= 0 -> l_heap st = None.
Proof. intros (_ & _ & _ & ->) Hlv. apply Qltb_false in Hlv. unfold lazy_date. rewrite Hlv. reflexivity. Qed.

Lemma linv_advance : forall now st rem s, seg_ok s -> linv now st rem -> l_lv st == sr s ->
  linv (now + sd s) st (rem - sr s * sd s).
Proof.
  intros now st rem s [Hd Hr] (Hlu & Hlv & Hrel & Hheap) Hsame. repeat split; try assumption; try lra.
  rewrite Hrel, <- Hsame. ring.
Qed.

Theorem lazy_eq_full_gen : forall h now st rem, wf h -> 0 < rem -> linv now st rem -> touch_ok (l_lv st) h ->
  oQeq (lazy_run 0 now st h) (full_run 0 now rem h).
Proof.
  induction h as [| s h' IH]; intros now st rem Hwf Hrem Hinv Htok; [exact I |].
  inversion Hwf as [| s0 h0 Hs Hwf']; subst. destruct Htok as [Htouch Htok].
  destruct (linv_solve now st rem s Hrem Hs Hinv Htouch) as [Hinv1 Hlv1]. cbn [lazy_run]. cbv zeta.
  set (st1 := if stouched s then lazy_touch 0 now st (sr s) else st) in *.
  destruct (full_step now rem s h' Hrem Hs) as [(Hr0 & Hle & -> & _) | (Hlt & -> & _)].
  - (* the heap date is reached within the segment *)
    destruct (linv_heap_pos now st1 rem Hrem Hinv1) as (date & -> & Hdate); [lra |]. rewrite Hlv1 in Hdate.
    assert (E : Qle_bool date (now + sd s) = true).
    { apply Qle_bool_iff. rewrite Hdate. apply Qplus_le_r, Qle_shift_div_r; lra. }
    rewrite E. exact Hdate.
  - (* no heap date, or a later one: LAZY leaves the state alone until the end of the segment *)
    assert (Hnext : oQeq (lazy_run 0 (now + sd s) st1 h') (full_run 0 (now + sd s) (rem - sr s * sd s) h')).
    { apply IH; [assumption | lra | apply linv_advance; assumption |].
      apply (touch_ok_comp h' (sr s)); [symmetry; assumption | assumption]. }
    destruct (Qlt_le_dec 0 (l_lv st1)) as [Hp | Hz]; [| rewrite (linv_heap_none now st1 rem) by assumption; exact Hnext].
    destruct (linv_heap_pos now st1 rem Hrem Hinv1 Hp) as (date & -> & Hdate). rewrite Hlv1 in Hdate.
    assert (E : Qle_bool date (now + sd s) = false).
    { apply Qleb_false. rewrite Hdate. apply Qplus_lt_r, Qlt_shift_div_l; lra. }
    rewrite E. exact Hnext.
Qed.

Lemma sleep_eq_gen : forall steps now date md, Forall (fun d => 0 <= d) steps -> 0 < md -> date == now + md ->
  oQeq (lazy_sleep now date steps) (full_sleep 0 now md steps).
Proof.
  induction steps as [| d r IH]; intros now date md Hst Hmd Hdate; [exact I |].
  inversion Hst as [| d0 r0 Hd Hst']; subst. cbn [lazy_sleep full_sleep]. cbv zeta.
  destruct (Qle_bool md d) eqn:E.
  - assert (E1 : Qle_bool date (now + d) = true) by (apply Qle_bool_iff; apply Qle_bool_iff in E; lra).
    rewrite E1. rewrite dupd0_pos by lra.
    assert (E2 : Qle_bool (md - md) 0 = true) by (apply Qle_bool_iff; lra). rewrite E2. cbn. exact Hdate.
  - assert (E1 : Qle_bool date (now + d) = false) by (apply Qleb_false; apply Qleb_false in E; lra).
    rewrite E1. apply Qleb_false in E. rewrite dupd0_pos by lra.
    assert (E2 : Qle_bool (md - d) 0 = false) by (apply Qleb_false; lra). rewrite E2.
    apply IH; [assumption | lra | lra].
Qed.

Lemma trace_ok_sound : forall l tol prev, trace_ok tol prev l = true ->
  nonincr prev (rems_of l) /\ Qabs (prev - last_rem prev l - work_sum l) <= tol_sum tol l.
Proof.
  induction l as [| s l' IH]; intros tol prev H.
  - cbn [rems_of nonincr last_rem work_sum tol_sum]. split; [exact I |]. apply Qabs_Qle_condition. split; lra.
  - cbn [trace_ok] in H. repeat rewrite andb_true_iff in H. destruct H as ((((H1 & H2) & H3) & H4) & H5).
    apply Qle_bool_iff in H1. apply Qle_bool_iff in H2. apply Qle_bool_iff in H4.
    destruct (IH _ _ H5) as [Hn Hw]. cbn [rems_of nonincr last_rem work_sum tol_sum]. split; [auto |].
    apply Qabs_Qle_condition in H4. apply Qabs_Qle_condition in Hw. apply Qabs_Qle_condition.
    destruct H4 as [H4a H4b]. destruct Hw as [Hwa Hwb]. split; lra.
Qed.
