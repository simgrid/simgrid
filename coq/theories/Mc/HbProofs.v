(** C42 — proofs about SGV.Mc.Hb: the clock vectors of odpor::Execution decide exactly the transitive closure of
    "occurs before and is dependent with", and get_racing_events_of returns exactly the races. *)
From SGV Require Import Base.PlainLia Mc.Hb.
From Coq Require Import Relations Sorting.Sorted.
Local Open Scope nat_scope.

Lemma cv_get_nil p : cv_get [] p = None.
Proof. destruct p; reflexivity. Qed.

Lemma omax_none_r a : omax a None = a.
Proof. destruct a; reflexivity. Qed.

Lemma cv_get_max a b p : cv_get (cv_max a b) p = omax (cv_get a p) (cv_get b p).
Proof.
  revert b p; induction a as [|x a IH]; intros b p.
  - simpl cv_max. rewrite cv_get_nil. reflexivity.
  - destruct b as [|y b].
    + simpl cv_max. rewrite cv_get_nil, omax_none_r. reflexivity.
    + destruct p as [|p]; [reflexivity|]. apply (IH b p).
Qed.

Lemma cv_get_cons_S x (c : cv) q : cv_get (x :: c) (S q) = cv_get c q.
Proof. reflexivity. Qed.

Lemma cv_get_set c p v q : cv_get (cv_set c p v) q = if q =? p then Some v else cv_get c q.
Proof.
  revert c q; induction p as [|p IH]; intros c q.
  - destruct c, q; try reflexivity. cbn [cv_set]. rewrite cv_get_cons_S, !cv_get_nil. reflexivity.
  - destruct c as [|x c], q as [|q]; try reflexivity; cbn [cv_set]; rewrite cv_get_cons_S, IH.
    + rewrite !cv_get_nil. reflexivity.
    + reflexivity.
Qed.

Lemma omax_some_inv a b j : omax a b = Some j -> a = Some j \/ b = Some j.
Proof.
  destruct a as [x|], b as [y|]; simpl; intros H; auto.
  inv H. destruct (Nat.max_spec x y) as [[_ E]|[_ E]]; rewrite E; auto.
Qed.

Definition cv_le (c c' : cv) : Prop := forall q j, cv_get c q = Some j -> exists j', cv_get c' q = Some j' /\ j <= j'.
Lemma cv_le_refl c : cv_le c c.
Proof. intros q j H. eauto. Qed.
Lemma cv_le_trans a b c : cv_le a b -> cv_le b c -> cv_le a c.
Proof. intros H1 H2 q j H. destruct (H1 _ _ H) as (j1 & A & B). destruct (H2 _ _ A) as (j2 & C & D). exists j2. split; [exact C|lia]. Qed.
Lemma cv_le_max_l a b : cv_le a (cv_max a b).
Proof. intros q j H. rewrite cv_get_max, H. destruct (cv_get b q); simpl; eexists; split; eauto; lia. Qed.
Lemma cv_le_max_r a b : cv_le b (cv_max a b).
Proof. intros q j H. rewrite cv_get_max, H. destruct (cv_get a q); simpl; eexists; split; eauto; lia. Qed.

Lemma skip_get_nil p : skip_get [] p = [].
Proof. destruct p; reflexivity. Qed.

Lemma skip_get_cons_S x (s : skiplist) q : skip_get (x :: s) (S q) = skip_get s q.
Proof. reflexivity. Qed.

Lemma skip_get_add s p h q : skip_get (skip_add s p h) q = if q =? p then h :: skip_get s p else skip_get s q.
Proof.
  revert s q; induction p as [|p IH]; intros s q.
  - destruct s, q; try reflexivity. cbn [skip_add]. rewrite skip_get_cons_S, !skip_get_nil. reflexivity.
  - destruct s as [|l s], q as [|q]; try reflexivity; cbn [skip_add]; rewrite skip_get_cons_S, IH.
    + rewrite !skip_get_nil. reflexivity.
    + reflexivity.
Qed.

Lemma find_recent (f g : nat -> bool) n :
  match find f (rev (filter g (seq 0 n))) with
  | Some h => f h = true /\ g h = true /\ h < n /\ forall k, h < k -> k < n -> g k = true -> f k = false
  | None => forall k, k < n -> g k = true -> f k = false
  end.
Proof.
  induction n as [|n IH]; [simpl; intros; lia|].
  rewrite seq_S, filter_app, rev_app_distr. simpl.
  destruct (g n) eqn:Gn; simpl; [destruct (f n) eqn:Fn|]; [repeat split; auto; intros; lia| |].
  (* [n] is not found: the answer for [n] stands, and [n] itself is no counter-example *)
  all: destruct (find f _) as [h|]; [destruct IH as (A & B & C & D); repeat split; auto|]; intros k; intros;
    (destruct (Nat.eq_dec k n) as [->|]; [congruence|]); (apply D || apply IH); auto; lia.
Qed.

Section Fold.
Variable f : nat -> bool.
Variable g : nat -> cv.
Let F := fun (acc : cv) (events : list nat) =>
           match find f events with Some h => cv_max acc (g h) | None => acc end.

Lemma fold_sound l : forall acc q j,
  cv_get (fold_left F l acc) q = Some j ->
  cv_get acc q = Some j \/ exists evs h, In evs l /\ find f evs = Some h /\ cv_get (g h) q = Some j.
Proof.
  induction l as [|evs l IH]; intros acc q j H; simpl in H; auto.
  apply IH in H. destruct H as [H|(evs' & h & A & B & C)].
  - unfold F in H. destruct (find f evs) as [h|] eqn:Fe; auto.
    rewrite cv_get_max in H. apply omax_some_inv in H. destruct H; auto.
    right. exists evs, h. simpl; auto.
  - right. exists evs', h. simpl; auto.
Qed.

Lemma fold_ge_acc l : forall acc, cv_le acc (fold_left F l acc).
Proof.
  induction l as [|evs l IH]; intros acc; simpl; [apply cv_le_refl|].
  eapply cv_le_trans; [|apply IH]. unfold F. destruct (find f evs); [apply cv_le_max_l|apply cv_le_refl].
Qed.

Lemma fold_complete l : forall acc evs h, In evs l -> find f evs = Some h -> cv_le (g h) (fold_left F l acc).
Proof.
  induction l as [|e l IH]; intros acc evs h HI Hf; [inv HI|]. simpl. destruct HI as [->|HI]; [|eapply IH; eauto].
  eapply cv_le_trans; [|apply fold_ge_acc]. unfold F. rewrite Hf. apply cv_le_max_r.
Qed.
End Fold.

Lemma ins_desc_in x l y : In y (ins_desc x l) <-> y = x \/ In y l.
Proof.
  induction l as [|z l IH]; simpl.
  - intuition.
  - destruct (z <? x); simpl; [intuition|].
    destruct (z =? x) eqn:E; simpl.
    + apply Nat.eqb_eq in E; subst. intuition.
    + rewrite IH. intuition.
Qed.

Lemma sort_desc_in l y : In y (sort_desc l) <-> In y l.
Proof.
  induction l as [|x l IH]; simpl; [reflexivity|]. rewrite ins_desc_in, IH. intuition.
Qed.

Lemma ins_desc_sorted x l : StronglySorted gt l -> StronglySorted gt (ins_desc x l).
Proof.
  induction 1 as [|z l S IH F]; simpl.
  - constructor; constructor.
  - destruct (z <? x) eqn:E1.
    + apply Nat.ltb_lt in E1. constructor; [constructor; auto|].
      constructor; [lia|]. rewrite Forall_forall in *. intros y Hy. specialize (F y Hy). lia.
    + apply Nat.ltb_ge in E1. destruct (z =? x) eqn:E2.
      * constructor; auto.
      * apply Nat.eqb_neq in E2. constructor; auto.
        rewrite Forall_forall in *. intros y Hy. apply ins_desc_in in Hy. destruct Hy as [->|Hy]; [lia|auto].
Qed.

Lemma sort_desc_sorted l : StronglySorted gt (sort_desc l).
Proof. induction l; simpl; [constructor|apply ins_desc_sorted; auto]. Qed.

Lemma candidates_in c a v : In v (candidates c a) <-> exists p, p <> a /\ cv_get c p = Some v.
Proof.
  unfold candidates. rewrite sort_desc_in, in_flat_map. split.
  - intros (p & Hp & Hv). destruct (p =? a) eqn:E; [inv Hv|]. apply Nat.eqb_neq in E.
    destruct (cv_get c p) eqn:G; [|inv Hv]. destruct Hv as [->|[]]. eauto.
  - intros (p & Hp & G). exists p. split.
    + apply in_seq. split; [lia|]. simpl. destruct (Nat.lt_ge_cases p (length c)); auto.
      unfold cv_get in G. rewrite nth_overflow in G; auto. discriminate.
    + apply Nat.eqb_neq in Hp. rewrite Hp, G. simpl; auto.
Qed.

Section Prev.
Variable aid : nat -> nat.
Lemma prev_on_spec a t :
  match prev_on aid a t with
  | Some p => p < t /\ aid p = a /\ forall k, p < k -> k < t -> aid k <> a
  | None => forall k, k < t -> aid k <> a
  end.
Proof.
  induction t as [|t IH]; simpl; [intros; lia|].
  destruct (aid t =? a) eqn:E.
  - apply Nat.eqb_eq in E. repeat split; auto; intros; lia.
  - apply Nat.eqb_neq in E. destruct (prev_on aid a t) as [p|]; [destruct IH as (A & B & C); repeat split; auto|];
      intros k; intros; (destruct (Nat.eq_dec k t) as [->|]; [exact E|]); (apply C || apply IH); lia.
Qed.
Lemma prev_on_some a t p : prev_on aid a t = Some p -> p < t /\ aid p = a /\ forall k, p < k -> k < t -> aid k <> a.
Proof. intros H. pose proof (prev_on_spec a t) as S. rewrite H in S. exact S. Qed.
Lemma prev_on_none a t : prev_on aid a t = None -> forall k, k < t -> aid k <> a.
Proof. intros H. pose proof (prev_on_spec a t) as S. rewrite H in S. exact S. Qed.

End Prev.

(** the filtering loop, for any transitive relation included in < and any downward-closed rejection test *)
Section Loop.
Variable hbb : nat -> nat -> bool.
Variable bad : nat -> bool.
Hypothesis hbb_lt : forall a b, hbb a b = true -> a < b.

Let stepf := fun (acc : list nat) (e : nat) =>
  if bad e then acc else if existsb (fun ej => hbb e ej) acc then acc else acc ++ [e].

Lemma hbb_ge a b : b <= a -> hbb a b = false.
Proof. intros L. destruct (hbb a b) eqn:H; [apply hbb_lt in H; lia|reflexivity]. Qed.

Lemma stepf_in acc e x :
  In x (stepf acc e) <-> In x acc \/ x = e /\ bad e = false /\ existsb (fun ej => hbb e ej) acc = false.
Proof. unfold stepf. destruct (bad e); [|destruct (existsb _ acc)]; rewrite ?in_app_iff; simpl; intuition congruence. Qed.

(* [acc] holds the events done that are neither rejected nor below another kept one; every other event done is
   rejected or below a kept one *)
Lemma loop_inv todo : forall don acc,
  StronglySorted gt (don ++ todo) ->
  (forall a, In a acc -> In a don /\ bad a = false /\ forall a', In a' acc -> hbb a a' = false) ->
  (forall c, In c don -> In c acc \/ bad c = true \/ exists a, In a acc /\ hbb c a = true) ->
  let res := fold_left stepf todo acc in
  (forall a, In a res -> In a (don ++ todo) /\ bad a = false /\ forall a', In a' res -> hbb a a' = false) /\
  (forall c, In c (don ++ todo) -> In c res \/ bad c = true \/ exists a, In a res /\ hbb c a = true).
Proof.
  induction todo as [|e todo IH]; intros don acc S I1 I2; simpl.
  - rewrite app_nil_r. split; auto.
  - assert (Hgt : forall d, In d don -> d > e).
    { intros d Hd. clear -S Hd. induction don as [|x don IHd]; [inv Hd|].
      simpl in S. inv S. destruct Hd as [->|Hd]; auto.
      rewrite Forall_forall in H2. apply H2. apply in_or_app. right; simpl; auto. }
    replace (don ++ e :: todo) with ((don ++ [e]) ++ todo) in * by (rewrite <- app_assoc; reflexivity).
    apply IH; auto.
    + intros a Ha. apply stepf_in in Ha. rewrite in_app_iff. destruct Ha as [Ha|(-> & Be & Ee)].
      * destruct (I1 a Ha) as (A & B & C). repeat split; auto.
        intros a' Ha'. apply stepf_in in Ha'. destruct Ha' as [Ha'|(-> & _)]; [auto|].
        apply hbb_ge. specialize (Hgt a A). lia.
      * repeat split; simpl; auto.
        intros a' Ha'. apply stepf_in in Ha'. destruct Ha' as [Ha'|(-> & _)]; [|apply hbb_ge; lia].
        destruct (hbb e a') eqn:H; [|reflexivity]. rewrite <- Ee. symmetry. apply existsb_exists; eauto.
    + intros c Hc. apply in_app_iff in Hc. destruct Hc as [Hc|[<-|[]]].
      * destruct (I2 c Hc) as [A|[A|(a & A1 & A2)]]; [left|auto|right; right; exists a; split; [|exact A2]];
          apply stepf_in; auto.
      * destruct (bad e) eqn:Be; [auto|]. destruct (existsb (fun ej => hbb e ej) acc) eqn:Ee.
        -- apply existsb_exists in Ee. destruct Ee as (a & A1 & A2).
           right; right. exists a. split; [apply stepf_in; auto|exact A2].
        -- left. apply stepf_in. auto.
Qed.

Hypothesis hbb_trans : forall a b c, hbb a b = true -> hbb b c = true -> hbb a c = true.
Hypothesis bad_down : forall a b, hbb a b = true -> bad b = true -> bad a = true.

Lemma racing_loop_spec cs e : StronglySorted gt cs ->
  (In e (racing_loop hbb bad cs) <->
   In e cs /\ bad e = false /\ forall c, In c cs -> hbb e c = false).
Proof.
  intros S. unfold racing_loop.
  destruct (loop_inv cs [] [] S) as (I1 & I2); simpl; try (intros ? []).
  fold stepf. set (res := fold_left stepf cs []) in *. split.
  - intros He. destruct (I1 e He) as (A & B & C). repeat split; auto.
    intros c Hc. destruct (hbb e c) eqn:Hec; auto.
    destruct (I2 c Hc) as [D|[D|(a & D1 & D2)]].
    + rewrite C in Hec; auto.
    + rewrite (bad_down _ _ Hec D) in B. discriminate.
    + pose proof (hbb_trans _ _ _ Hec D2) as X. rewrite (C a D1) in X. discriminate.
  - intros (A & B & C). destruct (I2 e A) as [D|[D|(a & D1 & D2)]]; auto; [congruence|].
    destruct (I1 a D1) as (E & _). rewrite C in D2; auto. discriminate.
Qed.

Lemma loop_nodup todo : forall acc, NoDup (acc ++ todo) -> NoDup (fold_left stepf todo acc).
Proof.
  induction todo as [|e todo IH]; intros acc H; simpl.
  - rewrite app_nil_r in H; auto.
  - apply IH. unfold stepf. destruct (bad e); [|destruct (existsb _ acc)].
    1, 2: apply NoDup_remove_1 in H; auto.
    rewrite <- app_assoc; auto.
Qed.
End Loop.

Lemma sorted_gt_nodup l : StronglySorted gt l -> NoDup l.
Proof.
  induction 1 as [|x l S IH F]; constructor; auto.
  intros Hx. rewrite Forall_forall in F. specialize (F x Hx). lia.
Qed.

(** "e1 occurs before e2 and they are dependent"; its transitive closure is the specification of --> *)
Definition dep_before (dep : nat -> nat -> bool) (a b : nat) : Prop := a < b /\ dep a b = true.
Definition same_actor_dependent (aid : nat -> nat) (dep : nat -> nat -> bool) (n : nat) : Prop :=
  forall a b, a < b -> b < n -> aid a = aid b -> dep a b = true.

Section Exec.
Variable aid : nat -> nat.
Variable dep : nat -> nat -> bool.
(* an upper bound on the executions considered; same actor => dependent is only needed below it *)
Variable N : nat.
Hypothesis same_actor_dep : forall a b, a < b -> b < N -> aid a = aid b -> dep a b = true.

Notation HB := (clos_trans nat (dep_before dep)).
Definition HBeq (a b : nat) : Prop := a = b \/ HB a b.

Lemma HB_lt a b : HB a b -> a < b.
Proof. induction 1 as [a b [H _]|a b c _ H1 _ H2]; lia. Qed.

Lemma HBeq_le a b : HBeq a b -> a <= b.
Proof. intros [->|H]; [|apply HB_lt in H]; lia. Qed.

Lemma HB_last a b : HB a b -> exists k, HBeq a k /\ dep_before dep k b.
Proof.
  intros H. apply clos_trans_tn1 in H. destruct H as [b H|b c H1 H2].
  - exists a. split; [left; reflexivity|exact H].
  - exists b. split; [right; apply clos_tn1_trans; exact H2|exact H1].
Qed.

Lemma HBeq_HB a b c : HBeq a b -> HB b c -> HB a c.
Proof. intros [->|H1] H2; [exact H2|eapply t_trans; eassumption]. Qed.

Lemma HB_HBeq a b c : HB a b -> HBeq b c -> HB a c.
Proof. intros H1 [<-|H2]; [exact H1|eapply t_trans; eassumption]. Qed.

Lemma HBeq_same_actor a b : a <= b -> b < N -> aid a = aid b -> HBeq a b.
Proof.
  intros L Hb E. destruct (Nat.eq_dec a b) as [->|Ne]; [left; reflexivity|right].
  apply t_step. split; [lia|apply same_actor_dep; auto; lia].
Qed.

Lemma prev_HB t p : t < N -> prev_on aid (aid t) t = Some p -> HB p t.
Proof.
  intros Ht P. destruct (prev_on_some _ _ _ _ P) as (P1 & P2 & _). apply t_step. split; [exact P1|apply same_actor_dep; auto].
Qed.

Notation EX := (exec_of aid dep).

Lemma exec_length n : length (contents (EX n)) = n.
Proof. induction n; simpl; auto. rewrite app_length, IHn. simpl; lia. Qed.

Lemma exec_skip n p : skip_get (skip (EX n)) p = rev (filter (fun i => aid i =? p) (seq 0 n)).
Proof.
  revert p; induction n as [|n IH]; intros p.
  - destruct p as [|[|p]]; reflexivity.
  - cbn [exec_of push skip]. rewrite exec_length, skip_get_add, !IH.
    rewrite seq_S, filter_app, rev_app_distr. simpl.
    rewrite (Nat.eqb_sym p). destruct (aid n =? p) eqn:E; simpl; auto.
    apply Nat.eqb_eq in E; subst; reflexivity.
Qed.

Lemma ev_cv_old n i : i < n -> ev_cv (EX (S n)) i = ev_cv (EX n) i.
Proof. intros H. unfold ev_cv; simpl. rewrite app_nth1; auto. rewrite exec_length; auto. Qed.

Lemma ev_cv_stable n m i : i < n -> n <= m -> ev_cv (EX m) i = ev_cv (EX n) i.
Proof using same_actor_dep. intros H1 H2. induction H2; auto. rewrite ev_cv_old; auto; lia. Qed.

Definition newcv n : cv :=
  cv_set (fold_left (fun (acc : cv) (events : list nat) =>
                       match find (fun h => dep h n) events with
                       | Some h => cv_max acc (ev_cv (EX n) h)
                       | None => acc
                       end) (skip (EX n)) []) (aid n) n.

Lemma ev_cv_new n : ev_cv (EX (S n)) n = newcv n.
Proof.
  unfold ev_cv; simpl. rewrite app_nth2; rewrite exec_length; auto.
  rewrite Nat.sub_diag. reflexivity.
Qed.

Lemma in_skip_get n evs : In evs (skip (EX n)) -> exists p, evs = skip_get (skip (EX n)) p.
Proof. intros H. destruct (In_nth _ _ [] H) as (p & _ & E). exists p; auto. Qed.

Lemma skip_get_in n p h : find (fun h => dep h n) (skip_get (skip (EX n)) p) = Some h ->
  In (skip_get (skip (EX n)) p) (skip (EX n)).
Proof.
  intros H. unfold skip_get in *. destruct (Nat.lt_ge_cases p (length (skip (EX n)))) as [L|L].
  - apply nth_In; auto.
  - rewrite nth_overflow in H; auto. discriminate.
Qed.

Lemma skip_find n p :
  match find (fun h => dep h n) (skip_get (skip (EX n)) p) with
  | Some h => dep h n = true /\ aid h = p /\ h < n /\ forall k, h < k -> k < n -> aid k = p -> dep k n = false
  | None => forall k, k < n -> aid k = p -> dep k n = false
  end.
Proof.
  rewrite exec_skip. pose proof (find_recent (fun h => dep h n) (fun i => aid i =? p) n) as H.
  destruct (find _ _) as [h|].
  - destruct H as (A & B & C & D). apply Nat.eqb_eq in B. repeat split; auto. intros k K1 K2 <-. apply D; auto. apply Nat.eqb_refl.
  - intros k K <-. apply H; auto. apply Nat.eqb_refl.
Qed.

(** the meaning of a clock vector: component q of event i is the latest event of actor q that is i or --> i *)
Theorem cv_sound n : n <= N -> forall i q j, i < n -> cv_get (ev_cv (EX n) i) q = Some j -> aid j = q /\ HBeq j i.
Proof.
  induction n as [|n IH]; intros Hn i q j Hi H; [lia|].
  destruct (Nat.eq_dec i n) as [->|Ne].
  2:{ rewrite ev_cv_old in H by lia. apply IH; auto; lia. }
  rewrite ev_cv_new in H. unfold newcv in H. rewrite cv_get_set in H.
  destruct (q =? aid n) eqn:Eq.
  - apply Nat.eqb_eq in Eq. inv H. split; [reflexivity|left; reflexivity].
  - apply fold_sound in H. destruct H as [H|(evs & h & A & B & C)].
    + rewrite cv_get_nil in H. discriminate.
    + destruct (in_skip_get _ _ A) as (p & ->). pose proof (skip_find n p) as S. rewrite B in S.
      destruct S as (B1 & _ & B3 & _).
      destruct (IH ltac:(lia) h q j B3 C) as (D1 & D2).
      split; [exact D1|right]. apply (HBeq_HB _ h); [exact D2|]. apply t_step. split; assumption.
Qed.

Theorem cv_complete n : n <= N -> forall i j, i < n -> HBeq j i ->
  exists j', cv_get (ev_cv (EX n) i) (aid j) = Some j' /\ j <= j'.
Proof.
  induction n as [|n IH]; intros Hn i j Hi H; [lia|].
  destruct (Nat.eq_dec i n) as [->|Ne].
  2:{ rewrite ev_cv_old by lia. apply IH; auto; lia. }
  rewrite ev_cv_new. unfold newcv. rewrite cv_get_set.
  destruct H as [->|H].
  - rewrite Nat.eqb_refl. eauto.
  - destruct (aid j =? aid n) eqn:Eq.
    + exists n. split; auto. apply HB_lt in H. lia.
    + destruct (HB_last _ _ H) as (k & K1 & K2 & K3).
      (* the most recent event of k's actor that n depends on: it is k or later, and its clock is folded in *)
      pose proof (skip_find n (aid k)) as S.
      destruct (find (fun h => dep h n) (skip_get (skip (EX n)) (aid k))) as [h|] eqn:Fh.
      2:{ rewrite (S k K2 eq_refl) in K3. discriminate. }
      destruct S as (_ & B2 & B3 & B4).
      assert (k <= h) as Kh.
      { destruct (Nat.le_gt_cases k h); auto. rewrite (B4 k) in K3; auto. discriminate. }
      assert (HBeq j h) as Jh.
      { destruct (HBeq_same_actor k h Kh ltac:(lia) ltac:(congruence)) as [<-|Hkh]; [exact K1|right; exact (HBeq_HB _ _ _ K1 Hkh)]. }
      destruct (IH ltac:(lia) h j B3 Jh) as (j1 & C1 & C2).
      destruct (fold_complete (fun h => dep h n) (ev_cv (EX n)) (skip (EX n)) [] _ _ (skip_get_in _ _ _ Fh) Fh _ _ C1) as (j2 & D1 & D2).
      exists j2. split; auto. lia.
Qed.

Lemma hb_lt E a b : hb aid E a b = true -> a < b.
Proof. unfold hb. destruct (b <=? a) eqn:L; [discriminate|]. intros _. apply Nat.leb_gt, L. Qed.

Lemma hb_HB n a b : n <= N -> b < n -> (hb aid (EX n) a b = true <-> HB a b).
Proof.
  intros Hn Hb. split.
  - intros H. pose proof (hb_lt _ _ _ H) as L. apply Nat.leb_gt in L. unfold hb in H. rewrite L in H.
    destruct (cv_get (ev_cv (EX n) b) (aid a)) as [v|] eqn:G; [|discriminate]. apply Nat.leb_le in H.
    destruct (cv_sound n Hn _ _ _ Hb G) as (A & C). pose proof (HBeq_le _ _ C).
    assert (HBeq a v) as E by (apply HBeq_same_actor; auto; lia).
    destruct C as [->|C]; [destruct E as [->|E]; [apply Nat.leb_gt in L; lia|exact E]|exact (HBeq_HB _ _ _ E C)].
  - intros H. destruct (cv_complete n Hn b a Hb (or_intror H)) as (j' & A & B).
    apply HB_lt, Nat.leb_gt in H. unfold hb. rewrite H, A. apply Nat.leb_le, B.
Qed.

(** C42, first half *)
Theorem hb_iff n e1 e2 : n <= N -> e2 < n ->
  (hb aid (EX n) e1 e2 = true <-> e1 < e2 /\ HB e1 e2).
Proof using same_actor_dep.
  intros Hn H2. rewrite hb_HB by assumption. split; [|tauto]. intros H. split; [apply HB_lt|]; exact H.
Qed.

Corollary hb_irreflexive n e : hb aid (EX n) e e = false.
Proof. unfold hb. rewrite Nat.leb_refl. reflexivity. Qed.

(* events beyond the execution have an empty clock *)
Lemma hb_bound n a b : hb aid (EX n) a b = true -> b < n.
Proof.
  unfold hb, ev_cv. intros H. destruct (Nat.lt_ge_cases b n) as [|G]; [assumption|].
  rewrite nth_overflow, cv_get_nil in H by (rewrite exec_length; exact G). destruct (b <=? a); discriminate.
Qed.

Lemma hb_trans n a b c : n <= N -> hb aid (EX n) a b = true -> hb aid (EX n) b c = true -> hb aid (EX n) a c = true.
Proof.
  intros Hn H1 H2. pose proof (hb_bound _ _ _ H2) as Hc. pose proof (hb_lt _ _ _ H2).
  rewrite hb_HB in * by (assumption || lia). eapply t_trans; eassumption.
Qed.

(** component [aid m] of the clock of [t] is the last event of that actor that is [t] or --> [t] *)
Lemma cv_latest n t m : n <= N -> t < n -> HBeq m t ->
  exists c, cv_get (ev_cv (EX n) t) (aid m) = Some c /\ aid c = aid m /\ HBeq m c /\ HBeq c t.
Proof.
  intros Hn Ht H. destruct (cv_complete n Hn t m Ht H) as (c & G & L).
  destruct (cv_sound n Hn _ _ _ Ht G) as (A & C). exists c. repeat split; auto.
  apply HBeq_same_actor; auto. apply HBeq_le in C. lia.
Qed.

Lemma candidate_HB n t c : n <= N -> t < n -> In c (candidates (ev_cv (EX n) t) (aid t)) -> aid c <> aid t /\ HB c t.
Proof.
  intros Hn Ht Hc. apply candidates_in in Hc. destruct Hc as (p & P & G).
  destruct (cv_sound n Hn _ _ _ Ht G) as (<- & [->|C]); [congruence|auto].
Qed.

Lemma between_same_actor t e m : t < N -> aid m = aid t -> HB e m -> HB m t ->
  exists p, prev_on aid (aid t) t = Some p /\ HB e p.
Proof.
  intros Ht Em M1 M2. pose proof (HB_lt _ _ M2) as L2.
  destruct (prev_on aid (aid t) t) as [p|] eqn:P; [|destruct (prev_on_none _ _ _ P m L2 Em)].
  destruct (prev_on_some _ _ _ _ P) as (P1 & P2 & P3). exists p. split; [reflexivity|].
  assert (m <= p) by (destruct (Nat.le_gt_cases m p); auto; exfalso; apply (P3 m); auto).
  apply (HB_HBeq _ m); [exact M1|apply HBeq_same_actor; [lia..|congruence]].
Qed.

(** C42, second half: the racing events of [t] are exactly the events of other actors that happen before [t] with
    no event in between (the races e <. t of the ODPOR papers) *)
Theorem racing_exact n t e : n <= N -> t < n ->
  (In e (racing aid (EX n) t) <->
   aid e <> aid t /\ HB e t /\ forall m, ~ (HB e m /\ HB m t)).
Proof using same_actor_dep.
  intros Hn Ht. unfold racing.
  set (cs := candidates (ev_cv (EX n) t) (aid t)).
  rewrite racing_loop_spec.
  2: apply hb_lt.
  2: intros a b c; apply hb_trans, Hn.
  2:{ intros a b. destruct (prev_on aid (aid t) t); [apply hb_trans, Hn|discriminate]. }
  2: apply sort_desc_sorted.
  split.
  - intros (A & B & C). destruct (candidate_HB n t e Hn Ht A) as (D1 & D3). repeat split; auto.
    intros m [M1 M2]. destruct (Nat.eq_dec (aid m) (aid t)) as [Em|Em].
    + destruct (between_same_actor t e m) as (p & P & H); auto; [lia|]. rewrite P in B.
      apply prev_on_some in P. apply (hb_HB n) in H; [congruence|exact Hn|lia].
    + (* an event of another actor in between: the candidate of that actor is in between too *)
      destruct (cv_latest n t m Hn Ht (or_intror M2)) as (c & G & Ac & Mc & Ct).
      assert (In c cs) as Hc by (apply candidates_in; exists (aid m); auto).
      destruct (candidate_HB n t c Hn Ht Hc) as (_ & Lc). apply HB_lt in Lc.
      assert (hb aid (EX n) e c = true) as H by (apply hb_HB; [exact Hn|lia|exact (HB_HBeq _ _ _ M1 Mc)]).
      rewrite (C c Hc) in H. discriminate.
  - intros (A & B & C).
    (* the candidate of the actor of [e] is [e] itself, or it would be in between *)
    destruct (cv_latest n t e Hn Ht (or_intror B)) as (c & G & Ac & [<-|Ec] & Ct).
    2:{ destruct Ct as [->|Ct]; [congruence|]. destruct (C c); auto. }
    assert (In e cs) as He by (apply candidates_in; exists (aid e); auto).
    repeat split; auto.
    + destruct (prev_on aid (aid t) t) as [p|] eqn:P; [|reflexivity].
      destruct (hb aid (EX n) e p) eqn:H'; [|reflexivity]. pose proof (prev_HB t p ltac:(lia) P) as Hp.
      apply hb_HB in H'; [|exact Hn|apply HB_lt in Hp; lia]. destruct (C p); auto.
    + intros c Hc. destruct (hb aid (EX n) e c) eqn:H'; auto.
      destruct (candidate_HB n t c Hn Ht Hc) as (_ & D3). pose proof (HB_lt _ _ D3).
      apply hb_HB in H'; [|exact Hn|lia]. destruct (C c); auto.
Qed.

(** the same set, in the words of the property text: the maximal predecessors (w.r.t. -->) among the events of other
    actors, not already ordered before the previous event of the actor of [t] *)
Theorem racing_maximal n t e : n <= N -> t < n ->
  (In e (racing aid (EX n) t) <->
   aid e <> aid t /\ HB e t /\
   (forall p, prev_on aid (aid t) t = Some p -> ~ HB e p) /\
   (forall e', aid e' <> aid t -> HB e' t -> ~ HB e e')).
Proof.
  intros Hn Ht. rewrite racing_exact; auto. split.
  - intros (A & B & C). repeat split; auto.
    + intros p P H. apply (C p). split; [exact H|apply prev_HB; [lia|exact P]].
    + intros e' _ H1 H2. apply (C e'); auto.
  - intros (A & B & C & D). repeat split; auto. intros m [M1 M2].
    destruct (Nat.eq_dec (aid m) (aid t)) as [Em|Em]; [|apply (D m); auto].
    destruct (between_same_actor t e m) as (p & P & H); auto; [lia|]. exact (C p P H).
Qed.

Theorem racing_nodup n t : NoDup (racing aid (EX n) t).
Proof.
  unfold racing, racing_loop. apply loop_nodup. simpl. apply sorted_gt_nodup, sort_desc_sorted.
Qed.
End Exec.

Lemma C42_prev_on aid t p : prev_on aid (aid t) t = Some p <->
  p < t /\ aid p = aid t /\ forall k, p < k -> k < t -> aid k <> aid t.
Proof.
  split; [apply prev_on_some|]. intros (A & B & C).
  destruct (prev_on aid (aid t) t) as [q|] eqn:Q.
  - destruct (prev_on_some _ _ _ _ Q) as (A' & B' & C').
    destruct (Nat.lt_trichotomy p q) as [L|[->|L]]; auto; exfalso; [apply (C q)|apply (C' p)]; auto.
  - exfalso. eapply prev_on_none; eauto.
Qed.
