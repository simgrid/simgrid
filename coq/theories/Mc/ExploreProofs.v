(** C38 — the reference explorer is sound and complete w.r.t. the inductive reachability relation of the
    reference semantics (fuel exhaustion excluded). *)
From SGV Require Import Base.PlainLia Mc.McRef Mc.Explore.
Local Open Scope Z_scope.

Section DfsProofs.
  Variable St : Type.
  Variable eq_dec : forall x y : St, {x = y} + {x <> y}.
  Variable next : St -> list St.

  Inductive reach (s0 : St) : St -> Prop :=
  | reach_refl : reach s0 s0
  | reach_step : forall s t, reach s0 s -> In t (next s) -> reach s0 t.

  Lemma reach_trans : forall a b c, reach a b -> reach b c -> reach a c.
  Proof.
    intros a b c Hab Hbc. induction Hbc as [|s t Hbs IH Hin]; [assumption|].
    eapply reach_step; eauto.
  Qed.

  (* every successor of a visited state is visited or still on the stack *)
  Definition closed (stack visited : list St) : Prop :=
    forall v, In v visited -> forall t, In t (next v) -> In t visited \/ In t stack.

  Lemma dfs_closed : forall fuel stack visited V,
    dfs eq_dec next fuel stack visited = Some V ->
    closed stack visited ->
    closed [] V /\ incl visited V /\ incl stack V.
  Proof.
    induction fuel as [|f IH]; intros stack visited V Hd Hc; cbn [dfs] in Hd; [discriminate|].
    destruct stack as [|s rest].
    - inv Hd. split; [assumption|]. split; intros x Hx; [assumption|inversion Hx].
    - destruct (in_dec eq_dec s visited) as [Hin|Hnin].
      + assert (Hc' : closed rest visited).
        { intros v Hv t Ht. destruct (Hc v Hv t Ht) as [H|[H|H]]; subst; auto. }
        destruct (IH _ _ _ Hd Hc') as (H1 & H2 & H3).
        split; [assumption|]. split; [assumption|].
        intros x [Hx|Hx]; subst; auto.
      + assert (Hc' : closed (next s ++ rest) (s :: visited)).
        { intros v [Hv|Hv] t Ht.
          - subst v. right. apply in_or_app. left. assumption.
          - destruct (Hc v Hv t Ht) as [H|[H|H]].
            + left. right. assumption.
            + subst t. left. left. reflexivity.
            + right. apply in_or_app. right. assumption. }
        destruct (IH _ _ _ Hd Hc') as (H1 & H2 & H3).
        split; [assumption|]. split.
        * intros x Hx. apply H2. right. assumption.
        * intros x [Hx|Hx].
          -- subst x. apply H2. left. reflexivity.
          -- apply H3. apply in_or_app. right. assumption.
  Qed.

  Lemma dfs_sound : forall s0 fuel stack visited V,
    dfs eq_dec next fuel stack visited = Some V ->
    (forall x, In x stack -> reach s0 x) ->
    (forall x, In x visited -> reach s0 x) ->
    forall x, In x V -> reach s0 x.
  Proof.
    induction fuel as [|f IH]; intros stack visited V Hd Hs Hv; cbn [dfs] in Hd; [discriminate|].
    destruct stack as [|s rest].
    - inv Hd. assumption.
    - destruct (in_dec eq_dec s visited) as [Hin|Hnin].
      + eapply IH; eauto. intros x Hx. apply Hs. right. assumption.
      + eapply IH; eauto.
        * intros x Hx. apply in_app_or in Hx. destruct Hx as [Hx|Hx].
          -- eapply reach_step; [apply Hs; left; reflexivity|assumption].
          -- apply Hs. right. assumption.
        * intros x [Hx|Hx]; [subst; apply Hs; left; reflexivity|auto].
  Qed.

  Theorem dfs_correct : forall s0 fuel V,
    dfs eq_dec next fuel [s0] [] = Some V -> forall s, In s V <-> reach s0 s.
  Proof.
    intros s0 fuel V Hd s. split.
    - eapply dfs_sound; eauto.
      + intros x [Hx|[]]. subst. constructor.
      + intros x [].
    - intros Hr.
      destruct (dfs_closed _ _ _ _ Hd) as (Hc & _ & Hi).
      { intros v []. }
      induction Hr as [|u t Hu IH Ht].
      + apply Hi. left. reflexivity.
      + destruct (Hc u IH t Ht) as [H|[]]. assumption.
  Qed.
End DfsProofs.

(* one transition of some actor, from a state without error flag *)
Definition trans (P : prog) (s t : state) : Prop :=
  s_err s = 0 /\ exists a, (a < nact P)%nat /\ In t (step P s a).

Inductive reachable (P : prog) : state -> Prop :=
| reachable_init : reachable P (init P)
| reachable_step : forall s t, reachable P s -> trans P s t -> reachable P t.

(* all actors ran to the end of their code, no error *)
Definition is_terminal (P : prog) (s : state) : Prop :=
  s_err s = 0 /\ forall a, (a < nact P)%nat -> (length (ops_of P a) <= a_pc (getA s a))%nat.

(* an outcome printed by some complete execution *)
Definition reachable_terminal (P : prog) (o : list Z) : Prop :=
  exists s, reachable P s /\ is_terminal P s /\ outcome s = o.

(* some actor has code left, nobody can move *)
Definition is_deadlock (P : prog) (s : state) : Prop :=
  s_err s = 0 /\ ~ is_terminal P s /\ forall t, ~ trans P s t.

Definition deadlock_reachable (P : prog) : Prop := exists s, reachable P s /\ is_deadlock P s.
Definition failure_reachable (P : prog) : Prop := exists s, reachable P s /\ s_err s = 1.
Definition invalid_reachable (P : prog) : Prop := exists s, reachable P s /\ s_err s = 2.

Lemma succs_trans : forall P s t, In t (succs P s) <-> trans P s t.
Proof.
  intros P s t. unfold succs, trans. destruct (s_err s =? 0) eqn:He.
  - apply Z.eqb_eq in He. rewrite in_flat_map. split.
    + intros (a & Ha & Ht). apply in_seq in Ha. split; [assumption|]. exists a. split; [lia|assumption].
    + intros (_ & a & Ha & Ht). exists a. split; [apply in_seq; lia|assumption].
  - apply Z.eqb_neq in He. split; [intros []|]. intros (H0 & _). contradiction.
Qed.

Lemma reach_reachable : forall P s, reach state (succs P) (init P) s <-> reachable P s.
Proof.
  intros P s. split; induction 1 as [|u t Hu IH Ht].
  1, 3: constructor.
  all: econstructor; [eassumption|]; apply succs_trans; assumption.
Qed.

Lemma terminal_spec : forall P s, terminal P s = true <-> is_terminal P s.
Proof.
  intros P s. unfold terminal, is_terminal, finished. rewrite andb_true_iff, forallb_forall, Z.eqb_eq.
  split; intros (H0 & H); (split; [assumption|]).
  - intros a Ha. specialize (H a). rewrite Nat.leb_le in H. apply H. apply in_seq. lia.
  - intros a Ha. apply in_seq in Ha. apply Nat.leb_le. apply H. lia.
Qed.

Lemma deadlocked_spec : forall P s, deadlocked P s = true <-> is_deadlock P s.
Proof.
  intros P s. unfold deadlocked, is_deadlock. rewrite !andb_true_iff, negb_true_iff, Z.eqb_eq.
  split.
  - intros ((H0 & Ht) & Hs). split; [assumption|]. split.
    + intros Hterm. apply terminal_spec in Hterm. congruence.
    + intros t Htr. apply succs_trans in Htr. destruct (succs P s); [inversion Htr|discriminate].
  - intros (H0 & Hnt & Hno). split; [split; [assumption|]|].
    + destruct (terminal P s) eqn:Ht; [|reflexivity]. exfalso. apply Hnt. apply terminal_spec. assumption.
    + destruct (succs P s) as [|t l] eqn:Hs; [reflexivity|]. exfalso. apply (Hno t). apply succs_trans. rewrite Hs. left. reflexivity.
Qed.

Lemma explore_inv : forall fuel P R, explore fuel P = Some R ->
  exists V, (forall s, In s V <-> reachable P s) /\
    R = mkR V (map outcome (filter (terminal P) V)) (existsb (deadlocked P) V)
              (existsb (fun s => s_err s =? 1) V) (existsb (fun s => s_err s =? 2) V).
Proof.
  intros fuel P R He. unfold explore in He.
  destruct (dfs state_eq_dec (succs P) fuel [init P] []) as [V|] eqn:Hd; [|discriminate].
  exists V. split; [|congruence]. intros s. rewrite <- reach_reachable. eapply dfs_correct. eassumption.
Qed.

Lemma existsb_reachable : forall P V f (Q : state -> Prop),
  (forall s, In s V <-> reachable P s) -> (forall s, f s = true <-> Q s) ->
  (existsb f V = true <-> exists s, reachable P s /\ Q s).
Proof.
  intros P V f Q HV Hf. rewrite existsb_exists.
  split; intros (s & H1 & H2); exists s; (split; [apply HV|apply Hf]); assumption.
Qed.

Theorem explore_outcomes : forall fuel P R,
  explore fuel P = Some R -> forall o, reachable_terminal P o <-> In o (r_outcomes R).
Proof.
  intros fuel P R He o. destruct (explore_inv _ _ _ He) as (V & HV & ->). cbn [r_outcomes].
  rewrite in_map_iff. unfold reachable_terminal.
  split.
  - intros (s & Hr & Ht & Ho). exists s. split; [assumption|]. apply filter_In. split; [apply HV|apply terminal_spec]; assumption.
  - intros (s & Ho & Hf). apply filter_In in Hf. destruct Hf as (Hin & Ht). exists s.
    split; [apply HV; assumption|]. split; [apply terminal_spec; assumption|assumption].
Qed.

(* an error flag stops the execution: failure and invalid states have no successor, so they are neither terminal nor
   deadlocks, and every reachable state is of exactly one kind: running, terminal, deadlock, failed, invalid *)
Lemma error_is_final : forall P s t, s_err s <> 0 -> ~ trans P s t.
Proof. intros P s t H (H0 & _). contradiction. Qed.

(* for closed instances: evaluate the option once, under the match, so that the witness never enters the proof term *)
Lemma opt_ex : forall {A} (o : option A) (Q : A -> Prop),
  match o with Some x => Q x | None => False end -> exists x, o = Some x /\ Q x.
Proof. intros A [x|] Q H; [eauto|contradiction]. Qed.
