(** C39 — transitions the checker declares independent commute on the synchronisation kernel (mutex and semaphore
    groups), neither disabling the other.  The verdicts come from the regenerated table (Gen/DepLut.v). *)
From SGV Require Import Base.PlainLia Mc.Trans Mc.McKernel Gen.DepLut.
Local Open Scope Z_scope.

Lemma depends_plain : forall c1 c2, aid c1 <> aid c2 ->
  depends (Plain c1) (Plain c2) =
  if Nat.ltb (ty c2) (ty c1) then eval (lut_get dep_table (ty c2) (ty c1)) c2 c1
  else eval (lut_get dep_table (ty c1) (ty c2)) c1 c2.
Proof.
  intros c1 c2 H. unfold depends, depends_with. cbn [tr_aid unwrap]. rewrite (proj2 (Z.eqb_neq _ _) H). reflexivity.
Qed.

(* the cells of the mutex (below: semaphore) block of the table that hold EVAL_MUTEX_ID (EVAL_SEM_ID); the others hold
   ALWAYS_INDEP *)
Definition mutex_dep (p1 p2 : mop) : bool :=
  match p1, p2 with
  | MLock, (MLock | MTry) | MTest, MUnlock | MTry, (MLock | MTry | MUnlock)
  | MUnlock, (MTest | MTry | MWait) | MWait, MUnlock => true
  | _, _ => false
  end.
Lemma mutex_verdict : forall a1 a2 m1 m2 p1 p2, a1 <> a2 ->
  depends (Plain (core_of (KM a1 m1 p1))) (Plain (core_of (KM a2 m2 p2))) = Some (mutex_dep p1 p2 && (m1 =? m2)).
Proof.
  intros a1 a2 m1 m2 p1 p2 H. rewrite depends_plain by exact H.
  destruct p1, p2; try reflexivity; cbn [mutex_dep andb]; rewrite (Z.eqb_sym m1 m2); reflexivity.
Qed.
Definition sem_dep (p1 p2 : sop) : bool :=
  match p1, p2 with SLock, SLock | SUnlock, SWait | SWait, SUnlock => true | _, _ => false end.
Lemma sem_verdict : forall a1 a2 k1 k2 p1 p2, a1 <> a2 ->
  depends (Plain (core_of (KS a1 k1 p1))) (Plain (core_of (KS a2 k2 p2))) = Some (sem_dep p1 p2 && (k1 =? k2)).
Proof.
  intros a1 a2 k1 k2 p1 p2 H. rewrite depends_plain by exact H.
  destruct p1, p2; try reflexivity; cbn [sem_dep andb]; rewrite (Z.eqb_sym k1 k2); reflexivity.
Qed.

Lemma neqb : forall a b : Z, a <> b -> (a =? b) = false /\ (b =? a) = false.
Proof. intros a b H. split; apply Z.eqb_neq; congruence. Qed.

Lemma upd_same : forall A (f : Z -> A) k v, upd f k v k = v.
Proof. intros. unfold upd. rewrite Z.eqb_refl. reflexivity. Qed.
Lemma upd_other : forall A (f : Z -> A) k v k', k' <> k -> upd f k v k' = f k'.
Proof. intros A f k v k' H. unfold upd. destruct (Z.eqb_spec k' k); [contradiction|reflexivity]. Qed.

Lemma upd_swap : forall A (f : Z -> A) k1 k2 v1 v2 k, k1 <> k2 ->
  upd (upd f k1 v1) k2 v2 k = upd (upd f k2 v2) k1 v1 k.
Proof.
  intros A f k1 k2 v1 v2 k H. unfold upd. destruct (Z.eqb_spec k k2) as [->|]; [|reflexivity].
  rewrite (proj2 (Z.eqb_neq _ _)) by congruence. reflexivity.
Qed.

(* objects of one kind, each stepped by its own operation ([h]) of which something ([P]: it is enabled, it returns this)
   holds: steps on different objects commute and do not see each other; on one object they do if the object says so *)
Lemma upd_commute : forall A (R : A -> A -> Prop) (h1 h2 : A -> A) (P1 P2 : A -> Prop) (f : Z -> A) k1 k2,
  (forall x, R x x) -> P1 (f k1) -> P2 (f k2) ->
  (k1 = k2 -> R (h2 (h1 (f k1))) (h1 (h2 (f k1))) /\ P2 (h1 (f k1)) /\ P1 (h2 (f k1))) ->
  (forall k, R (upd (upd f k1 (h1 (f k1))) k2 (h2 (upd f k1 (h1 (f k1)) k2)) k)
               (upd (upd f k2 (h2 (f k2))) k1 (h1 (upd f k2 (h2 (f k2)) k1)) k)) /\
  P2 (upd f k1 (h1 (f k1)) k2) /\ P1 (upd f k2 (h2 (f k2)) k1).
Proof.
  intros A R h1 h2 P1 P2 f k1 k2 Rrefl H1 H2 H. destruct (Z.eq_dec k1 k2) as [E|N].
  - destruct (H E) as (Hx & H2' & H1'). subst k2. rewrite !upd_same. split; [|split; assumption].
    intros k. unfold upd. destruct (k =? k1); [exact Hx|apply Rrefl].
  - rewrite (upd_other _ f k1 _ k2), (upd_other _ f k2 _ k1) by congruence. split; [|split; assumption].
    intros k. rewrite upd_swap by exact N. apply Rrefl.
Qed.

Lemma existsb_snoc : forall a b l, existsb (Z.eqb a) (l ++ [b]) = existsb (Z.eqb a) l || (a =? b).
Proof. intros a b l. rewrite existsb_app. cbn. rewrite orb_false_r. reflexivity. Qed.

Lemma is_owner_inj : forall x a b, is_owner x a = true -> is_owner x b = true -> a = b.
Proof.
  unfold is_owner. intros x a b Ha Hb. destruct (owner x); [|discriminate].
  apply Z.eqb_eq in Ha, Hb. congruence.
Qed.

Lemma mutex_commute : forall x a1 a2 p1 p2,
  wfm x -> a1 <> a2 -> men x a1 p1 = true -> men x a2 p2 = true -> mutex_dep p1 p2 = false ->
  fst (mstep (fst (mstep x a1 p1)) a2 p2) = fst (mstep (fst (mstep x a2 p2)) a1 p1) /\
  snd (mstep (fst (mstep x a2 p2)) a1 p1) = snd (mstep x a1 p1) /\
  snd (mstep (fst (mstep x a1 p1)) a2 p2) = snd (mstep x a2 p2) /\
  men (fst (mstep x a1 p1)) a2 p2 = true /\ men (fst (mstep x a2 p2)) a1 p1 = true.
Proof.
  intros [ow q] a1 a2 p1 p2 Hwf Hne He1 He2 Hd. unfold wfm in Hwf. cbn [owner mq] in Hwf.
  destruct (neqb _ _ Hne) as [N12 N21].
  destruct p1, p2; try discriminate Hd; clear Hd.
  (* two actors cannot both own it (UNLOCK and WAIT) *)
  all: try (elim Hne; exact (is_owner_inj _ _ _ He1 He2)).
  (* one of the two is TEST, UNLOCK or WAIT: there is an owner *)
  all: destruct ow as [o|]; [|rewrite (Hwf eq_refl) in *; discriminate].
  all: unfold men, mstep, is_owner, holds_or_queued in *; cbn [owner mq fst snd negb] in *;
    rewrite ?existsb_snoc, ?N12, ?N21, ?orb_false_r, ?He1, ?He2.
  all: try (repeat split; reflexivity).
  (* left: LOCK with UNLOCK, which hands the mutex to the head of the queue *)
  all: destruct q as [|b r]; cbn [app owner mq fst snd existsb] in *;
    rewrite ?existsb_snoc, ?N12, ?N21, ?He1, ?He2, ?orb_false_r; repeat split; try reflexivity; try assumption.
  all: apply negb_true_iff, orb_false_iff in He1 || apply negb_true_iff, orb_false_iff in He2.
  all: rewrite (Z.eqb_sym b); apply negb_true_iff; apply He1 || apply He2.
Qed.

Lemma existsb_remove : forall a b l, existsb (Z.eqb a) (remove_z b l) = negb (a =? b) && existsb (Z.eqb a) l.
Proof.
  intros a b l. induction l as [|c l IH]; cbn [remove_z existsb].
  - rewrite andb_false_r. reflexivity.
  - destruct (Z.eqb_spec b c) as [Hbc|Hbc]; cbn [existsb]; rewrite IH;
      destruct (Z.eqb_spec a c); destruct (Z.eqb_spec a b); subst; cbn; try reflexivity; try congruence.
Qed.
(* granted sets are compared by membership: the order of two arrivals, of an arrival and a departure, of two departures *)
Lemma snoc_snoc_mem : forall a x y l, existsb (Z.eqb a) ((l ++ [x]) ++ [y]) = existsb (Z.eqb a) ((l ++ [y]) ++ [x]).
Proof. intros. rewrite !existsb_snoc, <- !orb_assoc, (orb_comm (a =? x)). reflexivity. Qed.
Lemma remove_snoc_mem : forall a x y l, x <> y -> existsb (Z.eqb a) (remove_z y (l ++ [x])) = existsb (Z.eqb a) (remove_z y l ++ [x]).
Proof.
  intros a x y l H. rewrite existsb_snoc, !existsb_remove, existsb_snoc.
  destruct (Z.eqb_spec a x) as [->|]; [|rewrite !orb_false_r; reflexivity].
  rewrite (proj2 (Z.eqb_neq x y) H), !orb_true_r. reflexivity.
Qed.
Lemma remove_remove_mem : forall a x y l, existsb (Z.eqb a) (remove_z y (remove_z x l)) = existsb (Z.eqb a) (remove_z x (remove_z y l)).
Proof. intros. rewrite !existsb_remove, !andb_assoc, (andb_comm (negb (a =? y))). reflexivity. Qed.

Ltac bool_crush :=
  repeat match goal with
         | H : _ && _ = true |- _ => apply andb_true_iff in H; destruct H
         | H : _ || _ = false |- _ => apply orb_false_iff in H; destruct H
         | H : negb _ = true |- _ => apply negb_true_iff in H
         end.

Definition wfs (x : sem) : Prop := 0 <= val x.
Lemma same_sem_refl : forall x, same_sem x x.
Proof. intros x. repeat split. Qed.
Lemma same_sem_sym : forall x y, same_sem x y -> same_sem y x.
Proof. intros x y (A & B & C). repeat split; auto. Qed.

Lemma sem_commute : forall x a1 a2 p1 p2,
  wfs x -> a1 <> a2 -> sen x a1 p1 = true -> sen x a2 p2 = true -> sem_dep p1 p2 = false ->
  same_sem (sstep (sstep x a1 p1) a2 p2) (sstep (sstep x a2 p2) a1 p1) /\
  sen (sstep x a1 p1) a2 p2 = true /\ sen (sstep x a2 p2) a1 p1 = true.
Proof.
  intros [v q g] a1 a2 p1 p2 Hwf Hne He1 He2 Hd. unfold wfs in Hwf. cbn [val] in Hwf.
  assert (Hne' : a2 <> a1) by congruence.
  destruct (neqb _ _ Hne) as [N12 N21].
  assert (V1 : (0 <? v + 1) = true) by (apply Z.ltb_lt; lia).
  (* LOCK with UNLOCK depends on the value and on the queue, LOCK with WAIT on the value, two WAITs on neither;
     two UNLOCKs are the same step twice *)
  destruct p1, p2; try discriminate Hd; clear Hd;
    [ destruct (0 <? v) eqn:Ev, q as [|b r] | destruct (0 <? v) eqn:Ev | destruct (0 <? v) eqn:Ev, q as [|b r]
    | split; [apply same_sem_refl|split; reflexivity] | destruct (0 <? v) eqn:Ev | ].
  all: cbn [sen sstep val sq sgr app existsb] in *; rewrite ?V1, ?Ev; cbn [sen sstep val sq sgr app existsb]; bool_crush.
  all: unfold same_sem; cbn [val sq sgr]; rewrite ?existsb_snoc, ?existsb_remove, ?N12, ?N21;
    repeat match goal with H : ?x = _ |- context [?x] => rewrite H end.
  all: repeat split; try reflexivity; try lia; intros a;
    first [apply snoc_snoc_mem | apply remove_snoc_mem; assumption | symmetry; apply remove_snoc_mem; assumption | apply remove_remove_mem].
Qed.

Definition wf_all (s : st) : Prop := wf s /\ forall k, wfs (S s k).

Definition opush (Ob : Z -> list Z) (a : Z) (r : option Z) : Z -> list Z :=
  match r with Some v => upd Ob a (v :: Ob a) | None => Ob end.
Lemma opush_comm : forall Ob a1 a2 r1 r2 a, a1 <> a2 ->
  opush (opush Ob a1 r1) a2 r2 a = opush (opush Ob a2 r2) a1 r1 a.
Proof.
  intros Ob a1 a2 [v1|] [v2|] a Hne; try reflexivity. cbn [opush].
  rewrite (upd_other _ Ob a1 _ a2), (upd_other _ Ob a2 _ a1) by congruence. apply upd_swap. exact Hne.
Qed.

Theorem commute : forall s t1 t2,
  wf_all s -> kaid t1 <> kaid t2 -> enabled s t1 = true -> enabled s t2 = true ->
  depends (Plain (core_of t1)) (Plain (core_of t2)) = Some false ->
  eqst (step (step s t1) t2) (step (step s t2) t1) /\
  enabled (step s t1) t2 = true /\ enabled (step s t2) t1 = true.
Proof.
  intros s t1 t2 [Hwm Hws] Hne He1 He2 Hd.
  destruct t1 as [a1 m1 p1|a1 k1 p1], t2 as [a2 m2 p2|a2 k2 p2]; cbn [kaid] in Hne; cbn [enabled] in He1, He2.
  2, 3: repeat split; try assumption; try reflexivity; intros k; apply same_sem_refl.
  - rewrite mutex_verdict in Hd by exact Hne.
    destruct (upd_commute _ eq (fun x => fst (mstep x a1 p1)) (fun x => fst (mstep x a2 p2))
                (fun x => men x a1 p1 = true /\ snd (mstep x a1 p1) = snd (mstep (M s m1) a1 p1))
                (fun x => men x a2 p2 = true /\ snd (mstep x a2 p2) = snd (mstep (M s m2) a2 p2))
                (M s) m1 m2 (@eq_refl _) (conj He1 eq_refl) (conj He2 eq_refl)) as (Hx & [Hn2 Hr2] & [Hn1 Hr1]).
    { intros ->. rewrite Z.eqb_refl, andb_true_r in Hd. injection Hd as Hd.
      destruct (mutex_commute (M s m2) a1 a2 p1 p2 (Hwm m2) Hne He1 He2 Hd) as (Hx & Hr1 & Hr2 & Hn1 & Hn2). auto. }
    cbn [step enabled M S O]. rewrite Hr1, Hr2. split; [|split; assumption].
    split; [exact Hx|split; [intros; apply same_sem_refl|]]. intros a. apply opush_comm. exact Hne.
  - rewrite sem_verdict in Hd by exact Hne.
    destruct (upd_commute _ same_sem (fun x => sstep x a1 p1) (fun x => sstep x a2 p2)
                (fun x => sen x a1 p1 = true) (fun x => sen x a2 p2 = true) (S s) k1 k2 same_sem_refl He1 He2) as (Hx & Hn2 & Hn1).
    { intros ->. rewrite Z.eqb_refl, andb_true_r in Hd. injection Hd as Hd.
      exact (sem_commute (S s k2) a1 a2 p1 p2 (Hws k2) Hne He1 He2 Hd). }
    split; [|split; assumption]. split; [reflexivity|split; [exact Hx|reflexivity]].
Qed.

(** the side conditions are invariants: the theorem applies in every state reachable from a well-formed one *)
Lemma wf_step : forall s t, wf_all s -> wf_all (step s t).
Proof.
  intros s t [Hm Hs]. destruct t as [a m op|a k op]; split.
  - intros m'. cbn [step M]. unfold upd. destruct (m' =? m); [|apply Hm].
    specialize (Hm m). unfold wfm in *. destruct (M s m) as [ow q]. cbn [owner mq] in *.
    destruct op; cbn [mstep fst owner mq]; try assumption.
    + destruct ow; cbn; discriminate.
    + destruct ow; cbn; [assumption|discriminate].
    + destruct q; cbn; [reflexivity|discriminate].
  - intros k'. cbn [step S]. apply Hs.
  - intros m'. cbn [step M]. apply Hm.
  - intros k'. cbn [step S]. unfold upd. destruct (k' =? k); [|apply Hs].
    specialize (Hs k). unfold wfs in *. destruct (S s k) as [v q g]. cbn [val] in *.
    destruct op; cbn [sstep val sq sgr].
    + destruct (0 <? v) eqn:E; cbn [val]; lia.
    + destruct q; cbn [val]; lia.
    + assumption.
Qed.
