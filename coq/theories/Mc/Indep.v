(** C39 — the dependency relation is symmetric (for any table whose diagonal holds order-insensitive actions). *)
From SGV Require Import Base.PlainLia Mc.Trans.
Local Open Scope Z_scope.

Lemma barrier_depends_sym : forall c1 c2, ty c1 = ty c2 -> barrier_depends c1 c2 = barrier_depends c2 c1.
Proof.
  intros c1 c2 H. unfold barrier_depends. rewrite H. rewrite (Z.eqb_sym (o1 c1) (o1 c2)). reflexivity.
Qed.

Lemma eval_sym : forall a c1 c2, sym_action a = true -> ty c1 = ty c2 -> eval a c1 c2 = eval a c2 c1.
Proof.
  intros a c1 c2 Hs Ht. destruct a; cbn in Hs; try discriminate; cbn [eval]; try reflexivity.
  (* the barrier rule; the two disjunctions of mirrored tests; the seven equalities of one field of both *)
  1: rewrite barrier_depends_sym by assumption; reflexivity.
  1, 9: rewrite orb_comm; reflexivity.
  all: rewrite Z.eqb_sym; reflexivity.
Qed.

Lemma diag_from_sound : forall tbl rows k,
  diag_ok_from tbl k rows = true ->
  forall i, (i < length rows)%nat -> sym_action (nth (k + i) (nth i rows []) PANIC_NOMC) = true.
Proof.
  intros tbl rows. induction rows as [|r rows IH]; intros k H i Hi; cbn in Hi; [lia|].
  cbn [diag_ok_from] in H. apply andb_true_iff in H. destruct H as [H1 H2].
  destruct i as [|i]; cbn [nth].
  - rewrite Nat.add_0_r. exact H1.
  - replace (k + S i)%nat with (S k + i)%nat by lia. apply IH; [assumption|lia].
Qed.

Lemma diag_sound : forall tbl i, diag_ok tbl = true -> sym_action (lut_get tbl i i) = true.
Proof.
  intros tbl i H. unfold lut_get. destruct (Nat.lt_ge_cases i (length tbl)) as [Hi|Hi].
  - apply (diag_from_sound tbl tbl 0 H i Hi).
  - rewrite (nth_overflow tbl) by lia. destruct i; reflexivity.
Qed.

Theorem depends_sym : forall tbl x y, diag_ok tbl = true -> depends_with tbl x y = depends_with tbl y x.
Proof.
  intros tbl x y Hd. unfold depends_with. rewrite (Z.eqb_sym (tr_aid y) (tr_aid x)).
  destruct (tr_aid x =? tr_aid y); [reflexivity|].
  destruct (Nat.ltb (ty (unwrap y)) (ty (unwrap x))) eqn:E1; destruct (Nat.ltb (ty (unwrap x)) (ty (unwrap y))) eqn:E2;
    try reflexivity.
  - apply Nat.ltb_lt in E1. apply Nat.ltb_lt in E2. lia.
  - apply Nat.ltb_ge in E1. apply Nat.ltb_ge in E2.
    assert (Ht : ty (unwrap x) = ty (unwrap y)) by lia.
    rewrite <- Ht.
    apply eval_sym; [apply diag_sound; assumption|assumption].
Qed.
