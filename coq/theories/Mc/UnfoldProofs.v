(** C44 — the History iterator reaches the causal closure of its initial events whatever element of the frontier it
    pops ([hinv]), so the predicates of EventSet and UnfoldingEvent are their definitions on the causal order;
    variable_for_loop enumerates the cartesian product; the reference enumerations the oracles compare with list each
    qualifying set once. *)
From SGV Require Import Base.PlainLia Mc.Unfold Mc.UnfoldOracle.
From Coq Require Import Relations Sorting.Permutation.
Local Open Scope nat_scope.

Lemma mem_In e s : mem e s = true <-> In e s.
Proof.
  unfold mem. rewrite existsb_exists. split.
  - intros (x & Hx & E). apply Nat.eqb_eq in E. subst; auto.
  - intros H. exists e. split; auto. apply Nat.eqb_refl.
Qed.
Lemma mem_false e s : mem e s = false <-> ~ In e s.
Proof. rewrite <- mem_In. destruct (mem e s); split; congruence. Qed.

Lemma set_add_In e s x : In x (set_add e s) <-> x = e \/ In x s.
Proof.
  unfold set_add. destruct (mem e s) eqn:M; simpl.
  - apply mem_In in M. split; auto. intros [->|]; auto.
  - split; intros [H|H]; auto.
Qed.
Lemma set_add_NoDup e s : NoDup s -> NoDup (set_add e s).
Proof.
  unfold set_add. destruct (mem e s) eqn:M; auto. intros H. constructor; auto. apply mem_false; auto.
Qed.
Lemma set_remove_In e s x : In x (set_remove e s) <-> In x s /\ x <> e.
Proof.
  unfold set_remove. rewrite filter_In. split; intros [A B]; split; auto.
  - apply negb_true_iff, Nat.eqb_neq in B; auto.
  - apply negb_true_iff, Nat.eqb_neq; auto.
Qed.
Lemma set_subtract_In s o x : In x (set_subtract s o) <-> In x s /\ ~ In x o.
Proof.
  unfold set_subtract. rewrite filter_In. split; intros [A B]; split; auto.
  - apply negb_true_iff, mem_false in B; auto.
  - apply negb_true_iff, mem_false; auto.
Qed.
Lemma set_union_In s o x : In x (set_union s o) <-> In x s \/ In x o.
Proof.
  unfold set_union. induction o as [|y o IH]; simpl; [tauto|].
  rewrite set_add_In, IH. split; intros [H|[H|H]]; auto.
Qed.
Lemma set_union_NoDup s o : NoDup s -> NoDup (set_union s o).
Proof. intros H. unfold set_union. induction o; simpl; auto. apply set_add_NoDup; auto. Qed.
Lemma subset_b_spec s o : subset_b s o = true <-> incl s o.
Proof.
  unfold subset_b. rewrite forallb_forall. unfold incl. split; intros H x Hx; [apply mem_In|apply mem_In]; auto.
Qed.
Lemma set_eqb_spec s o : set_eqb s o = true <-> (forall x, In x s <-> In x o).
Proof.
  unfold set_eqb. rewrite andb_true_iff, !subset_b_spec. unfold incl. split.
  - intros [A B] x; split; auto.
  - intros H; split; intros x; apply H.
Qed.

Section Hist.
Variable causes : nat -> eset.
Variable pick : nat -> eset -> nat.
(* events are created after their causes *)
Hypothesis causes_lt : forall e c, In c (causes e) -> c < e.
(* begin() of a non-empty unordered_set is one of its elements -- the only thing assumed about the iteration order *)
Hypothesis pick_in : forall k s, s <> [] -> In (pick k s) s.

(** causality: c is an immediate cause of e;  le = reflexive-transitive closure (e' <= e), lt = transitive closure *)
Definition icause (c e : nat) : Prop := In c (causes e).
Definition le : nat -> nat -> Prop := clos_refl_trans nat icause.
Definition lt : nat -> nat -> Prop := clos_trans nat icause.

Lemma lt_num a b : lt a b -> a < b.
Proof. induction 1 as [a b H|a b c _ H1 _ H2]; [apply causes_lt; auto|lia]. Qed.
Lemma le_num a b : le a b -> a <= b.
Proof. induction 1 as [a b H| |a b c _ H1 _ H2]; [apply causes_lt in H; lia|lia|lia]. Qed.
Lemma le_lt_eq a b : le a b <-> a = b \/ lt a b.
Proof.
  split.
  - induction 1 as [a b H| |a b c _ H1 _ H2]; auto.
    + right; apply t_step; auto.
    + destruct H1 as [->|H1], H2 as [->|H2]; auto. right. eapply t_trans; eauto.
  - intros [->|H]; [apply rt_refl|]. induction H; [apply rt_step; auto|eapply rt_trans; eauto].
Qed.
Lemma le_trans a b c : le a b -> le b c -> le a c.
Proof. intros; eapply rt_trans; eauto. Qed.
Lemma lt_irrefl a : ~ lt a a.
Proof. intros H. apply lt_num in H. lia. Qed.
Lemma lt_first a b : lt a b -> exists h, icause a h /\ le h b.
Proof.
  intros H. apply clos_trans_t1n in H. destruct H as [b H|h b H1 H2].
  - exists b. split; auto. apply rt_refl.
  - exists h. split; auto. apply le_lt_eq. right. apply clos_t1n_trans; auto.
Qed.
Lemma le_antisym a b : le a b -> le b a -> a = b.
Proof using causes_lt pick_in. intros H1 H2. apply le_num in H1. apply le_num in H2. lia. Qed.

Definition below (initial : eset) (x : nat) : Prop := exists e0, In e0 initial /\ le x e0.

(** the loop invariant of History::Iterator *)
Record hinv (initial : eset) (it : hiter) (visited : list nat) : Prop := {
  hi_init : forall e, In e initial -> In e (current_history it) \/ In e (frontier it);
  hi_closed : forall h c, In h (current_history it) -> In c (causes h) ->
                          In c (current_history it) \/ In c (frontier it);
  hi_below : forall x, In x (current_history it) \/ In x (frontier it) -> below initial x;
  hi_nodup : NoDup (current_history it);
  hi_disj : forall x, In x (frontier it) -> ~ In x (current_history it);
  hi_max : forall e, In e (maximal_events it) <->
                     In e initial /\ forall h, In h (current_history it) -> ~ In e (causes h);
  hi_visited : visited = rev (current_history it)
}.

Lemma hinv_init initial : hinv initial (hinit initial) [].
Proof.
  constructor; simpl.
  - auto.
  - intros h c [].
  - intros x [[]|H]. exists x. split; auto. apply rt_refl.
  - constructor.
  - auto.
  - intros e. split; [intros H; split; auto|tauto].
  - reflexivity.
Qed.

Lemma hinv_step initial k it v : frontier it <> [] -> hinv initial it v ->
  hinv initial (hstep causes pick k it) (v ++ [pick k (frontier it)]) /\
  ~ In (pick k (frontier it)) (current_history it).
Proof.
  intros Hne I. pose proof (pick_in k _ Hne) as Hp. set (e := pick k (frontier it)) in *.
  pose proof (hi_disj _ _ _ I e Hp) as Hnew.
  split; auto. unfold hstep. fold e.
  assert (Hadd : forall x, In x (set_add e (current_history it)) <-> x = e \/ In x (current_history it))
    by (intros; apply set_add_In).
  constructor; cbn [frontier current_history maximal_events].
  - intros x Hx. destruct (hi_init _ _ _ I x Hx) as [H|H].
    + left. apply Hadd; auto.
    + destruct (Nat.eq_dec x e) as [->|Ne]; [left; apply Hadd; auto|].
      right. apply set_union_In. left. apply set_remove_In. auto.
  - intros h c Hh Hc. apply Hadd in Hh.
    destruct (in_dec Nat.eq_dec c (set_add e (current_history it))) as [Hin|Hnin]; auto.
    right. apply set_union_In. destruct Hh as [->|Hh].
    + right. apply set_subtract_In. auto.
    + destruct (hi_closed _ _ _ I h c Hh Hc) as [H|H].
      * exfalso. apply Hnin. apply Hadd; auto.
      * left. apply set_remove_In. split; auto. intros ->. apply Hnin, Hadd; auto.
  - intros x [Hx|Hx].
    + apply Hadd in Hx. destruct Hx as [->|Hx]; apply (hi_below _ _ _ I); auto.
    + apply set_union_In in Hx. destruct Hx as [Hx|Hx].
      * apply set_remove_In in Hx. apply (hi_below _ _ _ I); tauto.
      * apply set_subtract_In in Hx. destruct Hx as [Hx _].
        destruct (hi_below _ _ _ I e (or_intror Hp)) as (e0 & A & B). exists e0. split; auto.
        eapply le_trans; eauto. apply rt_step; auto.
  - apply set_add_NoDup. apply (hi_nodup _ _ _ I).
  - intros x Hx Hh. apply Hadd in Hh. apply set_union_In in Hx. destruct Hx as [Hx|Hx].
    + apply set_remove_In in Hx. destruct Hx as [Hx Ne]. destruct Hh as [->|Hh]; [congruence|].
      apply (hi_disj _ _ _ I x); auto.
    + apply set_subtract_In in Hx. destruct Hx as [_ Hx]. apply Hx, Hadd; auto.
  - intros x. rewrite set_subtract_In, (hi_max _ _ _ I). split.
    + intros [[A B] C]. split; auto. intros h Hh. apply Hadd in Hh. destruct Hh as [->|Hh]; auto.
    + intros [A B]. split; [split; auto|].
      * intros h Hh. apply B, Hadd; auto.
      * apply B, Hadd; auto.
  - rewrite (hi_visited _ _ _ I). unfold set_add. apply mem_false in Hnew. rewrite Hnew. reflexivity.
Qed.

Lemma hrun_inv initial fuel : forall k it v res vis,
  hinv initial it v -> hrun causes pick fuel k it v = Some (res, vis) ->
  hinv initial res vis /\ frontier res = [].
Proof.
  induction fuel as [|f IH]; intros k it v res vis I H; simpl in H.
  - destruct (frontier it) eqn:F; inv H. auto.
  - destruct (frontier it) eqn:F.
    + inv H. auto.
    + rewrite <- F in H. eapply IH; [|exact H]. apply hinv_step; auto. congruence.
Qed.

(* termination: the history only contains distinct events <= the largest initial one *)
Lemma below_bound initial x : below initial x -> x <= list_max initial.
Proof.
  intros (e0 & A & B). apply le_num in B. pose proof (proj1 (list_max_le initial _) (le_n _)) as M.
  rewrite Forall_forall in M. specialize (M e0 A). lia.
Qed.

Lemma hist_length initial it v : hinv initial it v -> length (current_history it) <= S (list_max initial).
Proof.
  intros I. rewrite <- (seq_length (S (list_max initial)) 0).
  apply NoDup_incl_length; [apply (hi_nodup _ _ _ I)|].
  intros x Hx. apply in_seq. pose proof (below_bound _ _ (hi_below _ _ _ I x (or_introl Hx))). lia.
Qed.

Lemma hrun_terminates initial fuel : forall k it v,
  hinv initial it v -> S (list_max initial) < fuel + length (current_history it) + (match frontier it with [] => 1 | _ => 0 end) ->
  hrun causes pick fuel k it v <> None.
Proof.
  induction fuel as [|f IH]; intros k it v I H; simpl.
  - destruct (frontier it) eqn:F; [discriminate|]. pose proof (hist_length _ _ _ I). simpl in H. lia.
  - destruct (frontier it) eqn:F; [discriminate|]. rewrite <- F.
    assert (Hne : frontier it <> []) by congruence.
    destruct (hinv_step initial k it v Hne I) as [I' Hnew].
    apply IH; auto.
    assert (length (current_history (hstep causes pick k it)) = S (length (current_history it))) as ->.
    { unfold hstep; cbn [current_history]. unfold set_add. apply mem_false in Hnew. rewrite Hnew. reflexivity. }
    simpl in H. destruct (frontier (hstep causes pick k it)); lia.
Qed.

Lemma history_run_spec initial : exists it vis, history_run causes pick initial = Some (it, vis) /\
  (forall x, In x (current_history it) <-> below initial x) /\
  NoDup (current_history it) /\
  vis = rev (current_history it) /\
  (forall e, In e (maximal_events it) <-> In e initial /\ forall e', In e' initial -> ~ lt e e').
Proof.
  unfold history_run. destruct (hrun causes pick (hfuel initial) 0 (hinit initial) []) as [[it vis]|] eqn:R.
  2:{ exfalso. revert R. apply hrun_terminates with (initial := initial); [apply hinv_init|].
      unfold hfuel. simpl. destruct initial; simpl; lia. }
  exists it, vis. split; [reflexivity|].
  destruct (hrun_inv initial _ _ _ _ _ _ (hinv_init initial) R) as [I F].
  assert (Hcl : forall x, below initial x -> In x (current_history it)).
  { intros x (e0 & A & B). destruct (hi_init _ _ _ I e0 A) as [H0|H0]; [|rewrite F in H0; inv H0].
    clear A. apply clos_rt_rt1n in B. induction B as [|x y z Hxy _ IH]; auto.
    specialize (IH H0). destruct (hi_closed _ _ _ I y x IH Hxy) as [H|H]; auto. rewrite F in H; inv H. }
  split; [|split; [|split]].
  - intros x; split; auto. intros Hx. apply (hi_below _ _ _ I); auto.
  - apply (hi_nodup _ _ _ I).
  - apply (hi_visited _ _ _ I).
  - intros e. rewrite (hi_max _ _ _ I). split; intros [A B]; split; auto.
    + intros e' He' Hlt. destruct (lt_first _ _ Hlt) as (h & H1 & H2).
      apply (B h); auto. apply Hcl. exists e'; auto.
    + intros h Hh Hc. destruct (hi_below _ _ _ I h (or_introl Hh)) as (e0 & C & D).
      apply (B e0 C). apply le_lt_eq in D. destruct D as [->|D]; [apply t_step; auto|].
      eapply t_trans; [apply t_step; exact Hc|exact D].
Qed.

(** C44: History(S).get_all_events() is the causal closure of S, whatever the iteration order *)
Theorem get_all_events_spec s x : In x (get_all_events causes pick s) <-> exists e0, In e0 s /\ le x e0.
Proof. unfold get_all_events. destruct (history_run_spec s) as (it & vis & -> & A & _). apply A. Qed.
Theorem get_all_events_nodup s : NoDup (get_all_events causes pick s).
Proof. unfold get_all_events. destruct (history_run_spec s) as (it & vis & -> & _ & B & _). exact B. Qed.
(* iterating over a History yields every event of the closure exactly once *)
Theorem history_sequence_spec s :
  NoDup (history_sequence causes pick s) /\
  forall x, In x (history_sequence causes pick s) <-> exists e0, In e0 s /\ le x e0.
Proof.
  unfold history_sequence. destruct (history_run_spec s) as (it & vis & -> & A & B & -> & _). split.
  - apply NoDup_rev; auto.
  - intros x. rewrite <- in_rev. apply A.
Qed.
(** C44: get_all_maximal_events = the events of S that are not a strict cause of another event of S *)
Theorem get_all_maximal_events_spec s e :
  In e (get_all_maximal_events causes pick s) <-> In e s /\ forall e', In e' s -> ~ lt e e'.
Proof. unfold get_all_maximal_events. destruct (history_run_spec s) as (it & vis & -> & _ & _ & _ & D). apply D. Qed.

Lemma local_config_spec e x : In x (local_config causes pick e) <-> le x e.
Proof.
  unfold local_config. rewrite get_all_events_spec. split.
  - intros (e0 & [<-|[]] & H); auto.
  - intros H; exists e; simpl; auto.
Qed.
Lemma history_of_spec e x : In x (history_of causes pick e) <-> lt x e.
Proof.
  unfold history_of. rewrite set_remove_In, local_config_spec, le_lt_eq. split.
  - intros [[->|H] N]; auto; congruence.
  - intros H. split; auto. intros ->. apply (lt_irrefl _ H).
Qed.
Lemma in_history_of_spec e other : in_history_of causes pick e other = true <-> le e other.
Proof.
  unfold in_history_of. rewrite existsb_exists. destruct (history_sequence_spec [other]) as [_ H]. split.
  - intros (x & Hx & E). apply Nat.eqb_eq in E; subst x. apply H in Hx. destruct Hx as (e0 & [<-|[]] & L); auto.
  - intros L. exists e. split; [|apply Nat.eqb_refl]. apply H. exists other; simpl; auto.
Qed.
Lemma related_to_spec e other : related_to causes pick e other = true <-> le e other \/ le other e.
Proof. unfold related_to. rewrite orb_true_iff, !in_history_of_spec. tauto. Qed.

(** C44: is_maximal(S) iff no event of S is a strict cause of another one *)
Theorem is_maximal_spec s : is_maximal causes pick s = true <-> forall e e', In e s -> In e' s -> ~ lt e e'.
Proof.
  unfold is_maximal, get_largest_maximal_subset. rewrite set_eqb_spec. split.
  - intros H e e' He He'. apply H in He. apply get_all_maximal_events_spec in He. destruct He as [_ B]. auto.
  - intros H x. rewrite get_all_maximal_events_spec. split; [|tauto]. intros Hx. split; auto.
Qed.
Variable dep : nat -> nat -> bool.

(** C44: the conflict relation computed = its definition on the causal order *)
Definition conflict (e1 e2 : nat) : Prop :=
  ~ le e1 e2 /\ ~ le e2 e1 /\
  ((exists x, le x e1 /\ ~ le x e2 /\ dep x e2 = true) \/ (exists y, le y e2 /\ ~ le y e1 /\ dep y e1 = true)).

Theorem conflicts_with_spec e1 e2 : conflicts_with causes dep pick e1 e2 = true <-> conflict e1 e2.
Proof.
  unfold conflicts_with, conflict. destruct (related_to causes pick e1 e2) eqn:Rl.
  - apply related_to_spec in Rl. split; [discriminate|]. tauto.
  - assert (~ (le e1 e2 \/ le e2 e1)) as NR by (rewrite <- related_to_spec; congruence).
    rewrite orb_true_iff, !existsb_exists. split.
    + intros H. split; [tauto|split; [tauto|]]. destruct H as [(x & Hx & D)|(y & Hy & D)]; [left; exists x|right; exists y];
        apply set_subtract_In in Hx || apply set_subtract_In in Hy; rewrite !local_config_spec in *; tauto.
    + intros (_ & _ & [(x & A & B & C)|(y & A & B & C)]); [left; exists x|right; exists y]; split; auto;
        apply set_subtract_In; rewrite !local_config_spec; auto.
Qed.

Definition causally_closed (s : eset) : Prop := forall e c, In e s -> le c e -> In c s.
Definition conflict_free (s : eset) : Prop := forall e1 e2, In e1 s -> In e2 s -> ~ conflict e1 e2.

Lemma contains_history_spec s : contains_history causes pick s s = true <-> causally_closed s.
Proof.
  unfold contains_history, causally_closed. rewrite forallb_forall. destruct (history_sequence_spec s) as [_ H]. split.
  - intros A e c He L. apply mem_In, A, H. eauto.
  - intros A x Hx. apply mem_In. apply H in Hx. destruct Hx as (e0 & B & C). eauto.
Qed.
Lemma is_conflict_free_spec s : is_conflict_free causes dep pick s = true <-> conflict_free s.
Proof.
  unfold is_conflict_free, conflict_free. rewrite forallb_forall. split.
  - intros A e1 e2 H1 H2 C. specialize (A e1 H1). rewrite forallb_forall in A. specialize (A e2 H2).
    apply conflicts_with_spec in C. rewrite C in A. discriminate.
  - intros A e1 H1. apply forallb_forall. intros e2 H2. apply negb_true_iff.
    destruct (conflicts_with causes dep pick e1 e2) eqn:C; auto. apply conflicts_with_spec in C.
    exfalso. exact (A e1 e2 H1 H2 C).
Qed.

(** C44: a set of events is accepted as a configuration iff it is causally closed and conflict-free *)
Theorem is_valid_configuration_spec s :
  is_valid_configuration causes dep pick s = true <-> causally_closed s /\ conflict_free s.
Proof. unfold is_valid_configuration. rewrite andb_true_iff, contains_history_spec, is_conflict_free_spec. tauto. Qed.

End Hist.

(* all tuples >= cur in lexicographic order *)
Fixpoint vfl_from (sizes cur : list nat) : list (list nat) :=
  match sizes, cur with
  | n :: r, c :: cur' =>
      map (cons c) (vfl_from r cur') ++ flat_map (fun c' => map (cons c') (tuples r)) (seq (S c) (n - S c))
  | _, _ => [[]]
  end.

Definition zeros (l : list nat) : list nat := map (fun _ => 0) l.

Lemma vfl_from_zeros sizes : Forall (fun n => 0 < n) sizes -> vfl_from sizes (zeros sizes) = tuples sizes.
Proof.
  induction 1 as [|n r Hn _ IH]; simpl; auto.
  rewrite IH. destruct n as [|n]; [lia|]. simpl. rewrite Nat.sub_0_r. reflexivity.
Qed.

Lemma zeros_zeros (cur r : list nat) : length cur = length r -> map (fun _ => 0) cur = zeros r.
Proof. revert r; induction cur; destruct r; simpl; intros; try lia; auto. f_equal. apply IHcur. lia. Qed.

Lemma vfl_from_step sizes : Forall (fun n => 0 < n) sizes -> forall cur,
  length cur = length sizes -> Forall2 (fun c n => c < n) cur sizes ->
  vfl_from sizes cur = cur :: match vfl_incr sizes cur with Some nx => vfl_from sizes nx | None => [] end.
Proof.
  induction 1 as [|n r Hn Hr IH]; intros cur L F.
  - destruct cur; [reflexivity|discriminate].
  - destruct cur as [|c cur']; [discriminate|]. inv F. simpl in L.
    cbn [vfl_from vfl_incr]. rewrite (IH cur') by (auto; lia).
    destruct (vfl_incr r cur') as [nx|] eqn:E.
    + reflexivity.
    + simpl. destruct (S c <? n) eqn:Lt.
      * apply Nat.ltb_lt in Lt. f_equal. cbn [vfl_from].
        replace (n - S c) with (S (n - S (S c))) by lia. simpl.
        rewrite (zeros_zeros cur' r) by lia. rewrite vfl_from_zeros; auto.
      * apply Nat.ltb_ge in Lt. replace (n - S c) with 0 by lia. reflexivity.
Qed.

Lemma vfl_incr_valid sizes : forall cur nx, Forall2 (fun c n => c < n) cur sizes -> vfl_incr sizes cur = Some nx ->
  Forall2 (fun c n => c < n) nx sizes.
Proof.
  induction sizes as [|n r IH]; intros cur nx F H; [destruct cur; discriminate|].
  destruct cur as [|c cur']; [discriminate|]. assert (c < n /\ Forall2 (fun c n => c < n) cur' r) as [Fc Fr] by (inversion F; auto). simpl in H.
  destruct (vfl_incr r cur') as [nx'|] eqn:E.
  - inv H. constructor; eauto.
  - destruct (S c <? n) eqn:Lt; [|discriminate]. inv H. apply Nat.ltb_lt in Lt. constructor; auto.
    clear -Fr. induction Fr; simpl; constructor; auto. lia.
Qed.

Lemma F2_length {A B} (P : A -> B -> Prop) l1 l2 : Forall2 P l1 l2 -> length l1 = length l2.
Proof. induction 1; simpl; auto. Qed.

Lemma vfl_run_from sizes : Forall (fun n => 0 < n) sizes -> forall fuel cur,
  Forall2 (fun c n => c < n) cur sizes -> length (vfl_from sizes cur) <= fuel ->
  vfl_run fuel sizes (Some cur) = vfl_from sizes cur.
Proof.
  intros P fuel. induction fuel as [|f IH]; intros cur F L.
  - rewrite vfl_from_step in L; auto; [simpl in L; lia|]. eapply F2_length; eauto.
  - rewrite vfl_from_step in *; auto; try (eapply F2_length; eauto). simpl. f_equal.
    destruct (vfl_incr sizes cur) as [nx|] eqn:E.
    + apply IH; [eapply vfl_incr_valid; eauto|]. simpl in L; lia.
    + destruct f; reflexivity.
Qed.

Lemma tuples_length sizes : length (tuples sizes) = fold_right Nat.mul 1 sizes.
Proof.
  induction sizes as [|n r IH]; simpl; auto. rewrite <- IH. generalize (tuples r) as l. intros l.
  generalize 0 as s. induction n as [|n IHn]; intros s; simpl; auto. rewrite app_length, map_length, IHn. reflexivity.
Qed.

(** C44: variable_for_loop yields exactly the tuples of the cartesian product, in lexicographic order *)
Theorem vfl_all_spec sizes : sizes <> [] -> Forall (fun n => 0 < n) sizes -> vfl_all sizes = tuples sizes.
Proof.
  intros Hne P. unfold vfl_all, vfl_init. destruct sizes as [|n r]; [congruence|].
  assert (forallb (fun n => 0 <? n) (n :: r) = true) as ->.
  { apply forallb_forall. intros x Hx. rewrite Forall_forall in P. apply Nat.ltb_lt. auto. }
  fold (zeros (n :: r)). rewrite vfl_run_from; auto.
  - apply vfl_from_zeros; auto.
  - clear Hne. induction P; simpl; constructor; auto.
  - rewrite vfl_from_zeros; auto. rewrite tuples_length. lia.
Qed.
Theorem vfl_all_empty sizes : sizes = [] \/ Exists (fun n => n = 0) sizes -> vfl_all sizes = [].
Proof.
  intros [->|E]; [reflexivity|]. unfold vfl_all, vfl_init. destruct sizes as [|n r]; [reflexivity|].
  assert (forallb (fun n => 0 <? n) (n :: r) = false) as ->.
  { apply Exists_exists in E. destruct E as (x & Hx & ->).
    destruct (forallb (fun n => 0 <? n) (n :: r)) eqn:Fb; auto. rewrite forallb_forall in Fb. specialize (Fb 0 Hx). discriminate. }
  reflexivity.
Qed.

Lemma tuples_spec sizes t : In t (tuples sizes) <-> Forall2 (fun c n => c < n) t sizes.
Proof.
  revert t; induction sizes as [|n r IH]; intros t; simpl.
  - split; [intros [<-|[]]; constructor|]. intros H; inv H; auto.
  - rewrite in_flat_map. split.
    + intros (c & Hc & Ht). apply in_map_iff in Ht. destruct Ht as (t' & <- & Ht'). apply in_seq in Hc.
      constructor; [lia|apply IH; auto].
    + intros H; inv H. exists x. split; [apply in_seq; lia|]. apply in_map_iff. exists l. split; auto. apply IH; auto.
Qed.

Lemma NoDup_cons_app {A} (x : A) l1 l2 : NoDup l1 -> NoDup l2 -> (forall t, ~ In (x :: t) l2) -> NoDup (map (cons x) l1 ++ l2).
Proof.
  intros N1 N2 H. induction N1 as [|s l1 Hs _ IH]; simpl; [exact N2|]. constructor; [|exact IH].
  intros Hin. apply in_app_or in Hin. destruct Hin as [Hin|Hin]; [|exact (H _ Hin)].
  apply in_map_iff in Hin. destruct Hin as (s' & E & Hs'). inv E. auto.
Qed.

Lemma tuples_nodup sizes : NoDup (tuples sizes).
Proof.
  induction sizes as [|n r IH]; simpl; [constructor; auto; constructor|].
  assert (forall s, NoDup (flat_map (fun c => map (cons c) (tuples r)) (seq s n)) /\
                    forall t, In t (flat_map (fun c => map (cons c) (tuples r)) (seq s n)) -> exists c t', t = c :: t' /\ s <= c) as H.
  { induction n as [|n IHn]; intros s; simpl; [split; [constructor|intros ? []]|].
    destruct (IHn (S s)) as [A B]. split.
    - apply NoDup_cons_app; auto. intros t Ht. destruct (B _ Ht) as (c & t'' & E & L). inv E. lia.
    - intros t Ht. apply in_app_or in Ht. destruct Ht as [Ht|Ht].
      + apply in_map_iff in Ht. destruct Ht as (t' & <- & _). eauto.
      + destruct (B _ Ht) as (c & t' & E & L). exists c, t'. split; auto. lia. }
  apply H.
Qed.

Inductive sublist : list nat -> list nat -> Prop :=
| sl_nil : sublist [] []
| sl_skip s x l : sublist s l -> sublist s (x :: l)
| sl_take s x l : sublist s l -> sublist (x :: s) (x :: l).

Lemma sublist_incl s l : sublist s l -> incl s l.
Proof. induction 1; intros y Hy; simpl in *; auto. destruct Hy; auto. Qed.
Lemma sublist_nil l : sublist [] l.
Proof. induction l; constructor; auto. Qed.

Lemma allsubsets_spec l s : In s (allsubsets l) <-> sublist s l.
Proof.
  revert s; induction l as [|x r IH]; intros s; simpl.
  - split; [intros [<-|[]]; constructor|]. intros H; inv H; auto.
  - rewrite in_app_iff, in_map_iff. split.
    + intros [(s' & <- & H)|H]; [apply sl_take|apply sl_skip]; apply IH; auto.
    + intros H; inv H; [right; apply IH; auto|left; exists s0; split; auto; apply IH; auto].
Qed.

Lemma allsubsets_nodup l : NoDup l -> NoDup (allsubsets l).
Proof.
  induction 1 as [|x r N _ IH]; simpl; [constructor; auto; constructor|].
  apply NoDup_cons_app; auto. intros t Ht. apply allsubsets_spec, sublist_incl in Ht. apply N, Ht. simpl; auto.
Qed.

Lemma ksubsets_spec k l s : In s (ksubsets k l) <-> sublist s l /\ length s = k.
Proof.
  revert k s; induction l as [|x r IH]; intros k s.
  - destruct k; simpl.
    + split; [intros [<-|[]]; split; auto; constructor|]. intros [H _]; inv H; auto.
    + split; [intros []|]. intros [H E]; inv H. discriminate.
  - destruct k; simpl.
    + split; [intros [<-|[]]; split; auto; apply sublist_nil|]. intros [_ E]. destruct s; [auto|discriminate].
    + rewrite in_app_iff, in_map_iff. split.
      * intros [(s' & <- & H)|H].
        -- apply IH in H. destruct H. split; [apply sl_take; auto|simpl; lia].
        -- apply (IH (S k)) in H. destruct H. split; auto. apply sl_skip; auto.
      * intros [H E]. inv H.
        -- right. apply (IH (S k)). auto.
        -- left. exists s0. split; auto. apply IH. simpl in E. split; auto; lia.
Qed.

Lemma ksubsets_nodup k l : NoDup l -> NoDup (ksubsets k l).
Proof.
  intros N; revert k; induction N as [|x r Nx _ IH]; intros k; destruct k; simpl;
    try (constructor; auto; constructor).
  apply NoDup_cons_app; auto. intros t Ht. apply ksubsets_spec in Ht. destruct Ht as [Ht _]. apply sublist_incl in Ht.
  apply Nx, Ht. simpl; auto.
Qed.

Lemma list_eqb_eq a b : list_eqb a b = true -> a = b.
Proof.
  revert b; induction a as [|x a IH]; intros [|y b]; simpl; try discriminate; auto.
  intros H. apply andb_true_iff in H. destruct H as [E H]. apply Nat.eqb_eq in E. f_equal; auto.
Qed.
Lemma lists_eqb_eq a b : lists_eqb a b = true -> a = b.
Proof.
  revert b; induction a as [|x a IH]; intros [|y b]; simpl; try discriminate; auto.
  intros H. apply andb_true_iff in H. destruct H as [E H]. apply list_eqb_eq in E. f_equal; auto.
Qed.

Theorem enum_ok_sound out ref : enum_ok out ref = true -> Permutation out ref.
Proof.
  unfold enum_ok. intros H. apply lists_eqb_eq in H.
  eapply perm_trans; [apply LexSort.Permuted_sort|]. rewrite H. apply Permutation_sym, LexSort.Permuted_sort.
Qed.

(** "each qualifying set exactly once": no duplicates, and the yielded sets are exactly the reference ones *)
Theorem enum_ok_each_once out ref : NoDup ref -> enum_ok out ref = true ->
  NoDup out /\ forall s, In s out <-> In s ref.
Proof.
  intros N H. apply enum_ok_sound in H. split.
  - eapply Permutation_NoDup; [apply Permutation_sym; eauto|auto].
  - intros s; split; apply Permutation_in; auto. apply Permutation_sym; auto.
Qed.

Section MaxSubProofs.
Variable causes : nat -> eset.
Variable pick : nat -> eset -> nat.
Hypothesis causes_lt : forall e c, In c (causes e) -> c < e.
Hypothesis pick_in : forall k s, s <> [] -> In (pick k s) s.

Theorem maxsub_ref_spec events k s : In s (maxsub_ref causes pick events k) <->
  sublist s events /\ (forall e e', In e s -> In e' s -> ~ lt causes e e') /\ length s <= k.
Proof.
  unfold maxsub_ref. rewrite filter_In, allsubsets_spec, andb_true_iff, Nat.leb_le.
  rewrite (is_maximal_spec causes pick causes_lt pick_in). tauto.
Qed.
Theorem maxsub_ref_nodup events k : NoDup events -> NoDup (maxsub_ref causes pick events k).
Proof. intros. apply NoDup_filter, allsubsets_nodup; auto. Qed.
End MaxSubProofs.

Definition created_after_causes (causes : nat -> eset) : Prop := forall e c, In c (causes e) -> c < e.
Definition picks_a_member (pick : nat -> eset -> nat) : Prop := forall k s, s <> [] -> In (pick k s) s.

Lemma subsets_oracle k l out : NoDup l -> enum_ok out (ksubsets k l) = true ->
  NoDup out /\ forall s, In s out <-> sublist s l /\ length s = k.
Proof.
  intros N H. destruct (enum_ok_each_once out _ (ksubsets_nodup k l N) H) as [A B]. split; auto.
  intros s. rewrite B. apply ksubsets_spec.
Qed.
Lemma powerset_oracle l out : NoDup l -> enum_ok out (allsubsets l) = true ->
  NoDup out /\ forall s, In s out <-> sublist s l.
Proof.
  intros N H. destruct (enum_ok_each_once out _ (allsubsets_nodup l N) H) as [A B]. split; auto.
  intros s. rewrite B. apply allsubsets_spec.
Qed.
Lemma maxsub_oracle causes pick events k out : created_after_causes causes -> picks_a_member pick -> NoDup events ->
  enum_ok out (maxsub_ref causes pick events k) = true ->
  NoDup out /\ forall s, In s out <->
    sublist s events /\ (forall e e', In e s -> In e' s -> ~ lt causes e e') /\ length s <= k.
Proof.
  intros C P N H. destruct (enum_ok_each_once out _ (maxsub_ref_nodup causes pick events k N) H) as [A B]. split; auto.
  intros s. rewrite B. apply maxsub_ref_spec; auto.
Qed.
