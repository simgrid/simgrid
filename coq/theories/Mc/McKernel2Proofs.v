(** C39 — transitions the checker declares independent commute on the extended kernel (McKernel2): barriers, actor
    life cycle, random, communications; neither disables the other.  Verdicts from the regenerated table.
    The state is a product: K (mutexes, semaphores, returned values), B (barriers), AL and NP (actors), CN, RQ and Q
    (communications).  A transition steps one component, or only reports a value (which is pushed on K); transitions
    of different components commute whatever the table says ([cross_commute]); the table is needed for two
    transitions on K ([McKernelProofs.commute]), two on B ([bar_commute]) and two communications ([comm_commute]). *)
From SGV Require Import Base.PlainLia Mc.Trans Mc.McKernel Mc.McKernelProofs Mc.McKernel2 Gen.DepLut.
Local Open Scope Z_scope.

Lemma eqst_refl : forall k, eqst k k.
Proof. intros k. repeat split. Qed.
Lemma eqst_sym : forall k k', eqst k k' -> eqst k' k.
Proof.
  intros k k' (A & B & C). split; [|split]; intros; [symmetry; apply A|apply same_sem_sym, B|symmetry; apply C].
Qed.
Lemma same_bar_refl : forall x, same_bar x x.
Proof. intros x. repeat split. Qed.
Lemma same_bar_sym : forall x y, same_bar x y -> same_bar y x.
Proof. intros x y (A & B & C & D). repeat split; auto. Qed.
Lemma eqx_refl : forall s, eqx s s.
Proof. intros s. unfold eqx. repeat split. Qed.
Lemma eqx_sym : forall s s', eqx s s' -> eqx s' s.
Proof.
  intros s s' (A & B & C & D & E & F & G). unfold eqx.
  split; [apply eqst_sym, A|]. split; [intros b; apply same_bar_sym, B|]. repeat split; intros; symmetry; auto.
Qed.
Lemma eqx_K : forall s k k', eqst k k' -> eqx (with_K s k) (with_K s k').
Proof. intros s k k' H. unfold eqx, with_K; cbn [K B AL NP CN RQ Q]. repeat split; try apply H; try reflexivity. Qed.

Lemma bar_indep : forall cid s a1 a2 b p1 p2, a1 <> a2 ->
  xdepends cid s (XB a1 b p1) (XB a2 b p2) = Some false -> p1 = p2.
Proof.
  intros cid s a1 a2 b p1 p2 Hne. unfold xdepends. rewrite depends_plain by (destruct p1, p2; exact Hne).
  destruct p1, p2; try reflexivity; cbn; unfold barrier_depends; cbn; rewrite Z.eqb_refl; discriminate.
Qed.

Lemma lock_step : forall x a, wfb x -> bstep x a BLock =
  if Z.of_nat (length (bq x)) <? bn x - 1 then {| bn := bn x; bq := bq x ++ [a]; bgr := bgr x |}
  else {| bn := bn x; bq := []; bgr := bgr x ++ bq x ++ [a] |}.
Proof. intros x a [Hn _]. cbn [bstep]. rewrite Z.mod_small by lia. reflexivity. Qed.

Lemma wfb_step : forall x a op, wfb x -> wfb (bstep x a op).
Proof.
  intros x a [|] H; [rewrite lock_step by exact H|]; destruct H as [Hn Hq];
    [destruct (Z.ltb_spec (Z.of_nat (length (bq x))) (bn x - 1))|]; split; cbn [bstep bn bq]; rewrite ?app_length; cbn [length]; lia.
Qed.

Lemma bar_commute : forall x a1 a2 p,
  wfb x -> a1 <> a2 -> ben x a1 p = true -> ben x a2 p = true -> (p = BLock -> bar_room x) ->
  same_bar (bstep (bstep x a1 p) a2 p) (bstep (bstep x a2 p) a1 p) /\
  ben (bstep x a1 p) a2 p = true /\ ben (bstep x a2 p) a1 p = true.
Proof.
  intros x a1 a2 p Hwf Hne He1 He2 Hroom.
  destruct (neqb _ _ Hne) as [N12 N21].
  destruct p.
  - (* both join the round; or the second completes it; or, one actor expected, each is a round of its own *)
    specialize (Hroom eq_refl). rewrite !lock_step by auto using wfb_step.
    destruct x as [n q g], Hwf as [Hn Hq]. unfold bar_room in Hroom. cbn [bn bq bgr ben] in *.
    apply andb_true_iff in He1, He2. destruct He1 as [Q1 G1], He2 as [Q2 G2]. apply negb_true_iff in Q1, G1, Q2, G2.
    destruct (Z.ltb_spec (Z.of_nat (length q)) (n - 1)) as [L|L]; cbn [bn bq bgr]; rewrite ?app_length; cbn [length].
    1: destruct (Z.ltb_spec (Z.of_nat (length q + 1)) (n - 1)).
    3: destruct q; [|cbn [length] in *; lia]; rewrite (proj2 (Z.ltb_ge (Z.of_nat 0) (n - 1))) by lia.
    all: unfold same_bar, ben; cbn [bn bq bgr app length existsb]; rewrite ?app_length, ?existsb_app, ?Q1, ?Q2, ?G1, ?G2; cbn [existsb]; rewrite ?N12, ?N21.
    all: repeat split; try reflexivity; intros c; try (rewrite !(existsb_app _ g); apply f_equal); apply snoc_snoc_mem.
  - unfold ben, bstep, same_bar in *. cbn [bn bq bgr] in *.
    split; [repeat split; intros c; apply remove_remove_mem|].
    rewrite !existsb_remove, He1, He2, N12, N21. split; reflexivity.
Qed.

(* what a search finds is in the queue, what it leaves was there; a search that fails has met only the other kind *)
Lemma tf_spec : forall w q,
  match take_first w q with
  | Some (r, rest) => In (w, r) q /\ forall e, In e rest -> In e q
  | None => forall e, In e q -> fst e = negb w
  end.
Proof.
  intros w q. induction q as [|[k x] q IH]; cbn; [intros e []|].
  destruct (Bool.eqb k w) eqn:E.
  - apply Bool.eqb_prop in E. subst. auto.
  - destruct (take_first w q) as [[r rest]|].
    + destruct IH as [A B]. split; [auto|]. intros e [<-|H]; auto.
    + intros e [<-|H]; [|auto]. destruct k, w; (discriminate E || reflexivity).
Qed.
Lemma tf_in : forall w q r rest, take_first w q = Some (r, rest) -> In (w, r) q.
Proof. intros w q r rest H. pose proof (tf_spec w q) as S. rewrite H in S. exact (proj1 S). Qed.
Lemma tf_rest_sub : forall w q r rest, take_first w q = Some (r, rest) -> forall e, In e rest -> In e q.
Proof. intros w q r rest H. pose proof (tf_spec w q) as S. rewrite H in S. exact (proj2 S). Qed.
Lemma tf_none_all : forall w q, take_first w q = None -> forall e, In e q -> fst e = negb w.
Proof. intros w q H. pose proof (tf_spec w q) as S. rewrite H in S. exact S. Qed.
(* in a queue of one kind, what one side finds excludes that the other side finds anything, also afterwards *)
Lemma tf_homog_other : forall (q : list qent) kd w, (forall e, In e q -> fst e = kd) -> kd <> w -> take_first w q = None.
Proof.
  intros q kd w H Hne. destruct (take_first w q) as [[r rest]|] eqn:E; [|reflexivity].
  apply tf_in in E. apply H in E. cbn in E. congruence.
Qed.
Lemma tf_app : forall w q l, take_first w (q ++ l) =
  match take_first w q with
  | Some (r, rest) => Some (r, rest ++ l)
  | None => match take_first w l with Some (r, rest) => Some (r, q ++ rest) | None => None end
  end.
Proof.
  intros w q l. induction q as [|[k x] q IH]; cbn; [destruct (take_first w l) as [[? ?]|]; reflexivity|].
  destruct (Bool.eqb k w); [reflexivity|]. rewrite IH.
  destruct (take_first w q) as [[? ?]|]; [|destruct (take_first w l) as [[? ?]|]]; reflexivity.
Qed.

Definition set_peer (r : req) (p : Z * Z) : req := {| rmb := rmb r; rsend := rsend r; rpeer := Some p |}.
Definition found (f : option ((Z * Z) * list qent)) (a k : Z) : bool :=
  match f with Some ((b, j), _) => (a =? b) && (k =? j) | None => false end.

(* both branches of comm_post give the same *)
Ltac post_cases := intros; unfold comm_post; destruct (take_first _ _) as [[[? ?] ?]|]; reflexivity.

Lemma post_with_K : forall s k a m d, comm_post (with_K s k) a m d = with_K (comm_post s a m d) k.
Proof. intros. unfold comm_post, with_K; cbn [K B AL NP CN RQ Q]. destruct (take_first (negb d) (Q s m)) as [[[b j] r]|]; reflexivity. Qed.
Lemma post_K : forall s a m d, K (comm_post s a m d) = K s.
Proof. post_cases. Qed.
Lemma post_B : forall s a m d, B (comm_post s a m d) = B s.
Proof. post_cases. Qed.
Lemma post_AL : forall s a m d, AL (comm_post s a m d) = AL s.
Proof. post_cases. Qed.
Lemma post_NP : forall s a m d, NP (comm_post s a m d) = NP s.
Proof. post_cases. Qed.
Lemma post_CN : forall s a m d a', CN (comm_post s a m d) a' = if a' =? a then CN s a + 1 else CN s a'.
Proof. post_cases. Qed.
Lemma post_Q : forall s a m d m', Q (comm_post s a m d) m' =
  if m' =? m then match take_first (negb d) (Q s m) with Some (_, rest) => rest | None => Q s m ++ [(d, (a, CN s a))] end
  else Q s m'.
Proof. post_cases. Qed.
(* the found request is tested first, as in the record update of comm_post *)
Lemma post_RQ : forall s a m d a' k', RQ (comm_post s a m d) a' k' =
  if found (take_first (negb d) (Q s m)) a' k' then set_peer (RQ s a' k') (a, CN s a)
  else if (a' =? a) && (k' =? CN s a)
       then {| rmb := m; rsend := d; rpeer := option_map fst (take_first (negb d) (Q s m)) |}
       else RQ s a' k'.
Proof.
  intros. unfold comm_post. destruct (take_first (negb d) (Q s m)) as [[[b j] r]|]; [|reflexivity].
  cbn [RQ found]. unfold upd2. destruct ((a' =? b) && (k' =? j)) eqn:E; [|reflexivity].
  apply andb_true_iff in E. destruct E as [E1 E2]. apply Z.eqb_eq in E1, E2. subst. reflexivity.
Qed.

Lemma post_Q_other : forall s a m d m', m' <> m -> Q (comm_post s a m d) m' = Q s m'.
Proof. intros. rewrite post_Q, (proj2 (Z.eqb_neq _ _)) by assumption. reflexivity. Qed.
Lemma found_old : forall s w m a k, wfc s -> found (take_first w (Q s m)) a k = true -> 0 <= k < CN s a /\ rmb (RQ s a k) = m.
Proof.
  intros s w m a k (_ & Hq & _) H. destruct (take_first w (Q s m)) as [[[b j] r]|] eqn:E; [|discriminate H].
  apply andb_true_iff in H. destruct H as [E1 E2]. apply Z.eqb_eq in E1, E2. subst.
  exact (Hq _ _ _ _ (tf_in _ _ _ _ E)).
Qed.
Lemma found_excl_found : forall s w1 w2 m1 m2 a k, wfc s -> m1 <> m2 ->
  found (take_first w1 (Q s m1)) a k && found (take_first w2 (Q s m2)) a k = false.
Proof.
  intros s w1 w2 m1 m2 a k Hwc Hm. destruct (found (take_first w1 _) a k) eqn:C1; [|reflexivity].
  destruct (found (take_first w2 _) a k) eqn:C2; [|reflexivity].
  destruct (found_old _ _ _ _ _ Hwc C1) as [_ R1], (found_old _ _ _ _ _ Hwc C2) as [_ R2]. congruence.
Qed.
Lemma found_excl_new : forall s w m a k a', wfc s -> found (take_first w (Q s m)) a k && ((a =? a') && (k =? CN s a')) = false.
Proof.
  intros s w m a k a' Hwc. destruct (found _ a k) eqn:C; [|reflexivity]. destruct (found_old _ _ _ _ _ Hwc C) as [L _].
  destruct (Z.eqb_spec a a') as [->|]; [|reflexivity]. apply Z.eqb_neq. lia.
Qed.
Lemma post_rmb : forall s a m d a' k', (a' = a -> k' < CN s a) -> rmb (RQ (comm_post s a m d) a' k') = rmb (RQ s a' k').
Proof.
  intros s a m d a' k' H. rewrite post_RQ. destruct (found _ a' k'); [reflexivity|].
  destruct (Z.eqb_spec a' a) as [E|]; [|reflexivity]. rewrite (proj2 (Z.eqb_neq k' _)) by (specialize (H E); lia). reflexivity.
Qed.
Lemma post_matched : forall s a m d a' k, a' <> a -> is_matched (RQ s a' k) = true -> is_matched (RQ (comm_post s a m d) a' k) = true.
Proof.
  intros s a m d a' k Hne H. rewrite post_RQ. destruct (found _ a' k); [reflexivity|].
  rewrite (proj2 (Z.eqb_neq a' a) Hne). exact H.
Qed.
Lemma post_rmb_new : forall s a m d, wfc s -> rmb (RQ (comm_post s a m d) a (CN s a)) = m.
Proof.
  intros s a m d Hwc. rewrite post_RQ. destruct (found _ a (CN s a)) eqn:F.
  - apply (found_old _ _ _ _ _ Hwc) in F. lia.
  - rewrite !Z.eqb_refl. reflexivity.
Qed.

(* two posts each find a request, write a new one and leave the rest: in either order, when the four are distinct *)
Lemma two_posts_RQ : forall A (cM1 cP1 cM2 cP2 : bool) (f1 f2 : A -> A) (n1 n2 r : A),
  cM1 && cM2 = false -> cM1 && cP2 = false -> cP1 && cM2 = false -> cP1 && cP2 = false ->
  (if cM2 then f2 (if cM1 then f1 r else if cP1 then n1 else r)
   else if cP2 then n2 else if cM1 then f1 r else if cP1 then n1 else r) =
  (if cM1 then f1 (if cM2 then f2 r else if cP2 then n2 else r)
   else if cP1 then n1 else if cM2 then f2 r else if cP2 then n2 else r).
Proof. intros A [] [] [] []; intros; try discriminate; reflexivity. Qed.

Lemma eqx_two_posts : forall s a1 a2 m1 m2 d1 d2, a1 <> a2 ->
  let s12 := comm_post (comm_post s a1 m1 d1) a2 m2 d2 in
  let s21 := comm_post (comm_post s a2 m2 d2) a1 m1 d1 in
  (forall a k, RQ s12 a k = RQ s21 a k) -> (forall m, Q s12 m = Q s21 m) -> eqx s12 s21.
Proof.
  intros s a1 a2 m1 m2 d1 d2 Hne s12 s21 HR HQ. unfold eqx, s12, s21. rewrite !post_K, !post_B, !post_AL, !post_NP.
  split; [apply eqst_refl|]. split; [intros; apply same_bar_refl|]. repeat split; try assumption.
  destruct (neqb _ _ Hne) as [N12 N21]. intros a. rewrite !post_CN, N12, N21.
  destruct (Z.eqb_spec a a1) as [->|]; [rewrite N12|]; reflexivity.
Qed.

Lemma post_post_diff : forall s a1 a2 m1 m2 d1 d2, wfc s -> a1 <> a2 -> m1 <> m2 ->
  eqx (comm_post (comm_post s a1 m1 d1) a2 m2 d2) (comm_post (comm_post s a2 m2 d2) a1 m1 d1).
Proof.
  intros s a1 a2 m1 m2 d1 d2 Hwc Hne Hm.
  destruct (neqb _ _ Hne) as [N12 N21].
  destruct (neqb _ _ Hm) as [M12 M21].
  apply eqx_two_posts; [exact Hne| |].
  - (* the second post finds what it would have found first, since it looks into another mailbox *)
    intros a k. rewrite !post_RQ, !post_CN, !post_Q, N12, N21, M12, M21.
    apply (two_posts_RQ _ _ _ _ _ (fun r => set_peer r (a1, CN s a1)) (fun r => set_peer r (a2, CN s a2))).
    + apply found_excl_found; assumption.
    + apply found_excl_new; assumption.
    + rewrite andb_comm. apply found_excl_new; assumption.
    + destruct (Z.eqb_spec a a1) as [->|]; [rewrite N12; apply andb_false_r|reflexivity].
  - intros m. rewrite !post_Q, !post_CN, N12, N21, M12, M21.
    destruct (Z.eqb_spec m m1) as [->|]; [rewrite M12|]; reflexivity.
Qed.

Lemma post_post_same_half : forall s a1 a2 m d, wfc s -> a1 <> a2 -> take_first d (Q s m) = None ->
  eqx (comm_post (comm_post s a1 m d) a2 m (negb d)) (comm_post (comm_post s a2 m (negb d)) a1 m d).
Proof.
  intros s a1 a2 m d Hwc Hne E2.
  destruct (neqb _ _ Hne) as [N12 N21].
  assert (E2' := tf_app d (Q s m) [(d, (a1, CN s a1))]). assert (E1' := tf_app (negb d) (Q s m) [(negb d, (a2, CN s a2))]).
  cbn in E1', E2'. rewrite E2, Bool.eqb_reflx, ?app_nil_r in *.
  assert (HE : forall x r, take_first (negb d) (Q s m) = Some (x, r) -> take_first d r = None).
  { intros x r E1. apply (tf_homog_other _ (negb d)); [|destruct d; discriminate].
    intros e He. exact (tf_none_all _ _ E2 e (tf_rest_sub _ _ _ _ E1 e He)). }
  apply eqx_two_posts; [exact Hne|intros a k; rewrite !post_RQ|intros m'; rewrite !post_Q];
    rewrite ?post_Q, ?post_CN, ?N12, ?N21, ?Z.eqb_refl, ?Bool.negb_involutive, ?E2;
    destruct (take_first (negb d) (Q s m)) as [[[b1 j1] r1]|] eqn:E1; rewrite ?E1', ?E2'; try rewrite (HE _ _ eq_refl); cbn [found option_map fst].
  3, 4: destruct (m' =? m); reflexivity.
  - (* a1 pairs with the head; a2 is queued behind, before or after that *)
    assert (Hj : j1 < CN s b1) by (apply (found_old s (negb d) m b1 j1 Hwc); rewrite E1; cbn; rewrite !Z.eqb_refl; reflexivity).
    destruct ((a =? a2) && (k =? CN s a2)) eqn:C2; [|reflexivity].
    apply andb_true_iff in C2. destruct C2 as [Ea Ek]. apply Z.eqb_eq in Ea, Ek. subst a k. rewrite N21.
    destruct (Z.eqb_spec a2 b1) as [->|]; [|reflexivity]. rewrite (proj2 (Z.eqb_neq _ _)) by lia. reflexivity.
  - (* nobody waits: whoever comes second pairs with the first *)
    destruct ((a =? a1) && (k =? CN s a1)) eqn:C1, ((a =? a2) && (k =? CN s a2)) eqn:C2; try reflexivity.
    apply andb_true_iff in C1, C2. destruct C1 as [C1 _], C2 as [C2 _]. apply Z.eqb_eq in C1, C2. congruence.
Qed.

Lemma post_post_same : forall s a1 a2 m d, wfc s -> a1 <> a2 ->
  eqx (comm_post (comm_post s a1 m d) a2 m (negb d)) (comm_post (comm_post s a2 m (negb d)) a1 m d).
Proof.
  intros s a1 a2 m d Hwc Hne. destruct (take_first d (Q s m)) as [[x2 r2]|] eqn:E2; [|apply post_post_same_half; assumption].
  (* the queue holds the kind a2 looks for, hence not the kind a1 looks for: the same with the roles exchanged *)
  pose proof (post_post_same_half s a2 a1 m (negb d) Hwc) as H. rewrite Bool.negb_involutive in H.
  apply eqx_sym, H; [congruence|]. destruct Hwc as (_ & _ & Hh). destruct (Hh m) as [kd Hkd].
  apply (tf_homog_other _ kd); [exact Hkd|]. apply tf_in, Hkd in E2. cbn in E2. subst kd. destruct d; discriminate.
Qed.

(* a post that the checker declares independent of a test does not pair the tested request *)
Lemma post_keeps_tested : forall cid s a a' m d k,
  wfc s -> a' <> a ->
  (if negb (m =? rmb (RQ s a' k)) then Some false else Some (cid a' k =? cid a (CN s a))) = Some false ->
  (cid a' k = cid a (CN s a) <-> rpeer (RQ (comm_post s a m d) a' k) = Some (a, CN s a)) ->
  is_matched (RQ (comm_post s a m d) a' k) = is_matched (RQ s a' k).
Proof.
  intros cid s a a' m d k Hwc Hne Hd Hc. rewrite post_RQ in *. rewrite (proj2 (Z.eqb_neq a' a) Hne) in *.
  destruct (found _ a' k) eqn:F; [|reflexivity]. exfalso.
  destruct (found_old _ _ _ _ _ Hwc F) as [_ Hr]. rewrite Hr, Z.eqb_refl in Hd. cbn [negb] in Hd.
  rewrite (proj2 Hc eq_refl), Z.eqb_refl in Hd. discriminate Hd.
Qed.

Definition isK (t : xt) : bool := match t with XK _ => true | _ => false end.
Definition isB (t : xt) : bool := match t with XB _ _ _ => true | _ => false end.
Definition isC (t : xt) : bool := match t with XC _ _ => true | _ => false end.
Definition posts (t : xt) : bool := match t with XC _ (CSend _ | CRecv _) => true | _ => false end.
(* barrier, creation and exit: the transitions that write B, AL or NP *)
Definition owns (t : xt) : bool := match t with XB _ _ _ | XA _ ACreate | XA _ AExit => true | _ => false end.
(* the value handed back to the actor; it is all that join, sleep, wait, random, test and probe produce *)
Definition xret (s : xst) (t : xt) : option Z :=
  match t with
  | XA _ (ARandom v) => Some v
  | XC a (CTest k) => Some (b2z (is_matched (RQ s a k)))
  | XC a (CProbe m sd) => Some (b2z (match take_first (negb sd) (Q s m) with Some _ => true | None => false end))
  | _ => None
  end.
Definition isObs (t : xt) : bool := negb (isK t || owns t || posts t).
Definition pushopt (k : st) (a : Z) (r : option Z) : st := {| M := M k; S := S k; O := opush (O k) a r |}.
Definition cpost (m : Z) (d : bool) : cop := if d then CSend m else CRecv m.

Lemma xstep_post : forall s a m d, xstep s (XC a (cpost m d)) = comm_post s a m d.
Proof. intros s a m []; reflexivity. Qed.
Lemma posts_inv : forall a p, posts (XC a p) = true -> exists m d, p = cpost m d.
Proof. intros a [m|m| | |] H; try discriminate H; [exists m, true|exists m, false]; reflexivity. Qed.

(* the other components never look at K, and K only receives the value handed back *)
Lemma xstep_with_K : forall s k t, isK t = false ->
  xstep (with_K s k) t = with_K (xstep s t) (pushopt k (xaid t) (xret s t)).
Proof.
  intros s [] [|? ? ?|? []|? []] H; try discriminate H; cbn [xstep]; rewrite ?post_with_K; reflexivity.
Qed.
Lemma K_xstep : forall s t, isK t = false -> K (xstep s t) = pushopt (K s) (xaid t) (xret s t).
Proof. intros [[] ? ? ? ? ? ?] [|? ? ?|? []|? []] H; try discriminate H; cbn [xstep]; rewrite ?post_K; reflexivity. Qed.
Lemma xstep_obs : forall s t, isObs t = true -> xstep s t = with_K s (pushopt (K s) (xaid t) (xret s t)).
Proof. intros [[] ? ? ? ? ? ?] [|? ? ?|? []|? []] H; try discriminate H; reflexivity. Qed.
Lemma B_frame : forall s t, isB t = false -> B (xstep s t) = B s.
Proof. intros s [|? ? ?|? []|? []] H; try discriminate H; cbn [xstep]; rewrite ?post_B; reflexivity. Qed.
Lemma C_frame : forall s t, posts t = false -> CN (xstep s t) = CN s /\ RQ (xstep s t) = RQ s /\ Q (xstep s t) = Q s.
Proof. intros s [|? ? ?|? []|? []] H; try discriminate H; repeat split. Qed.
Lemma xret_frame : forall s t t', posts t' = false -> xret (xstep s t') t = xret s t.
Proof.
  intros s t t' H. destruct (C_frame s t' H) as (_ & E2 & E3).
  destruct t as [|? ? ?|? []|? []]; cbn [xret]; rewrite ?E2, ?E3; reflexivity.
Qed.
(* the only place where p < NP s is used *)
Lemma AL_frame : forall s t p, xwf s -> AL s p <> 0 -> xaid t <> p -> AL (xstep s t) p = AL s p.
Proof.
  intros s t p (_ & _ & _ & Hwa & _) Hp Hne.
  destruct t as [t|? ? ?|? op|? op]; try destruct op; cbn [xstep AL with_K xaid] in *; rewrite ?post_AL; try reflexivity.
  - apply upd_other. specialize (Hwa p Hp). lia.
  - apply upd_other. congruence.
Qed.

Lemma xenabled_alive : forall s t, xenabled s t = true -> AL s (xaid t) = 1.
Proof. intros s t H. unfold xenabled in H. apply andb_true_iff in H. apply Z.eqb_eq, H. Qed.

Lemma still_enabled : forall s t1 t2, xwf s -> xaid t1 <> xaid t2 -> xenabled s t1 = true -> xenabled s t2 = true ->
  isK t1 && isK t2 = false -> isB t1 && isB t2 = false -> xenabled (xstep s t1) t2 = true.
Proof.
  intros s t1 t2 Hwf Hne He1 He2 HK HB.
  pose proof (xenabled_alive _ _ He1) as A1. pose proof (xenabled_alive _ _ He2) as A2.
  unfold xenabled in *. apply andb_true_iff in He2. destruct He2 as [_ He2].
  rewrite (AL_frame s t1 _ Hwf), A2 by (congruence || lia). cbn [Z.eqb andb Pos.eqb].
  destruct t2 as [t|a b op|a op|a op]; cbn [isK isB xaid] in *.
  - rewrite andb_true_r in HK. rewrite K_xstep by exact HK. destruct t; exact He2.
  - rewrite andb_true_r in HB. rewrite B_frame by exact HB. exact He2.
  - destruct op; try reflexivity. apply Z.eqb_eq in He2. rewrite (AL_frame s t1 _ Hwf) by (congruence || lia). rewrite He2. reflexivity.
  - (* a post of another actor creates none of this actor's requests and leaves a paired one paired *)
    destruct (posts t1) eqn:P.
    + destruct t1 as [| | |a1 p1]; try discriminate P. destruct (posts_inv _ _ P) as (m & d & ->). cbn [xaid] in Hne.
      rewrite xstep_post, post_CN, (proj2 (Z.eqb_neq a a1)) by congruence. destruct op; try exact He2.
      apply andb_true_iff in He2. destruct He2 as [He2 H]. rewrite He2. apply post_matched; [congruence|exact H].
    + destruct (C_frame s t1 P) as (E1 & E2 & _). rewrite E1, E2. exact He2.
Qed.

Lemma K_other : forall s t1 t2, kaid t1 <> xaid t2 -> isK t2 = false ->
  eqx (xstep (xstep s (XK t1)) t2) (xstep (xstep s t2) (XK t1)).
Proof.
  intros s t1 t2 Hne Hk. cbn [xstep]. rewrite xstep_with_K, (K_xstep s t2) by assumption.
  apply eqx_K. destruct t1 as [a1 m op|a1 j op]; (split; [reflexivity|]); (split; [intros; apply same_sem_refl|]);
    intros x; [|reflexivity]. apply (opush_comm (O (K s))). exact Hne.
Qed.

Lemma obs_other : forall s t1 t2, xaid t1 <> xaid t2 -> isObs t1 = true -> isK t2 = false ->
  xret (xstep s t2) t1 = xret s t1 -> eqx (xstep (xstep s t1) t2) (xstep (xstep s t2) t1).
Proof.
  intros s t1 t2 Hne Ho Hk Hr.
  rewrite (xstep_obs s t1 Ho), (xstep_obs (xstep s t2) t1 Ho), xstep_with_K, K_xstep, Hr by assumption.
  apply eqx_K. split; [reflexivity|]. split; [intros; apply same_sem_refl|].
  intros x. apply (opush_comm (O (K s))). exact Hne.
Qed.

Lemma post_other : forall s a m d t, isK t = false -> isC t = false ->
  xstep (comm_post s a m d) t = comm_post (xstep s t) a m d.
Proof.
  intros s a m d [|? ? ?|? []|] HK HC; try discriminate; unfold comm_post; cbn [xstep K B AL NP CN RQ Q with_K];
    destruct (take_first (negb d) (Q s m)) as [[[? ?] ?]|]; reflexivity.
Qed.

Definition clash (t1 t2 : xt) : bool := isK t1 && isK t2 || isB t1 && isB t2 || isC t1 && isC t2.

Lemma one_sided : forall s t1 t2, xaid t1 <> xaid t2 -> owns t1 = false -> isK t2 = false -> clash t1 t2 = false ->
  eqx (xstep (xstep s t1) t2) (xstep (xstep s t2) t1).
Proof.
  intros s t1 t2 Hne Ho K2 Hc. destruct (isK t1) eqn:K1; [destruct t1; try discriminate K1; apply K_other; assumption|].
  destruct (posts t1) eqn:P.
  - destruct t1 as [| | |a p]; try discriminate P. destruct (posts_inv _ _ P) as (m & d & ->).
    rewrite !xstep_post, post_other; [apply eqx_refl|exact K2|destruct t2; [reflexivity..|discriminate Hc]].
  - apply obs_other; try assumption; [unfold isObs; rewrite K1, Ho, P; reflexivity|].
    (* a report on communications is not changed by what is not one *)
    destruct t1 as [| |a op|a op]; [discriminate K1|discriminate Ho|reflexivity|].
    apply xret_frame. destruct t2; [reflexivity..|discriminate Hc].
Qed.

Lemma own_own : forall s t1 t2, xwf s -> xaid t1 <> xaid t2 -> xenabled s t1 = true -> xenabled s t2 = true ->
  owns t1 = true -> owns t2 = true -> clash t1 t2 = false -> eqx (xstep (xstep s t1) t2) (xstep (xstep s t2) t1).
Proof.
  intros s t1 t2 (_ & _ & _ & Hwa & _) Hne He1 He2 O1 O2 Hc.
  pose proof (xenabled_alive _ _ He1) as A1. pose proof (xenabled_alive _ _ He2) as A2.
  pose proof (Hwa _ ltac:(rewrite A1; discriminate)). pose proof (Hwa _ ltac:(rewrite A2; discriminate)).
  destruct t1 as [|? ? ?|? []|]; try discriminate; destruct t2 as [|? ? ?|? []|]; try discriminate; try apply eqx_refl;
    cbn [xaid] in *; unfold eqx; cbn [xstep K B AL NP CN RQ Q];
    (split; [apply eqst_refl|]); (split; [intros; apply same_bar_refl|]); (split; [|repeat split]);
    intros p; apply upd_swap; lia.
Qed.

(** transitions of different actors and different components (or both of the actor life cycle) commute and do not
    disable each other, whatever the checker says of them *)
Theorem cross_commute : forall s t1 t2,
  xwf s -> xaid t1 <> xaid t2 -> xenabled s t1 = true -> xenabled s t2 = true -> clash t1 t2 = false ->
  eqx (xstep (xstep s t1) t2) (xstep (xstep s t2) t1) /\
  xenabled (xstep s t1) t2 = true /\ xenabled (xstep s t2) t1 = true.
Proof.
  intros s t1 t2 Hwf Hne He1 He2 Hc.
  assert (Hne' : xaid t2 <> xaid t1) by congruence.
  assert (Hc' : clash t2 t1 = false) by (destruct t1, t2; (discriminate Hc || reflexivity)).
  split; [|split; apply still_enabled; try assumption; destruct t1, t2; (discriminate Hc || reflexivity)].
  destruct (owns t1) eqn:O1, (owns t2) eqn:O2.
  - apply own_own; assumption.
  - apply eqx_sym, one_sided; try assumption. destruct t1; (discriminate O1 || reflexivity).
  - apply one_sided; try assumption. destruct t2; (discriminate O2 || reflexivity).
  - destruct (isK t2) eqn:K2; [apply eqx_sym|]; apply one_sided; try assumption.
    destruct t1, t2; (discriminate || reflexivity).
Qed.

Lemma post_post_verdict : forall cid s a1 a2 m1 m2 d1 d2, a1 <> a2 ->
  xdepends cid s (XC a1 (cpost m1 d1)) (XC a2 (cpost m2 d2)) = Some (Bool.eqb d1 d2 && (m1 =? m2)).
Proof.
  intros cid s a1 a2 m1 m2 d1 d2 H. unfold xdepends. rewrite depends_plain by (destruct d1, d2; exact H).
  destruct d1, d2; reflexivity.
Qed.
Lemma post_report_verdict : forall cid s a1 a2 m d p, a1 <> a2 ->
  xdepends cid s (XC a1 (cpost m d)) (XC a2 p) =
  match p with
  | CTest k => if negb (m =? rmb (RQ (comm_post s a1 m d) a2 k)) then Some false else Some (cid a2 k =? cid a1 (CN s a1))
  | CProbe m2 _ => Some (m =? m2)
  | _ => xdepends cid s (XC a1 (cpost m d)) (XC a2 p)
  end.
Proof.
  intros cid s a1 a2 m d p H. destruct p; try reflexivity; unfold xdepends; rewrite depends_plain by (destruct d; exact H);
    destruct d; reflexivity.
Qed.
Lemma report_post_verdict : forall cid s a1 a2 m d p, a1 <> a2 ->
  xdepends cid s (XC a1 p) (XC a2 (cpost m d)) =
  match p with
  | CTest k => if negb (m =? rmb (RQ s a1 k)) then Some false else Some (cid a1 k =? cid a2 (CN s a2))
  | CProbe m1 _ => Some (m =? m1)
  | _ => xdepends cid s (XC a1 p) (XC a2 (cpost m d))
  end.
Proof.
  intros cid s a1 a2 m d p H. destruct p; try reflexivity; unfold xdepends; rewrite depends_plain by (destruct d; exact H);
    destruct d; reflexivity.
Qed.

Lemma comm_commute : forall cid s a1 a2 p1 p2,
  xwf s -> a1 <> a2 -> xenabled s (XC a1 p1) = true -> xenabled s (XC a2 p2) = true ->
  cid_ok cid (xstep (xstep s (XC a1 p1)) (XC a2 p2)) ->
  xdepends cid s (XC a1 p1) (XC a2 p2) = Some false ->
  eqx (xstep (xstep s (XC a1 p1)) (XC a2 p2)) (xstep (xstep s (XC a2 p2)) (XC a1 p1)) /\
  xenabled (xstep s (XC a1 p1)) (XC a2 p2) = true /\ xenabled (xstep s (XC a2 p2)) (XC a1 p1) = true.
Proof.
  intros cid s a1 a2 p1 p2 Hwf Hne He1 He2 Hcid Hd.
  assert (Hne' : a2 <> a1) by congruence. pose proof Hwf as (_ & _ & _ & _ & Hwc).
  split; [|split; apply still_enabled; try assumption; reflexivity].
  (* both post; one posts and leaves the other's report as it was (twice); neither posts *)
  destruct (posts (XC a1 p1)) eqn:P1, (posts (XC a2 p2)) eqn:P2.
  - destruct (posts_inv _ _ P1) as (m1 & d1 & ->), (posts_inv _ _ P2) as (m2 & d2 & ->).
    rewrite post_post_verdict in Hd by exact Hne. rewrite !xstep_post.
    destruct (Z.eqb_spec m1 m2) as [->|Hm]; [|apply post_post_diff; assumption].
    destruct d1, d2; try discriminate Hd; [apply (post_post_same s a1 a2 m2 true)|apply (post_post_same s a1 a2 m2 false)]; assumption.
  - destruct (posts_inv _ _ P1) as (m & d & ->). rewrite post_report_verdict in Hd by exact Hne.
    apply eqx_sym, obs_other; [exact Hne'|unfold isObs; rewrite P2; reflexivity|reflexivity|]. rewrite xstep_post.
    destruct p2 as [|?|k|k|m2 sd]; try discriminate P2; cbn [xret]; [|reflexivity|].
    + rewrite post_rmb in Hd by (intros; congruence).
      specialize (Hcid a2 k a1 (CN s a1) Hne'). rewrite xstep_post in Hcid.
      rewrite (post_keeps_tested cid s a1 a2 m d k Hwc Hne' Hd Hcid). reflexivity.
    + rewrite post_Q_other; [reflexivity|]. intros ->. rewrite Z.eqb_refl in Hd. discriminate Hd.
  - destruct (posts_inv _ _ P2) as (m & d & ->). rewrite report_post_verdict in Hd by exact Hne.
    apply obs_other; [exact Hne|unfold isObs; rewrite P1; reflexivity|reflexivity|]. rewrite xstep_post.
    destruct p1 as [|?|k|k|m1 sd]; try discriminate P1; cbn [xret]; [|reflexivity|].
    + specialize (Hcid a1 k a2 (CN s a2) Hne). rewrite xstep_post in Hcid. cbn [xstep] in Hcid. rewrite post_with_K in Hcid.
      rewrite (post_keeps_tested cid s a2 a1 m d k Hwc Hne Hd Hcid). reflexivity.
    + rewrite post_Q_other; [reflexivity|]. intros ->. rewrite Z.eqb_refl in Hd. discriminate Hd.
  - apply obs_other; [exact Hne|unfold isObs; rewrite P1; reflexivity|reflexivity|apply xret_frame; exact P2].
Qed.

Lemma xwf_K : forall s, xwf s -> wf_all (K s).
Proof. intros s (H1 & H2 & _). split; [exact H1|exact H2]. Qed.

Theorem xcommute : forall cid s t1 t2,
  xwf s -> xaid t1 <> xaid t2 -> xenabled s t1 = true -> xenabled s t2 = true ->
  cid_ok cid (xstep (xstep s t1) t2) ->
  xdepends cid s t1 t2 = Some false ->
  bar_side s t1 t2 ->
  eqx (xstep (xstep s t1) t2) (xstep (xstep s t2) t1) /\
  xenabled (xstep s t1) t2 = true /\ xenabled (xstep s t2) t1 = true.
Proof.
  intros cid s t1 t2 Hwf Hne He1 He2 Hcid Hd Hside.
  destruct (clash t1 t2) eqn:Hc; [|apply cross_commute; assumption].
  destruct t1 as [t1|a1 b1 p1|a1 p1|a1 p1], t2 as [t2|a2 b2 p2|a2 p2|a2 p2]; try discriminate Hc; cbn [xaid] in Hne.
  3: exact (comm_commute cid s a1 a2 p1 p2 Hwf Hne He1 He2 Hcid Hd).
  all: pose proof (xenabled_alive _ _ He1) as A1; pose proof (xenabled_alive _ _ He2) as A2;
    unfold xenabled in He1, He2 |- *; cbn [xaid] in *; rewrite A1 in He1; rewrite A2 in He2; cbn [andb Z.eqb Pos.eqb] in He1, He2.
  - destruct (commute (K s) t1 t2 (xwf_K s Hwf) Hne He1 He2 Hd) as (Hx & Hn1 & Hn2).
    cbn [xstep with_K K AL]. rewrite A1, A2, Hn1, Hn2. split; [apply (eqx_K s _ _ Hx)|split; reflexivity].
  - pose proof Hwf as (_ & _ & Hwb & _).
    destruct (upd_commute _ same_bar (fun x => bstep x a1 p1) (fun x => bstep x a2 p2)
                (fun x => ben x a1 p1 = true) (fun x => ben x a2 p2 = true) (B s) b1 b2 same_bar_refl He1 He2) as (Hx & Hn2 & Hn1).
    { intros ->. pose proof (bar_indep _ _ _ _ _ _ _ Hne Hd) as ->.
      apply (bar_commute (B s b2) a1 a2 p2 (Hwb b2) Hne He1 He2). intros ->. apply Hside. reflexivity. }
    cbn [xstep B AL]. rewrite A1, A2. split; [|split; assumption].
    split; [apply eqst_refl|]. split; [exact Hx|repeat split].
Qed.

Lemma post_Q_in : forall s a m d m' e, In e (Q (comm_post s a m d) m') ->
  In e (Q s m') \/ m' = m /\ take_first (negb d) (Q s m) = None /\ e = (d, (a, CN s a)).
Proof.
  intros s a m d m' e. rewrite post_Q. destruct (Z.eqb_spec m' m) as [->|]; [|auto].
  destruct (take_first (negb d) (Q s m)) as [[x rest]|] eqn:E; intros H.
  - left. exact (tf_rest_sub _ _ _ _ E _ H).
  - apply in_app_or in H. destruct H as [H|[<-|[]]]; auto.
Qed.

Lemma wfc_post : forall s a m d, wfc s -> wfc (comm_post s a m d).
Proof.
  intros s a m d Hwc. pose proof Hwc as (Hcn & Hq & Hh). split; [|split].
  - intros a'. rewrite post_CN. destruct (a' =? a); [specialize (Hcn a); lia|apply Hcn].
  - intros m' kd b j Hin. rewrite post_CN. destruct (post_Q_in _ _ _ _ _ _ Hin) as [H|(-> & _ & H)].
    + destruct (Hq _ _ _ _ H) as [Hj Hr]. rewrite post_rmb by (intros ->; lia). split; [destruct (Z.eqb_spec b a) as [->|]; lia|exact Hr].
    + inversion H; subst. rewrite Z.eqb_refl. split; [specialize (Hcn a); lia|apply post_rmb_new; exact Hwc].
  - intros m'. destruct (Hh m') as [kd Hkd]. destruct (take_first (negb d) (Q s m)) as [x|] eqn:E.
    + exists kd. intros e Hin. destruct (post_Q_in _ _ _ _ _ _ Hin) as [H|(_ & H & _)]; [auto|congruence].
    + exists (if m' =? m then d else kd). intros e Hin. destruct (post_Q_in _ _ _ _ _ _ Hin) as [H|(-> & _ & ->)].
      * destruct (Z.eqb_spec m' m) as [->|]; [|auto]. rewrite (tf_none_all _ _ E e H). apply Bool.negb_involutive.
      * rewrite Z.eqb_refl. reflexivity.
Qed.

Theorem xwf_step : forall s t, xwf s -> xenabled s t = true -> xwf (xstep s t).
Proof.
  intros s t Hwf He. pose proof Hwf as (Hk & Hv & Hb & Ha & Hc).
  pose proof (xenabled_alive _ _ He) as Hal. assert (Hlt : xaid t < NP s) by (apply Ha; lia).
  destruct t as [t|a b op|a op|a op]; cbn [xaid] in *.
  - destruct (wf_step (K s) t (xwf_K s Hwf)) as [H1 H2]. exact (conj H1 (conj H2 (conj Hb (conj Ha Hc)))).
  - refine (conj Hk (conj Hv (conj _ (conj Ha Hc)))). intros b'. cbn [xstep B]. unfold upd.
    destruct (b' =? b); [apply wfb_step|]; apply Hb.
  - destruct op; try exact Hwf; try exact (conj Hk (conj Hv (conj Hb (conj Ha Hc))));
      refine (conj Hk (conj Hv (conj Hb (conj _ Hc)))); intros p; cbn [xstep AL NP]; unfold upd.
    + destruct (p =? NP s) eqn:E; [apply Z.eqb_eq in E; lia|]. intros Hp. specialize (Ha p Hp). lia.
    + destruct (Z.eqb_spec p a) as [->|]; [intros _; exact Hlt|apply Ha].
  - destruct op; try exact Hwf; try exact (conj Hk (conj Hv (conj Hb (conj Ha Hc))));
      unfold xwf; cbn [xstep]; rewrite post_K, post_B, post_AL, post_NP;
      exact (conj Hk (conj Hv (conj Hb (conj Ha (wfc_post _ _ _ _ Hc))))).
Qed.
