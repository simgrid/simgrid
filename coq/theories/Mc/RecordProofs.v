(** C41 — the recorded path survives printing and parsing, for paths of any length and ids of any size. *)
From Coq Require Import DecimalN DecimalPos Decimal NArith.
From SGV Require Import Base.PlainLia Mc.Record.
Local Open Scope Z_scope.

Definition is_digit (c : Z) : Prop := 48 <= c <= 57.
Definition starts_nondigit (l : list Z) : Prop := match l with [] => True | c :: _ => digit_code c = None end.

Lemma print_digits : forall d, Forall is_digit (print_uint d).
Proof. induction d; cbn [print_uint]; constructor; try assumption; unfold is_digit; lia. Qed.

Lemma scan_print : forall d rest, starts_nondigit rest -> scan_digits (print_uint d ++ rest) = (d, rest).
Proof.
  induction d; intros rest H; cbn [print_uint app scan_digits];
    try (rewrite IHd by assumption; reflexivity).
  destruct rest as [|c r]; [reflexivity|]. cbn in H. cbn [scan_digits]. rewrite H. reflexivity.
Qed.

Lemma to_uint_nonnil : forall n, N.to_uint n <> Nil.
Proof. destruct n; cbn; [discriminate|apply Unsigned.to_uint_nonnil]. Qed.

Lemma print_head : forall n, exists c r, print_uint (N.to_uint n) = c :: r /\ is_digit c.
Proof.
  intros n. pose proof (to_uint_nonnil n) as H. pose proof (print_digits (N.to_uint n)) as F.
  destruct (N.to_uint n); try contradiction; cbn [print_uint] in *; inversion F; subst; eauto.
Qed.

Lemma scan_num_print : forall n rest, starts_nondigit rest ->
  scan_num (print_uint (N.to_uint n) ++ rest) = Some (n, rest).
Proof.
  intros n rest H. unfold scan_num.
  destruct (print_head n) as (c & r & E & Hc). unfold is_digit in Hc.
  assert (Hs : skip_ws (print_uint (N.to_uint n) ++ rest) = print_uint (N.to_uint n) ++ rest).
  { rewrite E. cbn [app skip_ws]. unfold is_ws.
    destruct (c =? 32) eqn:E1; [lia|]. destruct ((9 <=? c) && (c <=? 13)) eqn:E2; [lia|]. reflexivity. }
  rewrite Hs.
  assert (Hp : match print_uint (N.to_uint n) ++ rest with 43 :: r0 => r0 | _ => print_uint (N.to_uint n) ++ rest end
               = print_uint (N.to_uint n) ++ rest).
  { rewrite E. cbn [app]. destruct c as [|p|p]; try reflexivity.
    repeat (destruct p as [p|p|]; try reflexivity; try lia). }
  rewrite Hp. rewrite scan_print by assumption.
  pose proof (to_uint_nonnil n) as Hn. rewrite DecimalN.Unsigned.of_to.
  destruct (N.to_uint n); try contradiction; reflexivity.
Qed.

Lemma digit_no_semi : forall l r, Forall is_digit l -> after_semicolon (l ++ r) = after_semicolon r.
Proof.
  induction l as [|c l IH]; intros r H; cbn [app after_semicolon]; [reflexivity|].
  inv H. unfold is_digit in *. destruct (c =? 59) eqn:E; [lia|]. apply IH. assumption.
Qed.

Lemma elem_after : forall e r, after_semicolon (elem_str e ++ r) = after_semicolon r.
Proof.
  intros [a t] r. unfold elem_str. cbn [fst snd]. rewrite <- app_assoc.
  rewrite digit_no_semi by apply print_digits.
  destruct (N.eqb t 0); cbn [app]; [reflexivity|].
  cbn [after_semicolon]. change (47 =? 59) with false. cbn iota. apply digit_no_semi. apply print_digits.
Qed.

(** one chunk, followed by the end of the text or by ';' *)
Lemma scan_chunk_elem : forall e r, (r = [] \/ exists r', r = 59 :: r') -> scan_chunk (elem_str e ++ r) = Some e.
Proof.
  intros [a t] r Hr. unfold elem_str, scan_chunk. cbn [fst snd]. rewrite <- app_assoc.
  assert (Hnd : starts_nondigit r) by (destruct Hr as [->|(r' & ->)]; cbn; auto).
  destruct (N.eqb_spec t 0) as [->|Ht].
  - cbn [app]. rewrite scan_num_print by assumption.
    destruct Hr as [->|(r' & ->)]; reflexivity.
  - rewrite scan_num_print by (cbn; reflexivity).
    cbn [app]. rewrite scan_num_print by assumption. reflexivity.
Qed.

Lemma to_string_cons : forall e p, p <> [] -> to_string (e :: p) = elem_str e ++ 59 :: to_string p.
Proof. intros e p H. destruct p; [contradiction|reflexivity]. Qed.

Lemma elem_nonempty : forall e, elem_str e <> [].
Proof.
  intros [a t]. unfold elem_str. cbn [fst]. destruct (print_head a) as (c & r & E & _). rewrite E. discriminate.
Qed.

Lemma to_string_nonempty : forall p, p <> [] -> to_string p <> [].
Proof.
  intros [|e [|e' p]] Hp H; [contradiction|exact (elem_nonempty e H)|].
  apply app_eq_nil in H. exact (elem_nonempty e (proj1 H)).
Qed.

Lemma parse_loop_cons : forall f l, l <> [] ->
  parse_loop (S f) l =
  match scan_chunk l with
  | None => None
  | Some e => match after_semicolon l with
              | None => Some [e]
              | Some r => match parse_loop f r with Some p => Some (e :: p) | None => None end
              end
  end.
Proof. intros f [|c l] H; [contradiction|reflexivity]. Qed.

Lemma parse_loop_to_string : forall p fuel, (length (to_string p) < fuel)%nat -> parse_loop fuel (to_string p) = Some p.
Proof.
  induction p as [|e p IH]; intros fuel Hf.
  - destruct fuel; [cbn in Hf; lia|reflexivity].
  - destruct fuel as [|f]; [lia|]. rewrite parse_loop_cons by (apply to_string_nonempty; discriminate).
    destruct p as [|e' p'].
    + cbn [to_string]. rewrite <- (app_nil_r (elem_str e)).
      rewrite scan_chunk_elem by (left; reflexivity). rewrite elem_after. reflexivity.
    + rewrite to_string_cons in * by discriminate.
      rewrite scan_chunk_elem by (right; eauto). rewrite elem_after. cbn [after_semicolon]. rewrite Z.eqb_refl.
      rewrite IH; [reflexivity|]. rewrite app_length in Hf. cbn [length] in Hf. lia.
Qed.

Theorem path_codec : forall p, p <> [] -> parse (to_string p) = Some p.
Proof.
  intros p Hp. unfold parse. destruct (to_string p) as [|c l] eqn:E; [destruct (to_string_nonempty p Hp E)|].
  rewrite <- E. apply parse_loop_to_string. lia.
Qed.
