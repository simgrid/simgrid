(** C40 — proofs about SGV.Mc.Mazur: nf t1 = nf t2 <-> t1 and t2 are Mazurkiewicz-equivalent. *)
From SGV Require Import Base.PlainLia Mc.Mazur.
From Coq Require Import Relations Sorting.Permutation.
Local Open Scope nat_scope.

Lemma lmin_spec d l : (l = [] /\ lmin d l = d) \/ (In (lmin d l) l /\ forall x, In x l -> lmin d l <= x).
Proof.
  revert d; induction l as [|y l IH]; intros d; simpl; auto. right.
  destruct (IH y) as [[-> E]|[A B]]; simpl.
  - rewrite Nat.min_id. split; auto. intros x [<-|[]]; auto.
  - destruct (Nat.min_spec y (lmin y l)) as [[L ->]|[L ->]].
    + split; auto. intros x [<-|Hx]; auto. specialize (B x Hx). lia.
    + split; auto. intros x [<-|Hx]; auto.
Qed.

Lemma lmin_same_set d d' l l' : l <> [] -> (forall x, In x l <-> In x l') -> lmin d l = lmin d' l'.
Proof.
  intros Hne H. assert (l' <> []).
  { destruct l as [|x l]; [congruence|]. intros ->. apply (H x). simpl; auto. }
  destruct (lmin_spec d l) as [[? _]|[A B]]; [congruence|]. destruct (lmin_spec d' l') as [[? _]|[A' B']]; [congruence|].
  apply Nat.le_antisymm; [apply B, H, A'|apply B', H, A].
Qed.

Definition orel {A} (R : A -> A -> Prop) (o o' : option A) : Prop :=
  match o, o' with
  | Some r, Some r' => R r r'
  | None, None => True
  | _, _ => False
  end.
Lemma orel_impl A (R R' : A -> A -> Prop) o o' : (forall x y, R x y -> R' x y) -> orel R o o' -> orel R' o o'.
Proof. intros H. destruct o, o'; simpl; auto. Qed.
Lemma orel_refl A (R : A -> A -> Prop) o : (forall x, R x x) -> orel R o o.
Proof. intros H. destruct o; simpl; auto. Qed.
Lemma orel_sym A (R : A -> A -> Prop) o o' : (forall x y, R x y -> R y x) -> orel R o o' -> orel R o' o.
Proof. intros H. destruct o, o'; simpl; auto. Qed.
Lemma orel_trans A (R : A -> A -> Prop) o o' o'' :
  (forall x y z, R x y -> R y z -> R x z) -> orel R o o' -> orel R o' o'' -> orel R o o''.
Proof. intros H. destruct o, o', o''; simpl; eauto; tauto. Qed.

Section Proofs.
Variable dep : nat -> nat -> bool.
Hypothesis dep_sym : forall a b, dep a b = dep b a.
Hypothesis dep_refl : forall a, dep a a = true.

(** one swap of two adjacent independent letters, and the equivalence it generates *)
Inductive swap1 : list nat -> list nat -> Prop :=
| swap1_intro u a b v : dep a b = false -> swap1 (u ++ a :: b :: v) (u ++ b :: a :: v).
Definition equiv : list nat -> list nat -> Prop := clos_refl_sym_trans (list nat) swap1.

Lemma swap1_cons x s t : swap1 s t -> swap1 (x :: s) (x :: t).
Proof. intros H; inv H. apply (swap1_intro (x :: u)); auto. Qed.
Lemma swap1_sym s t : swap1 s t -> swap1 t s.
Proof. intros H; inv H. apply swap1_intro. rewrite dep_sym; auto. Qed.

Lemma equiv_refl t : equiv t t.
Proof. apply rst_refl. Qed.
Lemma equiv_sym s t : equiv s t -> equiv t s.
Proof. apply rst_sym. Qed.
Lemma equiv_trans s t u : equiv s t -> equiv t u -> equiv s u.
Proof. apply rst_trans. Qed.
Lemma equiv_cons x s t : equiv s t -> equiv (x :: s) (x :: t).
Proof.
  induction 1 as [s t H| | |s t u _ IH1 _ IH2].
  - apply rst_step, swap1_cons; auto.
  - apply rst_refl.
  - apply rst_sym; auto.
  - eapply rst_trans; eauto.
Qed.
Lemma equiv_perm s t : equiv s t -> Permutation s t.
Proof.
  induction 1 as [s t H| | |s t u _ IH1 _ IH2]; auto.
  - inv H. apply Permutation_app_head. apply perm_swap.
  - apply Permutation_sym; auto.
  - eapply perm_trans; eauto.
Qed.

Notation extract := (extract dep).

Lemma extract_sound a t r : extract a t = Some r -> equiv t (a :: r).
Proof.
  revert r; induction t as [|x t IH]; intros r H; simpl in H; [discriminate|].
  destruct (x =? a) eqn:E.
  - apply Nat.eqb_eq in E. inv H. apply equiv_refl.
  - destruct (dep x a) eqn:D; [discriminate|]. destruct (extract a t) as [r'|]; [|discriminate]. inv H.
    eapply equiv_trans; [apply equiv_cons, IH; reflexivity|].
    apply rst_step. apply (swap1_intro [] x a r'); auto.
Qed.

Lemma extract_length a t r : extract a t = Some r -> length t = S (length r).
Proof.
  revert r; induction t as [|x t IH]; intros r H; simpl in H; [discriminate|].
  destruct (x =? a); [inv H; reflexivity|]. destruct (dep x a); [discriminate|].
  destruct (extract a t) as [r'|]; [|discriminate]. inv H. simpl. rewrite (IH r'); auto.
Qed.

Lemma extract_in a t r : extract a t = Some r -> In a t.
Proof. intros H. apply extract_sound, equiv_perm in H. eapply Permutation_in; [apply Permutation_sym; eauto|simpl; auto]. Qed.

(* a swap does not change which letters can be brought to the front, and the remainders differ by at most that swap *)
Lemma extract_swap1 s t a : swap1 s t -> orel (fun r r' => r = r' \/ swap1 r r') (extract a s) (extract a t).
Proof.
  intros H; inv H. rename a0 into x, b into y.
  assert (Hxy : x <> y) by (intros ->; rewrite dep_refl in H0; discriminate).
  assert (Dyx : dep y x = false) by (rewrite dep_sym; auto).
  induction u as [|z u IH]; simpl.
  - destruct (x =? a) eqn:Ex.
    + apply Nat.eqb_eq in Ex. subst a. destruct (y =? x) eqn:Eyx; [apply Nat.eqb_eq in Eyx; congruence|].
      rewrite Dyx. simpl. auto.
    + destruct (y =? a) eqn:Ey.
      * apply Nat.eqb_eq in Ey. subst a. rewrite H0. simpl. auto.
      * destruct (dep x a) eqn:Dx, (dep y a) eqn:Dy; simpl; auto.
        destruct (extract a v) as [r|]; simpl; auto. right. apply (swap1_intro [] x y r); auto.
  - destruct (z =? a); simpl.
    + right. apply swap1_intro; auto.
    + destruct (dep z a); simpl; auto.
      destruct (extract a (u ++ x :: y :: v)) as [r|], (extract a (u ++ y :: x :: v)) as [r'|]; simpl in *; auto.
      destruct IH as [->|IH]; auto. right. apply swap1_cons; auto.
Qed.

Lemma extract_equiv s t a : equiv s t -> orel equiv (extract a s) (extract a t).
Proof.
  induction 1 as [s t H|s|s t _ IH|s t u _ IH1 _ IH2].
  - eapply orel_impl; [|apply extract_swap1; exact H]. intros x y [->|Hs]; [apply equiv_refl|apply rst_step; exact Hs].
  - apply orel_refl, equiv_refl.
  - apply orel_sym; [exact equiv_sym|exact IH].
  - eapply orel_trans; [exact equiv_trans|eassumption..].
Qed.

Lemma extractable_equiv s t a : equiv s t -> extractable dep s a = extractable dep t a.
Proof.
  intros H. pose proof (extract_equiv _ _ a H) as R. unfold extractable.
  destruct (extract a s), (extract a t); simpl in R; tauto || reflexivity.
Qed.

Notation nf_fuel := (nf_fuel dep).
Notation nf := (nf dep).

Lemma head_extractable x t : extractable dep (x :: t) x = true.
Proof. unfold extractable. simpl. rewrite Nat.eqb_refl. reflexivity. Qed.

Lemma filter_extractable_ne x t : filter (extractable dep (x :: t)) (x :: t) <> [].
Proof.
  intros E. assert (In x (filter (extractable dep (x :: t)) (x :: t))) as H by (apply filter_In; split; [simpl; auto|apply head_extractable]).
  rewrite E in H. inv H.
Qed.

(* the letter chosen by the normal form can be extracted *)
Lemma chosen_extractable x t : let a := lmin x (filter (extractable dep (x :: t)) (x :: t)) in
  exists r, extract a (x :: t) = Some r.
Proof.
  intros a. destruct (lmin_spec x (filter (extractable dep (x :: t)) (x :: t))) as [[E _]|[A _]].
  - destruct (filter_extractable_ne _ _ E).
  - fold a in A. apply filter_In in A. destruct A as [_ A]. unfold extractable in A.
    destruct (extract a (x :: t)) as [r|]; [eauto|discriminate].
Qed.

Lemma nf_fuel_equiv fuel : forall t, length t <= fuel -> equiv t (nf_fuel fuel t).
Proof.
  induction fuel as [|f IH]; intros t L.
  - destruct t; [apply equiv_refl|simpl in L; lia].
  - destruct t as [|x t]; [apply equiv_refl|]. cbn [Mazur.nf_fuel].
    destruct (chosen_extractable x t) as (r & E). cbv zeta in E. rewrite E.
    eapply equiv_trans; [apply extract_sound; eauto|]. apply equiv_cons, IH.
    apply extract_length in E. simpl in *. lia.
Qed.

Lemma nf_equiv t : equiv t (nf t).
Proof. apply nf_fuel_equiv; auto. Qed.

Lemma nf_fuel_complete fuel : forall s t, length s <= fuel -> equiv s t -> nf_fuel fuel s = nf_fuel fuel t.
Proof.
  induction fuel as [|f IH]; intros s t L H; [reflexivity|].
  pose proof (equiv_perm _ _ H) as P.
  destruct s as [|x s], t as [|y t]; try reflexivity.
  - apply Permutation_length in P; discriminate.
  - apply Permutation_length in P; discriminate.
  - cbn [Mazur.nf_fuel].
    assert (Hsame : forall a, In a (filter (extractable dep (x :: s)) (x :: s)) <-> In a (filter (extractable dep (y :: t)) (y :: t))).
    { intros a. rewrite !filter_In, (extractable_equiv _ _ a H).
      split; intros [A B]; (split; [|exact B]); [exact (Permutation_in _ P A)|exact (Permutation_in _ (Permutation_sym P) A)]. }
    pose proof (filter_extractable_ne x s) as Hne.
    rewrite (lmin_same_set x y _ _ Hne Hsame).
    set (a := lmin y (filter (extractable dep (y :: t)) (y :: t))).
    pose proof (extract_equiv _ _ a H) as R. unfold orel in R.
    destruct (extract a (x :: s)) as [r|] eqn:E1, (extract a (y :: t)) as [r'|] eqn:E2; try tauto.
    f_equal. apply IH; auto. apply extract_length in E1. simpl in *. lia.
Qed.

(** C40: two words have the same normal form iff they are equivalent *)
Theorem nf_complete s t : nf s = nf t <-> equiv s t.
Proof.
  split.
  - intros H. eapply equiv_trans; [apply nf_equiv|]. rewrite H. apply equiv_sym, nf_equiv.
  - intros H. unfold Mazur.nf. rewrite <- (Permutation_length (equiv_perm _ _ H)). apply nf_fuel_complete; auto.
Qed.

Theorem nf_idempotent t : nf (nf t) = nf t.
Proof. apply nf_complete, equiv_sym, nf_equiv. Qed.

(** the checker's own recursive test (debug-optimality) decides the same relation *)
Theorem are_equivalent_spec fuel : forall u v, length u < fuel -> (are_equivalent dep fuel u v = true <-> equiv u v).
Proof.
  induction fuel as [|f IH]; intros u v L; [lia|]. simpl. destruct u as [|a u].
  - destruct v as [|b v].
    + split; auto. intros _. apply equiv_refl.
    + split; [discriminate|]. intros H. apply equiv_perm, Permutation_length in H. discriminate.
  - destruct (extract a v) as [v'|] eqn:E.
    + rewrite IH by (simpl in L; lia). split.
      * intros H. eapply equiv_trans; [apply equiv_cons; eauto|]. apply equiv_sym, extract_sound; auto.
      * intros H. pose proof (extract_equiv _ _ a H) as R. unfold orel in R. simpl in R. rewrite Nat.eqb_refl, E in R. auto.
    + split; [discriminate|]. intros H. pose proof (extract_equiv _ _ a H) as R. unfold orel in R. simpl in R.
      rewrite Nat.eqb_refl, E in R. tauto.
Qed.
End Proofs.
