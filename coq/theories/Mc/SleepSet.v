(** C38 — the mechanised core of "reductions are sound": on an abstract transition system whose independence relation
    satisfies the commutation conditions (what C39 states for Transition::depends), a depth-first search pruned with sleep
    sets still visits every dead state (terminal or deadlock) reachable from its start state.
    This is the classical theorem (Godefroid 1996, Thm 5.2).  The race analyses of DPOR/SDPOR/ODPOR/UDPOR, which decide
    which *additional* transitions a state must explore, are NOT mechanised; they are checked per program by checks/C38.py. *)
From SGV Require Import Base.PlainLia Base.Facts.

Section SleepSets.
  Variable St T : Type.
  Variable T_eq_dec : forall a b : T, {a = b} + {a <> b}.
  (* transitions are partial functions on states *)
  Variable step : St -> T -> option St.
  (* the transitions enabled in a state, in the order in which the search considers them *)
  Variable en : St -> list T.
  Hypothesis en_spec : forall s t, In t (en s) <-> step s t <> None.
  Variable indep : T -> T -> bool.
  Hypothesis indep_sym : forall a b, indep a b = indep b a.
  (* independent transitions enabled together commute and do not disable each other ... *)
  Hypothesis indep_comm : forall s a b s1 s2,
    indep a b = true -> step s a = Some s1 -> step s b = Some s2 ->
    exists s3, step s1 b = Some s3 /\ step s2 a = Some s3.
  (* ... and do not enable each other *)
  Hypothesis indep_back : forall s a b s1 s3,
    indep a b = true -> step s a = Some s1 -> step s1 b = Some s3 -> exists s2, step s b = Some s2.

  Fixpoint run (s : St) (w : list T) : option St :=
    match w with
    | [] => Some s
    | a :: r => match step s a with Some s' => run s' r | None => None end
    end.

  Definition dead (s : St) : Prop := en s = [].

  (** The sleep-set search started in [s] with sleep set [Z] visits [d].  From [s] it fires, in the order of [en s], the
      enabled transitions that are not asleep; the successor by [t] sleeps on what was asleep or already fired here and is
      independent of [t]. *)
  Inductive visits : St -> list T -> St -> Prop :=
  | v_here : forall s Z, visits s Z s
  | v_step : forall s Z pre t post s' d,
      en s = pre ++ t :: post -> ~ In t Z -> step s t = Some s' ->
      visits s' (filter (fun z => indep z t) (Z ++ pre)) d ->
      visits s Z d.

  (** [z] is an initial of the word [w]: it occurs in [w] and is independent of everything before its first occurrence *)
  Fixpoint initb (z : T) (w : list T) : bool :=
    match w with
    | [] => false
    | x :: r => if T_eq_dec x z then true else indep x z && initb z r
    end.

  Fixpoint remove_first (z : T) (w : list T) : list T :=
    match w with
    | [] => []
    | x :: r => if T_eq_dec x z then r else x :: remove_first z r
    end.

  Lemma init_enabled : forall z w s d, initb z w = true -> run s w = Some d -> exists s', step s z = Some s'.
  Proof.
    intros z w. induction w as [|x r IH]; intros s d Hi Hr; cbn [initb run] in *; [discriminate|].
    destruct (step s x) as [s1|] eqn:Hx; [|discriminate].
    destruct (T_eq_dec x z) as [->|Hne].
    - eauto.
    - apply andb_true_iff in Hi. destruct Hi as (Hind & Hi).
      destruct (IH _ _ Hi Hr) as (s3 & H3).
      eapply indep_back; eauto.
  Qed.

  Lemma init_to_front : forall z w s d,
    initb z w = true -> run s w = Some d -> run s (z :: remove_first z w) = Some d.
  Proof.
    intros z w. induction w as [|x r IH]; intros s d Hi Hr; cbn [initb] in Hi; [discriminate|].
    cbn [remove_first]. destruct (T_eq_dec x z) as [->|Hne]; [assumption|].
    apply andb_true_iff in Hi. destruct Hi as (Hind & Hi).
    cbn [run] in Hr. destruct (step s x) as [s1|] eqn:Hx; [|discriminate].
    specialize (IH _ _ Hi Hr). cbn [run] in IH.
    destruct (step s1 z) as [s3|] eqn:H1z; [|discriminate].
    destruct (indep_back _ _ _ _ _ Hind Hx H1z) as (s2 & H2).
    destruct (indep_comm _ _ _ _ _ Hind Hx H2) as (s3' & Ha & Hb).
    rewrite H1z in Ha. inv Ha.
    cbn [run]. rewrite H2, Hb. assumption.
  Qed.

  Lemma init_after_removal : forall t z w,
    initb t w = true -> indep z t = true -> initb z (remove_first t w) = true -> initb z w = true.
  Proof.
    intros t z w. induction w as [|x r IH]; intros Ht Hind Hz; cbn [initb remove_first] in *; [discriminate|].
    destruct (T_eq_dec x t) as [->|Hxt].
    - destruct (T_eq_dec t z); [reflexivity|]. rewrite indep_sym, Hind, Hz. reflexivity.
    - apply andb_true_iff in Ht. destruct Ht as (_ & Ht).
      cbn [initb] in Hz. destruct (T_eq_dec x z); [reflexivity|].
      apply andb_true_iff in Hz. destruct Hz as (Hxz & Hz).
      rewrite Hxz, (IH Ht Hind Hz). reflexivity.
  Qed.

  Lemma remove_first_length : forall t w, initb t w = true -> S (length (remove_first t w)) = length w.
  Proof.
    intros t w. induction w as [|x r IH]; intros Hi; cbn [initb remove_first length] in *; [discriminate|].
    destruct (T_eq_dec x t); [reflexivity|].
    apply andb_true_iff in Hi. destruct Hi as (_ & Hi). cbn [length]. rewrite (IH Hi). reflexivity.
  Qed.

  (** Main theorem: a dead state reached by [w] is visited provided no sleeping transition is an initial of [w] *)
  Theorem sleep_set_search_complete : forall w s Z d,
    run s w = Some d -> dead d -> (forall z, In z Z -> initb z w = false) -> visits s Z d.
  Proof.
    intros w. remember (length w) as n eqn:Hn. revert w Hn.
    induction n as [|n IH]; intros w Hn s Z d Hr Hd HZ.
    - destruct w; [|discriminate]. cbn [run] in Hr. inv Hr. constructor.
    - destruct w as [|a r]; [discriminate|].
      assert (Ha : initb a (a :: r) = true).
      { cbn [initb]. destruct (T_eq_dec a a); [reflexivity|congruence]. }
      destruct (init_enabled _ _ _ _ Ha Hr) as (sa & Hsa).
      (* the first enabled transition, in the order of the search, that is an initial of the word; [a] is one *)
      destruct (first_split (fun t => initb t (a :: r)) (en s)) as [Hno|(pre & t & post & Hen & Hpre & Ht)].
      { rewrite Forall_forall in Hno. rewrite (Hno a) in Ha; [discriminate|]. apply en_spec. congruence. }
      rewrite Forall_forall in Hpre.
      pose proof (init_to_front _ _ _ _ Ht Hr) as Hfront. cbn [run] in Hfront.
      destruct (step s t) as [s'|] eqn:Hst; [|discriminate].
      eapply v_step; eauto.
      + intros Hin. rewrite (HZ _ Hin) in Ht. discriminate.
      + apply (IH (remove_first t (a :: r))); [| assumption | assumption |].
        * pose proof (remove_first_length _ _ Ht) as Hl. cbn [length] in Hn, Hl. lia.
        * intros z Hz. apply filter_In in Hz. destruct Hz as (Hz & Hind).
          destruct (initb z (remove_first t (a :: r))) eqn:Hzi; [|reflexivity].
          pose proof (init_after_removal _ _ _ Ht Hind Hzi) as Hzw.
          apply in_app_or in Hz. destruct Hz as [Hz|Hz].
          -- rewrite (HZ _ Hz) in Hzw. discriminate.
          -- rewrite (Hpre _ Hz) in Hzw. discriminate.
  Qed.

  (** the search only visits reachable states *)
  Theorem sleep_set_search_sound : forall s Z d, visits s Z d -> exists w, run s w = Some d.
  Proof.
    intros s Z d H. induction H as [s Z|s Z pre t post s' d Hen Hn Hs Hv (w & Hw)].
    - exists []. reflexivity.
    - exists (t :: w). cbn [run]. rewrite Hs. assumption.
  Qed.

  (** with an empty initial sleep set: exactly the reachable dead states are visited dead states *)
  Corollary sleep_sets_preserve_dead_states : forall s d,
    dead d -> ((exists w, run s w = Some d) <-> visits s [] d).
  Proof.
    intros s d Hd. split.
    - intros (w & Hw). apply (sleep_set_search_complete w); [assumption..|intros z []].
    - apply sleep_set_search_sound.
  Qed.
End SleepSets.

(** * A concrete instance (non-vacuity): two actors, each with one transition, fully independent *)
Definition ex_step (s : bool * bool) (t : bool) : option (bool * bool) :=
  let '(a, b) := s in
  if t then (if a then None else Some (true, b)) else (if b then None else Some (a, true)).
Definition ex_en (s : bool * bool) : list bool :=
  let '(a, b) := s in (if a then [] else [true]) ++ (if b then [] else [false]).
Definition ex_indep (x y : bool) : bool := negb (Bool.eqb x y).

Lemma ex_en_spec : forall s t, In t (ex_en s) <-> ex_step s t <> None.
Proof.
  intros [[|] [|]] [|]; cbn; split; intros H; try discriminate; try (exfalso; apply H; reflexivity); auto;
    repeat (destruct H as [H|H]; try discriminate); try contradiction.
Qed.
Lemma ex_indep_sym : forall a b, ex_indep a b = ex_indep b a.
Proof. intros [|] [|]; reflexivity. Qed.
Lemma ex_indep_comm : forall s a b s1 s2,
  ex_indep a b = true -> ex_step s a = Some s1 -> ex_step s b = Some s2 ->
  exists s3, ex_step s1 b = Some s3 /\ ex_step s2 a = Some s3.
Proof.
  intros [[|] [|]] [|] [|] s1 s2 Hi H1 H2; cbn in *; try discriminate; inv H1; inv H2; cbn; eauto.
Qed.
Lemma ex_indep_back : forall s a b s1 s3,
  ex_indep a b = true -> ex_step s a = Some s1 -> ex_step s1 b = Some s3 -> exists s2, ex_step s b = Some s2.
Proof.
  intros [[|] [|]] [|] [|] s1 s3 Hi H1 H3; cbn in *; try discriminate; inv H1; cbn in *; try discriminate; eauto.
Qed.
