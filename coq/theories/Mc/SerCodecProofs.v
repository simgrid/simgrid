(** C43 — proofs about the wire codec of SerCodec.v (all for unbounded values / any table). *)
From SGV Require Import Base.PlainLia Mc.SerCodec.
Local Open Scope Z_scope.

Lemma width_pos : forall n, 0 < width n.
Proof. intros n. unfold width. apply Z.pow_pos_nonneg; lia. Qed.
Lemma width_S : forall n, width (S n) = 256 * width n.
Proof. intros n. unfold width. rewrite Nat2Z.inj_succ, Z.pow_succ_r by lia. reflexivity. Qed.

(** little-endian bytes: what comes back is the value modulo 2^(8n) *)
Lemma dec_enc_le : forall n z r, dec_le n (enc_le n z ++ r) = Some (z mod width n, r).
Proof.
  induction n as [|n IH]; intros z r; cbn [enc_le dec_le app].
  - unfold width. cbn. rewrite Z.mod_1_r. reflexivity.
  - rewrite IH. rewrite width_S.
    rewrite (Z.rem_mul_r z 256 (width n)) by (pose proof (width_pos n); lia).
    reflexivity.
Qed.

Lemma dec_enc_le_small : forall n z r, 0 <= z < width n -> dec_le n (enc_le n z ++ r) = Some (z, r).
Proof. intros n z r H. rewrite dec_enc_le, Z.mod_small by lia. reflexivity. Qed.

Lemma to_signed_mod : forall n z, - (width n / 2) <= z < width n / 2 -> to_signed n (z mod width n) = z.
Proof.
  intros n z H. unfold to_signed.
  destruct n as [|n].
  - unfold width in *. cbn in *. lia.
  - rewrite width_S in *. pose proof (width_pos n) as Hp. set (w := width n) in *.
    assert (Hh : 256 * w / 2 = 128 * w) by (replace (256 * w) with ((128 * w) * 2) by lia; apply Z.div_mul; lia).
    rewrite Hh in *.
    destruct (Z_lt_ge_dec z 0) as [Hn|Hn].
    + replace (z mod (256 * w)) with (z + 256 * w).
      * destruct (z + 256 * w <? 128 * w) eqn:E; lia.
      * symmetry. rewrite <- (Z_mod_plus_full z 1 (256 * w)). rewrite Z.mod_small; lia.
    + rewrite Z.mod_small by lia. destruct (z <? 128 * w) eqn:E; lia.
Qed.

Lemma cstr_app_nul : forall s r, Forall (fun c => 1 <= c <= 255) s -> cstr (s ++ 0 :: r) = s.
Proof.
  induction s as [|c s IH]; intros r H; cbn [cstr app].
  - reflexivity.
  - inv H. destruct (c =? 0) eqn:E; [lia|]. rewrite IH by assumption. reflexivity.
Qed.

Lemma take_bytes_app : forall s r, take_bytes (length s) (s ++ r) = Some (s, r).
Proof. induction s as [|c s IH]; intros r; cbn [take_bytes length app]; [reflexivity|]. rewrite IH. reflexivity. Qed.

Lemma reinterp_same : forall c v, shape v = c -> wf_pval v -> reinterp c v = v.
Proof.
  intros c v Hs Hw. destruct v as [b|n s z|z|s]; cbn in Hs; subst c; cbn [reinterp]; try reflexivity.
  destruct s; cbn in Hw.
  - rewrite to_signed_mod by assumption. reflexivity.
  - rewrite Z.mod_small by assumption. reflexivity.
Qed.

(** an unsigned value read as signed (or the converse) is unchanged as long as it fits the positive half *)
Lemma reinterp_small : forall n s sg z, 0 <= z < width n / 2 -> reinterp (WInt n sg) (VInt n s z) = VInt n sg z.
Proof.
  intros n s sg z H. cbn [reinterp].
  assert (Hw : width n / 2 <= width n) by (pose proof (width_pos n); apply Z.div_le_upper_bound; lia).
  destruct sg.
  - rewrite to_signed_mod by lia. reflexivity.
  - rewrite Z.mod_small by lia. reflexivity.
Qed.

(** one primitive: the checker reads back what the application packed *)
Lemma dec_wire_enc : forall c v r,
  wire_compat (shape v) c = true -> wf_pval v -> dec_wire c (enc_pval v ++ r) = Some (reinterp c v, r).
Proof.
  intros c v r Hc Hw.
  destruct v as [b|n s z|z|s]; destruct c as [| m sg | | |]; cbn in Hc; try discriminate.
  - destruct b; reflexivity.
  - apply Nat.eqb_eq in Hc. subst m. cbn [enc_pval dec_wire reinterp]. rewrite dec_enc_le. reflexivity.
  - cbn [enc_pval dec_wire reinterp]. cbn in Hw. rewrite dec_enc_le_small by assumption. reflexivity.
  - cbn [enc_pval dec_wire reinterp]. destruct Hw as [Hc1 Hl].
    rewrite <- app_assoc. rewrite dec_enc_le_small by (unfold width; cbn; lia).
    rewrite Nat2Z.id.
    replace (S (length s)) with (length (s ++ [0])) by (rewrite app_length; cbn; lia).
    rewrite take_bytes_app. rewrite cstr_app_nul by assumption. reflexivity.
Qed.

Lemma forallb2_cons_inv : forall A B (f : A -> B -> bool) a l m,
  forallb2 f (a :: l) m = true -> exists b m', m = b :: m' /\ f a b = true /\ forallb2 f l m' = true.
Proof.
  intros A B f a l m H. destruct m as [|b m']; cbn in H; [discriminate|].
  apply andb_true_iff in H. destruct H as [H1 H2]. exists b, m'. auto.
Qed.

Section WithChk.
  Variable chk : nat -> option (list item).

  Lemma dec_prims_enc : forall vs ia ic r,
    prims_typed ia vs -> seq_compat ia ic = true -> Forall wf_pval vs ->
    dec_prims ic (concat (map enc_pval vs) ++ r) = Some (reinterp_prims ic vs, r).
  Proof.
    induction vs as [|v vs IH]; intros ia ic r Ht Hc Hw.
    - inv Ht. destruct ic; cbn in Hc; [|discriminate]. reflexivity.
    - inversion Ht as [|a0 v0 ia' vs' Ha Hrest]; subst. inversion Hw as [|v1 vs1 Hwv Hwr]; subst.
      apply forallb2_cons_inv in Hc. destruct Hc as (b & ic' & -> & Hb & Hc).
      destruct b as [w|]; cbn in Hb; [|discriminate].
      cbn [map concat dec_prims reinterp_prims]. rewrite <- app_assoc.
      rewrite dec_wire_enc by assumption.
      rewrite (IH ia' ic' r) by assumption. reflexivity.
  Qed.

  (** a list element: typed by some application entry whose checker entry is compatible *)
  Definition simple_ok (tv : nat * list pval) : Prop :=
    exists ia ic, chk (fst tv) = Some ic /\ seq_compat ia ic = true /\ prims_typed ia (snd tv) /\ wf_simple tv.

  Lemma dec_tag : forall t r, Z.of_nat t < width 4 -> dec_le 4 (enc_tag t ++ r) = Some (Z.of_nat t, r).
  Proof. intros t r H. unfold enc_tag. apply dec_enc_le_small. lia. Qed.

  Lemma dec_simple_enc : forall tv r, simple_ok tv -> dec_simple chk (enc_simple tv ++ r) = Some (reinterp_simple chk tv, r).
  Proof.
    intros [t vs] r (ia & ic & Hchk & Hc & Ht & Hwt & Hwv). cbn [fst snd] in *.
    unfold dec_simple, enc_simple, reinterp_simple. cbn [fst snd]. rewrite <- app_assoc.
    rewrite dec_tag by assumption. rewrite Nat2Z.id, Hchk.
    rewrite (dec_prims_enc vs ia ic r) by assumption. reflexivity.
  Qed.

  Lemma dec_many_enc : forall l r, Forall simple_ok l ->
    dec_many chk (length l) (concat (map enc_simple l) ++ r) = Some (map (reinterp_simple chk) l, r).
  Proof.
    induction l as [|x l IH]; intros r H; cbn [length map concat dec_many app].
    - reflexivity.
    - inv H. rewrite <- app_assoc. rewrite dec_simple_enc by assumption. rewrite IH by assumption. reflexivity.
  Qed.

  Definition field_ok (ia ic : item) (f : fval) : Prop :=
    match ia, f with
    | IP w, FP v => w = shape v /\ wf_pval v
    | ICounted, FSub l => Forall simple_ok l /\ Z.of_nat (length l) < width 4
    | _, _ => False
    end.

  Lemma dec_items_enc : forall fs ia ic r,
    Forall2 (fun a f => field_ok a a f) ia fs -> seq_compat ia ic = true ->
    dec_items chk ic (concat (map enc_fval fs) ++ r) = Some (reinterp_items chk ic fs, r).
  Proof.
    induction fs as [|f fs IH]; intros ia ic r Ht Hc.
    - inv Ht. destruct ic; cbn in Hc; [|discriminate]. reflexivity.
    - inversion Ht as [|x f0 ia' fs' H1 Hrest]; subst.
      apply forallb2_cons_inv in Hc. destruct Hc as (b & ic' & -> & Hb & Hc).
      cbn [map concat]. rewrite <- app_assoc.
      destruct x as [w|]; destruct f as [v|sub]; cbn in H1; try contradiction.
      + destruct H1 as [-> Hw]. destruct b as [w'|]; cbn in Hb; [|discriminate].
        cbn [dec_items reinterp_items enc_fval]. rewrite dec_wire_enc by assumption.
        rewrite (IH ia' ic' r) by assumption. reflexivity.
      + destruct H1 as [Hs Hl]. destruct b as [w'|]; cbn in Hb; [discriminate|].
        cbn [dec_items reinterp_items enc_fval]. rewrite <- app_assoc.
        rewrite dec_enc_le_small by (split; [lia|assumption]). rewrite Nat2Z.id.
        rewrite dec_many_enc by assumption. rewrite (IH ia' ic' r) by assumption. reflexivity.
  Qed.
End WithChk.

(** ** from the agreement of two tables to the decoding of everything the application can send *)
Theorem decode_encode : forall (app : app_table_t) (chk : nat -> option (list item)) (nomc nested : list nat) t r,
  tables_agree app chk nomc = true -> nested_ok app chk nomc nested = true ->
  app_typed app nested t -> wf_tval t -> memb (fst t) nomc = false ->
  dec_tval chk (enc_tval t ++ r) = Some (reinterp_tval chk t, r).
Proof.
  intros app chk nomc nested [tag fs] r Hag Hne (o & ia & Hin & Hty) [Hwt Hwf] Hnm. cbn [fst snd] in *.
  unfold tables_agree in Hag. rewrite forallb_forall in Hag.
  unfold nested_ok in Hne. rewrite forallb_forall in Hne.
  pose proof (Hag _ Hin) as He. cbn in He. rewrite Hnm in He.
  destruct (chk tag) as [ic|] eqn:Hchk; [|discriminate].
  unfold dec_tval, enc_tval, reinterp_tval. cbn [fst snd]. rewrite <- app_assoc.
  rewrite dec_tag by assumption. rewrite Nat2Z.id, Hchk.
  rewrite (dec_items_enc chk fs ia ic r); [reflexivity| |assumption].
  clear Hin He Hchk.
  revert Hwf. induction Hty as [|a f ia' fs' Hf Hrest IH]; intros Hwf; [constructor|].
  inversion Hwf as [|f1 fs1 H1 Hwr]; subst. constructor; [|apply IH; assumption].
  destruct a as [w|]; destruct f as [v|sub]; cbn in Hf; try contradiction; cbn.
  - split; assumption.
  - cbn in H1. destruct H1 as [Hlen Hws]. split; [|assumption].
    rewrite Forall_forall in *. intros tv Htv.
    destruct (Hf tv Htv) as (Hnested & o' & its' & Hin' & Hpt).
    pose proof (Hne _ Hin') as Hn. cbn in Hn. rewrite Hnested in Hn.
    apply andb_true_iff in Hn. destruct Hn as [Hn _]. apply andb_true_iff in Hn. destruct Hn as [_ Hn].
    apply negb_true_iff in Hn.
    pose proof (Hag _ Hin') as He'. cbn in He'. rewrite Hn in He'.
    destruct (chk (fst tv)) as [ic'|] eqn:Hchk'; [|discriminate].
    exists its', ic'. repeat split; try assumption; apply (Hws tv Htv).
Qed.

Lemma wire_compat_refl : forall v, wire_compat (shape v) (shape v) = true.
Proof. destruct v; cbn; try reflexivity. apply Nat.eqb_refl. Qed.

(** the code as pinned: MessIputSimcall packed COMM_ASYNC_SEND then two pointers; the checker's COMM_ASYNC_SEND
    constructor reads unsigned, unsigned, int, string: it consumes 12 of the 16 bytes, takes the next two as a string
    length and then waits for that many bytes, which never come *)
Definition pinned_send_seq : list item := [IP (WInt 4 false); IP (WInt 4 false); IP (WInt 4 true); IP WStr].
Definition pinned_chk (t : nat) : option (list item) := if Nat.eqb t 10 then Some pinned_send_seq else None.
Definition pinned_mess_value : tval := (10%nat, [FP (VPtr 94390541050544); FP (VPtr 94390541050624)]).
