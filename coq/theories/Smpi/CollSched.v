(** C29 — collectives as data-oblivious schedules over a commutative monoid.

    A collective algorithm whose control flow depends only on (np, rank, root, counts) performs, whatever the data, the
    same sequence of elementary steps on cells (buffer elements of all ranks, temporaries, messages in flight):
      Copy d s      cell d := cell s                (local copy, send/receive)
      Red d s       cell d := cell d (+) cell s     (op->apply(in, inout))
      Red3 d a b    cell d := cell a (+) cell b
    Cells hold elements of an arbitrary commutative monoid (setoid equality).  The free commutative monoid over
    provenance labels (rank, index) is lists of labels up to permutation. *)
From SGV Require Import Base.PlainLia.
From Coq Require Import Permutation.
Local Open Scope Z_scope.

Definition label := (Z * Z)%type.
Definition cell := Z.

Record CMonoid := {
  car : Type;
  eqv : car -> car -> Prop;
  op : car -> car -> car;
  unit : car;
  eqv_refl : forall x, eqv x x;
  eqv_sym : forall x y, eqv x y -> eqv y x;
  eqv_trans : forall x y z, eqv x y -> eqv y z -> eqv x z;
  op_proper : forall x x' y y', eqv x x' -> eqv y y' -> eqv (op x y) (op x' y');
  op_assoc : forall x y z, eqv (op (op x y) z) (op x (op y z));
  op_comm : forall x y, eqv (op x y) (op y x);
  op_unit_l : forall x, eqv (op unit x) x }.

Inductive step := Copy (d s : cell) | Red (d s : cell) | Red3 (d a b : cell).

Definition state (M : CMonoid) := cell -> car M.

Definition upd {M : CMonoid} (st : state M) (d : cell) (x : car M) : state M :=
  fun c => if c =? d then x else st c.

Definition exec {M : CMonoid} (st : state M) (s : step) : state M :=
  match s with
  | Copy d s => upd st d (st s)
  | Red d s => upd st d (op M (st d) (st s))
  | Red3 d a b => upd st d (op M (st a) (st b))
  end.

Definition run_sched {M : CMonoid} (S : list step) (st : state M) : state M := fold_left exec S st.

(** the monoid homomorphism determined by the images of the generators *)
Fixpoint hom (M : CMonoid) (v : label -> car M) (l : list label) : car M :=
  match l with
  | [] => unit M
  | x :: r => op M (v x) (hom M v r)
  end.

(** the free commutative monoid: multisets of labels *)
Definition Free : CMonoid.
Proof.
  refine {| car := list label; eqv := @Permutation label; op := @app label; unit := [] |}.
  - apply Permutation_refl.
  - apply Permutation_sym.
  - apply Permutation_trans.
  - intros; now apply Permutation_app.
  - intros; now rewrite app_assoc.
  - intros; apply Permutation_app_comm.
  - intros; apply Permutation_refl.
Defined.

(** instances used for the direct samples: (Z,+,0), (Z,*,1), (Z,xor,0) with Leibniz equality *)
Definition Zsum : CMonoid.
Proof.
  refine {| car := Z; eqv := @eq Z; op := Z.add; unit := 0 |}; intros; subst; try reflexivity; try lia.
Defined.
Definition Zprod : CMonoid.
Proof.
  refine {| car := Z; eqv := @eq Z; op := Z.mul; unit := 1 |}; intros; subst; try reflexivity; try lia.
Defined.
Definition Zxor : CMonoid.
Proof.
  refine {| car := Z; eqv := @eq Z; op := Z.lxor; unit := 0 |}; intros; subst; try reflexivity;
    first [apply Z.lxor_assoc | apply Z.lxor_comm].
Defined.
(** max and min have no unit in Z: adjoin one (None) *)
Definition omax (a b : option Z) : option Z :=
  match a, b with None, x => x | x, None => x | Some x, Some y => Some (Z.max x y) end.
Definition omin (a b : option Z) : option Z :=
  match a, b with None, x => x | x, None => x | Some x, Some y => Some (Z.min x y) end.
Definition Zmax : CMonoid.
Proof.
  refine {| car := option Z; eqv := @eq (option Z); op := omax; unit := None |}; intros; subst; try reflexivity.
  - destruct x, y, z; cbn; try reflexivity; f_equal; lia.
  - destruct x, y; cbn; try reflexivity; f_equal; lia.
Defined.
Definition Zmin : CMonoid.
Proof.
  refine {| car := option Z; eqv := @eq (option Z); op := omin; unit := None |}; intros; subst; try reflexivity.
  - destruct x, y, z; cbn; try reflexivity; f_equal; lia.
  - destruct x, y; cbn; try reflexivity; f_equal; lia.
Defined.
(** MAXLOC on (value, location): larger value wins, smaller location among equal values *)
Definition maxloc (a b : Z * Z) : Z * Z :=
  if fst b <? fst a then a else if fst a <? fst b then b else (fst a, Z.min (snd a) (snd b)).
Definition omaxloc (a b : option (Z * Z)) : option (Z * Z) :=
  match a, b with None, x => x | x, None => x | Some x, Some y => Some (maxloc x y) end.
Lemma maxloc_gt : forall a b, fst b < fst a -> maxloc a b = a.
Proof. intros a b H. unfold maxloc. apply Z.ltb_lt in H. rewrite H. reflexivity. Qed.
Lemma maxloc_lt : forall a b, fst a < fst b -> maxloc a b = b.
Proof.
  intros a b H. unfold maxloc. rewrite (proj2 (Z.ltb_ge _ _) (Z.lt_le_incl _ _ H)), (proj2 (Z.ltb_lt _ _) H). reflexivity.
Qed.
Lemma maxloc_eq : forall a b, fst a = fst b -> maxloc a b = (fst a, Z.min (snd a) (snd b)).
Proof. intros a b H. unfold maxloc. rewrite H, Z.ltb_irrefl. reflexivity. Qed.

Lemma maxloc_assoc : forall a b c, maxloc (maxloc a b) c = maxloc a (maxloc b c).
Proof.
  intros a b c.
  destruct (Z.lt_trichotomy (fst a) (fst b)) as [Hab|[Hab|Hab]], (Z.lt_trichotomy (fst b) (fst c)) as [Hbc|[Hbc|Hbc]].
  - rewrite (maxloc_lt a b), (maxloc_lt b c), (maxloc_lt a c) by eauto using Z.lt_trans. reflexivity.
  - rewrite (maxloc_lt a b), (maxloc_eq b c), (maxloc_lt a) by assumption. reflexivity.
  - rewrite (maxloc_lt a b), (maxloc_gt b c), (maxloc_lt a b) by assumption. reflexivity.
  - rewrite (maxloc_eq a b), (maxloc_lt b c), !maxloc_lt by (cbn [fst]; congruence). reflexivity.
  - rewrite (maxloc_eq a b), (maxloc_eq b c), !maxloc_eq by (cbn [fst]; congruence). cbn [fst snd].
    rewrite Z.min_assoc. reflexivity.
  - rewrite (maxloc_eq a b), (maxloc_gt b c), (maxloc_gt _ c), maxloc_eq by (cbn [fst]; congruence). reflexivity.
  - rewrite (maxloc_gt a b), (maxloc_lt b c) by assumption. reflexivity.
  - rewrite (maxloc_gt a b), (maxloc_eq b c), !maxloc_gt by (cbn [fst]; congruence). reflexivity.
  - rewrite (maxloc_gt a b), (maxloc_gt b c), (maxloc_gt a c), (maxloc_gt a b) by eauto using Z.lt_trans. reflexivity.
Qed.
Lemma maxloc_comm : forall a b, maxloc a b = maxloc b a.
Proof.
  intros a b. destruct (Z.lt_trichotomy (fst a) (fst b)) as [H|[H|H]].
  - rewrite maxloc_lt, maxloc_gt by assumption. reflexivity.
  - rewrite !maxloc_eq, Z.min_comm by congruence. rewrite H. reflexivity.
  - rewrite maxloc_gt, maxloc_lt by assumption. reflexivity.
Qed.
Definition Zmaxloc : CMonoid.
Proof.
  refine {| car := option (Z * Z); eqv := @eq (option (Z * Z)); op := omaxloc; unit := None |}; intros; subst; try reflexivity.
  - destruct x, y, z; cbn; try reflexivity; f_equal; apply maxloc_assoc.
  - destruct x, y; cbn; try reflexivity; f_equal; apply maxloc_comm.
Defined.
