(** C29 — the checker's tests decide what they stand for: [perm_b] equality of multisets, [obs_ok] cell-wise equality
    of the expanded buffers (its fast path on runs is sound, the fallback exact).  The compact encoding, a count and an
    index sum per rank, determines a multiset that has at most one contribution per rank.  Last, the specification
    read cell by cell for the collectives that MPI defines in one line. *)
From SGV Require Import Base.PlainLia Base.Facts Smpi.CollSched Smpi.CollSpec.
From Coq Require Import Permutation.
Local Open Scope Z_scope.

Definition cells_equiv (a b : list (list label)) : Prop := Forall2 (@Permutation label) a b.

(** ---- perm_b decides multiset equality *)
Lemma label_eqb_eq : forall a b, label_eqb a b = true <-> a = b.
Proof.
  intros [a1 a2] [b1 b2]; unfold label_eqb; cbn [fst snd]; split.
  - intros H; apply andb_true_iff in H as [H1 H2]; apply Z.eqb_eq in H1, H2; congruence.
  - intros H; inv H; rewrite !Z.eqb_refl; reflexivity.
Qed.

Lemma remove1_some : forall x l l', remove1 x l = Some l' -> Permutation l (x :: l').
Proof.
  induction l as [|y r IH]; intros l' H; cbn [remove1] in H; [discriminate |].
  destruct (label_eqb x y) eqn:E.
  - apply label_eqb_eq in E; inv H; apply Permutation_refl.
  - destruct (remove1 x r) as [r'|] eqn:R; [|discriminate]. inv H.
    eapply perm_trans; [apply perm_skip, IH; reflexivity | apply perm_swap].
Qed.

Lemma remove1_none : forall x l, remove1 x l = None -> ~ In x l.
Proof.
  induction l as [|y r IH]; intros H; cbn [remove1] in H; [intros [] |].
  destruct (label_eqb x y) eqn:E; [discriminate |].
  destruct (remove1 x r) eqn:R; [discriminate |].
  intros [-> | Hin]; [| now apply IH].
  assert (label_eqb x x = true) by now apply label_eqb_eq. congruence.
Qed.

Lemma perm_b_sound : forall l1 l2, perm_b l1 l2 = true -> Permutation l1 l2.
Proof.
  induction l1 as [|x r IH]; intros l2 H; cbn [perm_b] in H.
  - destruct l2; [constructor | discriminate].
  - destruct (remove1 x l2) as [l2'|] eqn:R; [|discriminate].
    apply remove1_some in R. apply Permutation_sym. eapply perm_trans; [exact R |].
    apply perm_skip, Permutation_sym, IH, H.
Qed.

Lemma perm_b_complete : forall l1 l2, Permutation l1 l2 -> perm_b l1 l2 = true.
Proof.
  induction l1 as [|x r IH]; intros l2 HP; cbn [perm_b].
  - apply Permutation_nil in HP; subst; reflexivity.
  - destruct (remove1 x l2) as [l2'|] eqn:R.
    + apply IH. apply remove1_some in R.
      apply Permutation_cons_inv with (a := x). eapply perm_trans; [exact HP | exact R].
    + apply remove1_none in R. exfalso; apply R. eapply Permutation_in; [exact HP | left; reflexivity].
Qed.

Theorem perm_b_correct : forall l1 l2, perm_b l1 l2 = true <-> Permutation l1 l2.
Proof. split; [apply perm_b_sound | apply perm_b_complete]. Qed.

Theorem cells_eqb_correct : forall a b, cells_eqb a b = true <-> cells_equiv a b.
Proof.
  induction a as [|x a IH]; intros [|y b]; cbn [cells_eqb]; split; intros H; try discriminate; try (inv H; fail).
  - constructor.
  - reflexivity.
  - apply andb_true_iff in H as [H1 H2]. constructor; [apply perm_b_sound, H1 | apply IH, H2].
  - inv H. apply andb_true_iff; split; [now apply perm_b_complete | now apply IH].
Qed.

(** ---- the fast path is sound *)
Lemma Forall2_map_same : forall (A B : Type) (R : B -> B -> Prop) (f g : A -> B) l,
  (forall x, R (f x) (g x)) -> Forall2 R (map f l) (map g l).
Proof. induction l; intros; cbn; constructor; auto. Qed.

Lemma run_eqb_sound : forall a b, run_eqb a b = true -> cells_equiv (expand_run a) (expand_run b).
Proof.
  intros [la sa ba] [lb sb bb]; unfold run_eqb, expand_run, cell_at; cbn [rlen rshift rbase]; intros H.
  apply andb_true_iff in H as [H H3]; apply andb_true_iff in H as [H1 H2].
  apply Z.eqb_eq in H1; apply Bool.eqb_prop in H2; apply perm_b_sound in H3; subst.
  apply Forall2_map_same; intros k; destruct sb; [apply Permutation_map |]; exact H3.
Qed.

Lemma runs_eqb_sound : forall l1 l2, runs_eqb l1 l2 = true -> cells_equiv (expand l1) (expand l2).
Proof.
  induction l1 as [|a r1 IH]; intros [|b r2] H; cbn [runs_eqb] in H; try discriminate; unfold expand; cbn [flat_map].
  - constructor.
  - apply andb_true_iff in H as [H1 H2]. apply Forall2_app; [now apply run_eqb_sound | now apply IH].
Qed.

Theorem obs_ok_correct : forall obs spec, obs_ok obs spec = true <-> cells_equiv (expand obs) (expand spec).
Proof.
  intros obs spec; unfold obs_ok; destruct (runs_eqb obs spec) eqn:E.
  - split; [intros _; now apply runs_eqb_sound | reflexivity].
  - apply cells_eqb_correct.
Qed.

(** zero-length runs do not matter *)
Lemma expand_filter : forall rs, expand (filter (fun r => 0 <? rlen r) rs) = expand rs.
Proof.
  induction rs as [|r rs IH]; [reflexivity |]; cbn [filter]; unfold expand in *; cbn [flat_map].
  destruct (Z.ltb_spec 0 (rlen r)); cbn [flat_map]; rewrite IH; [reflexivity |].
  unfold expand_run, zseq. replace (Z.to_nat (rlen r)) with 0%nat by lia. reflexivity.
Qed.

Theorem barrier_ok_correct : forall enters exits,
  barrier_ok enters exits = true <-> (forall e x, In e enters -> In x exits -> e <= x).
Proof.
  intros; unfold barrier_ok; rewrite forallb_forall; split.
  - intros H e x He Hx. specialize (H x Hx). rewrite forallb_forall in H. specialize (H e He). lia.
  - intros H x Hx. rewrite forallb_forall; intros e He. specialize (H e x He Hx). lia.
Qed.

(** ---- the compact encoding is faithful on multisets with at most one contribution per rank *)
Lemma cnt_cons : forall q i m r, cnt ((q, i) :: m) r = (if q =? r then 1 else 0) + cnt m r.
Proof. reflexivity. Qed.
Lemma isum_cons : forall q i m r, isum ((q, i) :: m) r = (if q =? r then i else 0) + isum m r.
Proof. reflexivity. Qed.
Lemma cnt_nonneg : forall m r, 0 <= cnt m r.
Proof. induction m as [|[q i] m IH]; intros r; [cbn; lia |]. rewrite cnt_cons. specialize (IH r). destruct (q =? r); lia. Qed.
Lemma cnt_zero_isum : forall m r, cnt m r = 0 -> isum m r = 0.
Proof.
  induction m as [|[q i] m IH]; intros r H; [reflexivity |]. rewrite cnt_cons in H. rewrite isum_cons.
  pose proof (cnt_nonneg m r). destruct (q =? r); [lia |]. rewrite IH; lia.
Qed.
Lemma cnt_notin : forall m r, ~ In r (map fst m) -> cnt m r = 0.
Proof.
  induction m as [|[q i] m IH]; intros r H; [reflexivity |]. rewrite cnt_cons. cbn [map fst In] in H.
  destruct (Z.eqb_spec q r); [exfalso; apply H; now left |]. rewrite IH; [lia | tauto].
Qed.
Lemma cnt_all_zero_nil : forall m, (forall r, cnt m r = 0) -> m = [].
Proof.
  intros [|[q i] m] H; [reflexivity |]. specialize (H q). rewrite cnt_cons, Z.eqb_refl in H.
  pose proof (cnt_nonneg m q). lia.
Qed.

(** both counters are sums over the multiset, so they do not see the order *)
Lemma cnt_isum_perm : forall m m', Permutation m m' -> forall r, cnt m r = cnt m' r /\ isum m r = isum m' r.
Proof.
  induction 1 as [|[q i] m m' _ IH|[q i] [q' i'] m|m m' m'' _ IH1 _ IH2]; intros r.
  - split; reflexivity.
  - rewrite !cnt_cons, !isum_cons. destruct (IH r) as [-> ->]. split; reflexivity.
  - rewrite !cnt_cons, !isum_cons. split; apply Z.add_shuffle3.
  - destruct (IH1 r), (IH2 r). split; congruence.
Qed.

(** a rank that is counted can be pulled to the front *)
Lemma cnt_pos_split : forall m r, 0 < cnt m r -> exists i m', Permutation m ((r, i) :: m').
Proof.
  induction m as [|[q j] m IH]; intros r H; [cbn in H; lia |]. rewrite cnt_cons in H.
  destruct (Z.eqb_spec q r) as [-> | Hne]; [exists j, m; apply Permutation_refl |].
  destruct (IH r) as (i & m' & HP); [lia |]. exists i, ((q, j) :: m').
  eapply perm_trans; [apply perm_skip, HP | apply perm_swap].
Qed.

Theorem compact_faithful : forall spec m,
  NoDup (map fst spec) ->
  (forall r, cnt m r = cnt spec r /\ isum m r = isum spec r) ->
  Permutation m spec.
Proof.
  induction spec as [|[r0 i0] s IH]; intros m Hnd Heq.
  - rewrite (cnt_all_zero_nil m); [constructor |]. intros r; apply (Heq r).
  - cbn [map fst] in Hnd. inv Hnd.
    assert (Hs0 : cnt s r0 = 0) by now apply cnt_notin.
    destruct (Heq r0) as [Hc Hi]. rewrite cnt_cons, Z.eqb_refl, Hs0 in Hc.
    rewrite isum_cons, Z.eqb_refl, (cnt_zero_isum _ _ Hs0) in Hi.
    (* m has exactly one contribution (r0, i) of rank r0; what the counters say of the rest m' *)
    destruct (cnt_pos_split m r0) as (i & m' & HP); [lia |].
    assert (Hm : forall r, cnt m r = (if r0 =? r then 1 else 0) + cnt m' r /\
                           isum m r = (if r0 =? r then i else 0) + isum m' r) by exact (cnt_isum_perm _ _ HP).
    destruct (Hm r0) as [Hc' Hi']. rewrite Z.eqb_refl in Hc', Hi'.
    rewrite (cnt_zero_isum m' r0) in Hi' by lia. replace i with i0 in * by lia.
    eapply perm_trans; [exact HP |]. apply perm_skip, IH; [assumption |].
    intros r. destruct (Hm r) as [Hm1 Hm2], (Heq r) as [He1 He2]. rewrite cnt_cons in He1. rewrite isum_cons in He2.
    split; lia.
Qed.

(** ---- the specification, cell by cell, for the collectives with a one-line MPI definition *)
Lemma zseq_from_seq : forall n s, zseq_from s n = map (fun i => s + Z.of_nat i) (seq 0 n).
Proof.
  induction n as [|n IH]; intros s; cbn [zseq_from seq map]; [reflexivity |].
  rewrite IH, <- seq_shift, map_map. f_equal; [lia |]. apply map_ext. intros i. lia.
Qed.
(* this [zseq] is the list that [Base/Facts] speaks of *)
Lemma zseq_seq : forall n, zseq n = map Z.of_nat (seq 0 (Z.to_nat n)).
Proof. intros n. exact (zseq_from_seq (Z.to_nat n) 0). Qed.

(* the first run of a buffer *)
Lemma expand_head : forall r rs k, 0 <= k < rlen r -> nth (Z.to_nat k) (expand (r :: rs)) [] = cell_at r k.
Proof.
  intros r rs k H. unfold expand. cbn [flat_map]. unfold expand_run at 1. rewrite zseq_seq, map_map.
  rewrite app_nth1 by (rewrite map_length, seq_length; lia).
  rewrite nth_indep with (d' := cell_at r (Z.of_nat 0)) by (rewrite map_length, seq_length; lia).
  rewrite (map_nth (fun i => cell_at r (Z.of_nat i))), seq_nth by lia. cbn [Nat.add]. rewrite Z2Nat.id by lia. reflexivity.
Qed.

(* a buffer that MPI defines as one run of [count] cells, cell k holding [base] moved by k *)
Lemma spec_single : forall kind np root count rank base k,
  spec_runs_raw kind np root count rank = [mkrun count true base] -> 0 <= k < count ->
  nth (Z.to_nat k) (expand (spec_runs kind np root count rank)) [] = map (fun qi => (fst qi, snd qi + k)) base.
Proof. intros * E Hk. unfold spec_runs. rewrite expand_filter, E. exact (expand_head (mkrun count true base) [] k Hk). Qed.

(** bcast: element k of every rank's buffer is element k of the root *)
Theorem spec_bcast : forall np root count rank k, 0 <= k < count ->
  nth (Z.to_nat k) (expand (spec_runs 0 np root count rank)) [] = [(root, k)].
Proof. intros * H. exact (spec_single 0 np root count rank _ k eq_refl H). Qed.
(** allreduce: element k of every rank = combination of element k of every rank *)
Theorem spec_allreduce : forall np root count rank k, 0 <= k < count ->
  nth (Z.to_nat k) (expand (spec_runs 2 np root count rank)) [] = map (fun q => (q, k)) (zseq np).
Proof. intros * H. rewrite (spec_single 2 np root count rank _ k eq_refl H). apply map_map. Qed.
(** reduce: the same at the root, nothing significant elsewhere *)
Theorem spec_reduce : forall np root count rank k, 0 <= k < count ->
  nth (Z.to_nat k) (expand (spec_runs 1 np root count root)) [] = map (fun q => (q, k)) (zseq np) /\
  (rank <> root -> expand (spec_runs 1 np root count rank) = []).
Proof.
  intros * H. split.
  - rewrite (spec_single 1 np root count root (allr np 0) k) by (cbn [spec_runs_raw]; rewrite ?Z.eqb_refl; auto).
    apply map_map.
  - intros Hne. unfold spec_runs. cbn [spec_runs_raw]. rewrite (proj2 (Z.eqb_neq _ _) Hne). reflexivity.
Qed.
(** scan: element k of rank r = combination of element k of ranks 0..r *)
Theorem spec_scan : forall np root count rank k, 0 <= k < count ->
  nth (Z.to_nat k) (expand (spec_runs 14 np root count rank)) [] = map (fun q => (q, k)) (zseq (rank + 1)).
Proof. intros * H. rewrite (spec_single 14 np root count rank _ k eq_refl H). apply map_map. Qed.
(** scatter: element k of rank r = element r*count+k of the root *)
Theorem spec_scatter : forall np root count rank k, 0 <= k < count ->
  nth (Z.to_nat k) (expand (spec_runs 5 np root count rank)) [] = [(root, rank * count + k)].
Proof. intros * H. exact (spec_single 5 np root count rank _ k eq_refl H). Qed.

(** a reduction over all ranks, [allr np i], has one contribution per rank (what compact_faithful needs) *)
Lemma allr_fst : forall np i, map fst (allr np i) = zseq np.
Proof. intros; unfold allr; rewrite map_map; cbn [fst]. apply map_id. Qed.
Theorem spec_allr_cell_nodup : forall np i k,
  NoDup (map fst (cell_at (mkrun 1 true (allr np i)) k)).
Proof.
  intros; unfold cell_at; cbn [rshift rbase]. rewrite map_map; cbn [fst].
  change (map (fun x : label => fst x) (allr np i)) with (map fst (allr np i)). rewrite allr_fst, zseq_seq. apply NoDup_zseq.
Qed.
