(** C37 — the line the repaired printer writes for a well-formed call is read back by the replay parser as that call
    with its defaults filled in ([norm]).  A vector call is a line with blocks of n counts, which the parser's indices
    skip ([arg_skip], [ints_from_skip]); the other calls are lines of known length on which the parser just runs. *)
From SGV Require Import Base.PlainLia Smpi.TiCodec.
Local Open Scope Z_scope.

Lemma arg_cons : forall x r i, arg (x :: r) (S i) = arg r i.
Proof. reflexivity. Qed.

Lemma arg_skip : forall (l : list Z) (post : list tok) (i : nat), arg (map TI l ++ post) (i + length l) = arg post i.
Proof.
  intros l post i. unfold arg. rewrite nth_error_app2; rewrite map_length; [|apply Nat.le_add_l].
  now rewrite Nat.add_sub.
Qed.

Lemma ints_from_cons : forall x r base n, ints_from (x :: r) (S base) n = ints_from r base n.
Proof.
  intros x r base n. revert base. induction n as [|n IH]; intro base; cbn [ints_from]; [reflexivity|].
  rewrite IH. reflexivity.
Qed.

Lemma ints_from_skip : forall (l : list Z) post base n,
  ints_from (map TI l ++ post) (base + length l) n = ints_from post base n.
Proof.
  induction l as [|x l IH]; intros post base n; cbn [map app length].
  - now rewrite Nat.add_0_r.
  - rewrite Nat.add_succ_r, ints_from_cons. apply IH.
Qed.

Lemma ints_from_map : forall (l : list Z) (post : list tok),
  forallb in_int l = true -> ints_from (map TI l ++ post) 0 (length l) = Some l.
Proof.
  induction l as [|x l IH]; intros post Hin; [reflexivity|].
  cbn [forallb] in Hin. apply andb_prop in Hin as [Hx Hl].
  cbn [length map app ints_from]. unfold int_arg at 1. cbn [arg nth_error].
  rewrite Hx, ints_from_cons, (IH post Hl). reflexivity.
Qed.

Lemma length_repeatZ : forall n x, length (repeatZ n x) = n.
Proof. induction n; intro x; cbn; [reflexivity|]. now rewrite IHn. Qed.
Lemma forallb_repeatZ : forall n x, in_int x = true -> forallb in_int (repeatZ n x) = true.
Proof. induction n; intros x Hx; cbn; [reflexivity|]. rewrite Hx. now apply IHn. Qed.

Lemma check_params_ok : forall a m, (m <= length a)%nat -> check_params a m = Some tt.
Proof. intros a m H. unfold check_params. now rewrite (proj2 (Nat.ltb_ge _ _) H). Qed.

Lemma len_is_spec : forall n l, len_is n l = true -> Z.to_nat n = length l /\ forallb in_int l = true.
Proof. intros n l H. apply andb_prop in H as [H1 H2]. apply Z.eqb_eq in H1. split; [lia | exact H2]. Qed.

Lemma cnt_spec : forall z, cnt z = true -> 0 <= z <= int_max.
Proof. intros z H. apply andb_prop in H as [H1 H2]. split; now apply Z.leb_le. Qed.

Lemma cnt_in_int : forall z, cnt z = true -> in_int z = true.
Proof. intros z H. apply cnt_spec in H. apply andb_true_intro. split; apply Z.leb_le; unfold int_min, int_max in *; lia. Qed.
Lemma cnt_in_uint : forall z, cnt z = true -> in_uint z = true.
Proof. intros z H. apply cnt_spec in H. apply andb_true_intro. split; apply Z.leb_le; unfold int_max in *; lia. Qed.
Lemma cnt_in_size : forall z, cnt z = true -> in_size z = true.
Proof. intros z H. apply cnt_spec in H. apply andb_true_intro. split; apply Z.leb_le; unfold int_max in *; lia. Qed.
Lemma cnt_in_ssize : forall z, cnt z = true -> in_ssize z = true.
Proof. intros z H. apply cnt_spec in H. apply andb_true_intro. split; apply Z.leb_le; unfold int_max in *; lia. Qed.
Lemma ltb_m1_cnt : forall z, cnt z = true -> (-1 <? z) = true.
Proof. intros z H. apply cnt_spec in H. apply Z.ltb_lt. lia. Qed.
Lemma root_toks_cnt : forall r st, cnt r = true -> root_toks r (Some st) = [TI r].
Proof.
  intros r st H. apply cnt_spec in H. unfold root_toks. cbn [nonempty].
  destruct (Z.ltb_spec 0 r); [reflexivity|]. now replace r with 0 by lia.
Qed.
Lemma root_toks_none : forall st, root_toks (-1) st = [].
Proof. reflexivity. Qed.

(* rewrites with what the hypotheses of a well-formed call say about its arguments *)
Ltac use_cnt :=
  repeat match goal with
         | H : cnt ?z = true |- context [in_int ?z] => rewrite (cnt_in_int z H)
         | H : cnt ?z = true |- context [in_uint ?z] => rewrite (cnt_in_uint z H)
         | H : cnt ?z = true |- context [in_size ?z] => rewrite (cnt_in_size z H)
         | H : cnt ?z = true |- context [in_ssize ?z] => rewrite (cnt_in_ssize z H)
         | H : cnt ?z = true |- context [root_toks ?z (Some ?s)] => rewrite (root_toks_cnt z s H)
         | H : cnt ?z = true |- context [-1 <? ?z] => rewrite (ltb_m1_cnt z H)
         | H : in_int ?z = true |- context [in_int ?z] => rewrite H
         | H : (0 <=? ?z) = true |- context [0 <=? ?z] => rewrite H
         end.

(** splitting the boolean well-formedness *)
Ltac split_wf H :=
  repeat match type of H with
         | (_ && _) = true => let H1 := fresh "W" in let H2 := fresh "W" in
                              apply andb_prop in H; destruct H as [H1 H2]; try split_wf H1; try split_wf H2
         end.

(* the line printed for a vector call (absent fields are -1 or None), ready for the parser *)
Ltac print_line :=
  cbn [print opt_tok opt_list]; change (-1 <? -1) with false; rewrite ?root_toks_none; use_cnt; cbn [app]; unfold decode.

Lemma decode_gatherv : forall dflt n ss rcs root sdt rdt,
  cnt ss = true -> cnt root = true -> Z.to_nat n = length rcs -> forallb in_int rcs = true ->
  decode dflt n KGatherv (print true (VarColl root ss None (-1) (Some rcs) (Some sdt) (Some rdt)))
  = Some (CGatherv ss rcs root sdt rdt).
Proof.
  intros dflt n ss rcs root sdt rdt Hs Hr Hlen Hin.
  print_line. rewrite Hlen, check_params_ok by (cbn [length]; rewrite app_length, map_length; cbn [length]; lia).
  unfold int_arg, root_arg, dt_arg. cbn [Nat.add].
  rewrite !arg_cons, (arg_skip rcs _ 0), (arg_skip rcs _ 1), (arg_skip rcs _ 2). cbn [arg nth_error]. use_cnt.
  cbn [bind]. rewrite ints_from_cons, (ints_from_map rcs _ Hin). reflexivity.
Qed.

Lemma decode_allgatherv : forall dflt n ss rcs sdt rdt,
  2 <= n -> cnt ss = true -> Z.to_nat n = length rcs -> forallb in_int rcs = true ->
  decode dflt n KAllgatherv (print true (VarColl (-1) ss None (-1) (Some rcs) (Some sdt) (Some rdt)))
  = Some (CAllgatherv ss rcs sdt rdt).
Proof.
  intros dflt n ss rcs sdt rdt Hn Hs Hlen Hin.
  print_line.
  assert (Hl : length (TI ss :: map TI rcs ++ [TI sdt; TI rdt]) = (3 + length rcs)%nat).
  { cbn [length]. rewrite app_length, map_length. cbn [length]. lia. }
  rewrite Hlen, check_params_ok, Hl by lia.
  (* the two longer forms of the line are told apart by its length *)
  rewrite (proj2 (Nat.ltb_ge _ _)), (proj2 (Nat.ltb_ge _ _)) by lia.
  unfold int_arg, dt_arg. cbn [Nat.add]. rewrite !arg_cons, (arg_skip rcs _ 0), (arg_skip rcs _ 1). cbn [arg nth_error].
  use_cnt. cbn [bind]. rewrite ints_from_cons, (ints_from_map rcs _ Hin). reflexivity.
Qed.

Lemma decode_scatterv : forall dflt n scs rs root sdt rdt,
  cnt rs = true -> cnt root = true -> Z.to_nat n = length scs -> forallb in_int scs = true ->
  decode dflt n KScatterv (print true (VarColl root (-1) (Some scs) rs None (Some sdt) (Some rdt)))
  = Some (CScatterv scs rs root sdt rdt).
Proof.
  intros dflt n scs rs root sdt rdt Hs Hr Hlen Hin.
  print_line. rewrite Hlen, check_params_ok by (rewrite app_length, map_length; cbn [length]; lia).
  unfold int_arg, root_arg, dt_arg. cbn [Nat.add].
  rewrite (arg_skip scs _ 0), (arg_skip scs _ 1), (arg_skip scs _ 2), (arg_skip scs _ 3). cbn [arg nth_error].
  use_cnt. cbn [bind]. rewrite (ints_from_map scs _ Hin). reflexivity.
Qed.

Lemma decode_alltoallv : forall dflt n sb scs rb rcs sdt rdt,
  cnt sb = true -> cnt rb = true -> Z.to_nat n = length scs -> forallb in_int scs = true ->
  Z.to_nat n = length rcs -> forallb in_int rcs = true ->
  decode dflt n KAlltoallv (print true (VarColl (-1) sb (Some scs) rb (Some rcs) (Some sdt) (Some rdt)))
  = Some (CAlltoallv sb scs rb rcs sdt rdt).
Proof.
  intros dflt n sb scs rb rcs sdt rdt Hs Hr Hlen1 Hin1 Hlen2 Hin2.
  print_line.
  rewrite check_params_ok
    by (cbn [length]; rewrite app_length, map_length; cbn [length]; rewrite app_length, map_length; cbn [length]; lia).
  (* the line is sb, n counts, rb, n counts, two datatypes: each index is split accordingly *)
  assert (Hl : length scs = length rcs) by congruence.
  replace (2 + 2 * Z.to_nat n)%nat with (S (S (0 + length rcs) + length scs)) by lia.
  replace (3 + 2 * Z.to_nat n)%nat with (S (S (1 + length rcs) + length scs)) by lia.
  replace (2 + Z.to_nat n)%nat with (S (1 + length scs)) by lia. rewrite Hlen1.
  unfold int_arg, dt_arg. rewrite !arg_cons, !(arg_skip scs), (arg_skip scs _ 0), !arg_cons, !(arg_skip rcs). cbn [arg nth_error].
  use_cnt. cbn [bind].
  rewrite !ints_from_cons, (ints_from_map scs _ Hin1), ints_from_skip, ints_from_cons, Hl, (ints_from_map rcs _ Hin2).
  reflexivity.
Qed.

Lemma decode_reducescatter : forall dflt n rcs comp dt,
  Z.to_nat n = length rcs -> forallb in_int rcs = true ->
  decode dflt n KReducescatter (print true (VarColl (-1) (-1) None (-1) (Some rcs) (Some comp) (Some dt)))
  = Some (CReducescatter rcs comp dt).
Proof.
  intros dflt n rcs comp dt Hlen Hin.
  print_line. rewrite Hlen, check_params_ok by (rewrite app_length, map_length; cbn [length]; lia).
  unfold comp_arg, dt_arg. rewrite (arg_skip rcs _ 0), (arg_skip rcs _ 1). cbn [arg nth_error bind].
  rewrite (ints_from_map rcs _ Hin). reflexivity.
Qed.

(* a call without vector: the line is printed (its optional tokens are decided by the hypotheses), it has a known
   length, the parser runs on it, and every range test it makes is among the hypotheses *)
Ltac run_decode :=
  cbn [print opt_tok opt_list map nonempty andb orb app Z.ltb Z.leb Z.compare]; rewrite ?orb_true_r; use_cnt;
  cbn [app decode check_params length Nat.ltb Nat.leb bind int_arg root_arg dt_arg comp_arg dbl_arg arg nth_error];
  use_cnt; reflexivity.

Theorem roundtrip_fixed : forall dflt n c,
  wf n c = true ->
  decode dflt n (fst (encode true n c)) (snd (encode true n c)) = Some (norm n c).
Proof.
  intros dflt n c Hwf. apply andb_prop in Hwf as [Hn Hwf]. apply Z.leb_le in Hn.
  destruct c; cbn [encode trace fst snd norm]; split_wf Hwf;
    repeat match goal with H : len_is _ _ = true |- _ => apply len_is_spec in H as [? ?] end;
    try reflexivity.
  - (* send *) destruct nonblocking; run_decode.
  - (* recv *) destruct nonblocking; run_decode.
  - (* wait *) run_decode.
  - (* test *) run_decode.
  - (* bcast *) run_decode.
  - (* reduce *) run_decode.
  - (* allreduce *) run_decode.
  - (* alltoall *) run_decode.
  - (* gather *) run_decode.
  - (* allgather *) run_decode.
  - (* scatter *) run_decode.
  - now apply decode_gatherv.
  - now apply decode_allgatherv.
  - now apply decode_scatterv.
  - now apply decode_alltoallv.
  - now apply decode_reducescatter.
  - (* reduce_scatter_block: n equal counts *)
    apply decode_reducescatter; [now rewrite length_repeatZ | now apply forallb_repeatZ, cnt_in_int].
  - (* sendrecv *) run_decode.
Qed.

(** under the extra side condition the pinned printer emits the same tokens as the repaired one *)
Lemma pinned_same_line : forall n c, wf_pinned c = true -> encode false n c = encode true n c.
Proof.
  intros n c H. destruct c; try reflexivity; cbn [wf_pinned] in H; try discriminate H;
    cbn [encode trace print amount_pinned]; try (apply Z.eqb_eq in H); rewrite H; reflexivity.
Qed.

(** protocol sanity: the integer encoding of calls used by the driver is lossless *)
Lemma take_n_app : forall (l r : list Z), take_n (length l) (l ++ r) = (l, r).
Proof. induction l as [|x l IH]; intro r; cbn; [reflexivity|]. now rewrite IH. Qed.
