(** C33 — [coords] and [lin] are inverse bijections between [0, prodl dims) and the coordinate box (mixed radix, one
    digit at a time); Cart_rank is [lin] after MPI's rule for each coordinate ([norm1]); Cart_shift moves one
    coordinate and ranks again. *)
From SGV Require Import Base.PlainLia Base.Facts Smpi.Topo.
Local Open Scope Z_scope.

Lemma prodl_pos : forall dims, allpos dims -> 0 < prodl dims.
Proof.
  induction dims as [|d ds IH]; cbn [allpos prodl]; intros H; [reflexivity|].
  apply Z.mul_pos_pos; [apply H|apply IH, H].
Qed.

Lemma prodl_app : forall a b, prodl (a ++ b) = prodl a * prodl b.
Proof.
  induction a as [|x a IH]; intros b; cbn [app prodl]; [symmetry; apply Z.mul_1_l|].
  rewrite IH. apply Z.mul_assoc.
Qed.

Lemma radix_range : forall d P c j, 0 <= c < d -> 0 <= j < P -> 0 <= c * P + j < d * P.
Proof. intros d P c j Hc Hj. nia. Qed.

Lemma coords_cons : forall d P ds r, 0 < d -> 0 < P -> 0 <= r ->
  coords (d * P) (d :: ds) r = r / P :: coords P ds (r mod P).
Proof.
  intros d P ds r Hd HP Hr. cbn [coords].
  replace (Z.quot (d * P) d) with P by (rewrite Z.mul_comm, Z.quot_mul; lia).
  rewrite Z.quot_div_nonneg, Z.rem_mod_nonneg by lia. reflexivity.
Qed.
Lemma coords_radix : forall d P ds c j, 0 < d -> 0 < P -> 0 <= c -> 0 <= j < P ->
  coords (d * P) (d :: ds) (c * P + j) = c :: coords P ds j.
Proof.
  intros d P ds c j Hd HP Hc Hj. destruct (divmod_pair c j P Hj) as [Eq Em].
  rewrite coords_cons, Eq, Em by nia. reflexivity.
Qed.

Lemma inrange_length : forall dims cs, inrange dims cs -> length cs = length dims.
Proof. induction dims as [|d ds IH]; destruct cs as [|c cs]; cbn [inrange length]; intros H; try tauto. f_equal. apply IH. tauto. Qed.

Lemma lin_valid : forall dims cs, allpos dims -> inrange dims cs ->
  0 <= lin dims cs < prodl dims /\ coords (prodl dims) dims (lin dims cs) = cs.
Proof.
  induction dims as [|d ds IH]; destruct cs as [|c cs]; cbn [allpos inrange]; intros Hp Hr; try tauto.
  - cbn. split; [lia|reflexivity].
  - destruct Hp as [Hd Hs], Hr as [Hc Hr]. destruct (IH cs Hs Hr) as [Hl Hcs]. pose proof (prodl_pos ds Hs) as HP.
    cbn [prodl lin]. rewrite coords_radix, Hcs by lia. split; [apply radix_range; assumption|reflexivity].
Qed.

Lemma coords_inrange : forall dims r, allpos dims -> 0 <= r < prodl dims ->
  inrange dims (coords (prodl dims) dims r) /\ lin dims (coords (prodl dims) dims r) = r.
Proof.
  induction dims as [|d ds IH]; cbn [allpos prodl]; intros r Hp Hr.
  - cbn. split; [exact I|lia].
  - destruct Hp as [Hd Hs]. pose proof (prodl_pos ds Hs) as HP.
    destruct (divmod_range r d (prodl ds) HP Hr) as (Hq & Hm & E). destruct (IH _ Hs Hm) as [Hi Hl].
    rewrite coords_cons by lia. cbn [inrange lin]. rewrite Hl. auto.
Qed.

(* MPI's rule for one coordinate: what [fix_coord] computes, and the step of [norm] *)
Definition norm1 (d : Z) (p : bool) (c : Z) : option Z :=
  if p then Some (c mod d) else if (0 <=? c) && (c <? d) then Some c else None.

Lemma norm1_range : forall d p c c', 0 < d -> norm1 d p c = Some c' -> 0 <= c' < d.
Proof.
  unfold norm1. intros d p c c' Hd H. destruct p; [inv H; apply Z.mod_pos_bound; assumption|].
  destruct ((0 <=? c) && (c <? d)) eqn:E; inv H. lia.
Qed.
Lemma norm1_wrap : forall d p c, p = true \/ 0 <= c < d -> norm1 d p c = Some (c mod d).
Proof.
  unfold norm1. intros d p c [->|H]; [reflexivity|]. rewrite Z.mod_small by assumption.
  destruct p; [reflexivity|]. replace ((0 <=? c) && (c <? d)) with true by lia. reflexivity.
Qed.
Lemma norm1_id : forall d p c, 0 <= c < d -> norm1 d p c = Some c.
Proof. intros d p c H. rewrite norm1_wrap, Z.mod_small by auto. reflexivity. Qed.

Lemma norm_cons : forall d ds p ps c cs, norm (d :: ds) (p :: ps) (c :: cs) =
  match norm ds ps cs, norm1 d p c with Some l, Some c' => Some (c' :: l) | _, _ => None end.
Proof.
  intros. cbn [norm]. unfold norm1. destruct (norm ds ps cs); [|reflexivity].
  destruct p; [reflexivity|]. destruct ((0 <=? c) && (c <? d)); reflexivity.
Qed.

Lemma rem_mod : forall x d, 0 < d -> (Z.rem x d) mod d = x mod d.
Proof.
  intros x d Hd. pose proof (Z.quot_rem' x d) as H.
  replace (Z.rem x d) with (x + (- (Z.quot x d)) * d) by lia. apply Z.mod_add. lia.
Qed.
Lemma rem_neg : forall c d, c < 0 -> 0 < d ->
  (if Z.rem c d =? 0 then Z.rem c d else d + Z.rem c d) = c mod d.
Proof.
  intros c d Hc Hd. rewrite <- (rem_mod c d Hd).
  pose proof (Z.rem_nonpos c d ltac:(lia) ltac:(lia)). pose proof (Z.rem_bound_abs c d ltac:(lia)).
  destruct (Z.rem c d =? 0) eqn:E.
  - apply Z.eqb_eq in E. rewrite E. reflexivity.
  - apply Z.eqb_neq in E. apply Z.mod_unique_pos with (-1); lia.
Qed.
Lemma fix_coord_spec : forall d p c, 0 < d -> fix_coord d p c = norm1 d p c.
Proof.
  intros d p c Hd. unfold fix_coord, norm1.
  destruct (d <=? c) eqn:E1; destruct p.
  - f_equal. apply Z.rem_mod_nonneg; lia.
  - destruct ((0 <=? c) && (c <? d)) eqn:E2; [lia|reflexivity].
  - destruct (c <? 0) eqn:E3.
    + f_equal. apply rem_neg; lia.
    + f_equal. rewrite Z.mod_small; lia.
  - destruct (c <? 0) eqn:E3; destruct ((0 <=? c) && (c <? d)) eqn:E2; try reflexivity; lia.
Qed.

Lemma norm_inrange : forall dims pers cs l, allpos dims -> norm dims pers cs = Some l ->
  length pers = length dims -> length cs = length dims -> inrange dims l.
Proof.
  induction dims as [|d ds IH]; intros pers cs l Hp Hn Hl1 Hl2.
  - destruct pers, cs; try discriminate. inv Hn. exact I.
  - destruct pers as [|p ps], cs as [|c cs]; try discriminate. destruct Hp as [Hd Hs].
    rewrite norm_cons in Hn. destruct (norm ds ps cs) as [l'|] eqn:E; [|discriminate].
    destruct (norm1 d p c) as [c'|] eqn:E1; inv Hn.
    split; [exact (norm1_range _ _ _ _ Hd E1)|]. apply (IH ps cs); auto.
Qed.

Lemma norm_id : forall dims pers cs, inrange dims cs -> length pers = length dims -> norm dims pers cs = Some cs.
Proof.
  induction dims as [|d ds IH]; intros pers cs Hr Hl.
  - destruct cs; [destruct pers; reflexivity|destruct Hr].
  - destruct cs as [|c cs]; [destruct Hr|]. destruct pers as [|p ps]; [discriminate Hl|]. destruct Hr as [Hc Hr].
    rewrite norm_cons, IH, norm1_id by auto. reflexivity.
Qed.

Lemma rank_aux_spec : forall dims pers cs, allpos dims -> length pers = length dims -> length cs = length dims ->
  rank_aux dims pers cs = match norm dims pers cs with Some l => Some (lin dims l, prodl dims) | None => None end.
Proof.
  induction dims as [|d ds IH]; intros pers cs Hp Hl1 Hl2.
  - destruct pers, cs; try discriminate. reflexivity.
  - destruct pers as [|p ps], cs as [|c cs]; try discriminate. destruct Hp as [Hd Hs].
    cbn [rank_aux]. rewrite IH, fix_coord_spec, norm_cons by auto.
    destruct (norm ds ps cs) as [l'|]; [|reflexivity]. destruct (norm1 d p c) as [c'|]; [|reflexivity].
    cbn [lin prodl]. rewrite Z.add_comm, !(Z.mul_comm (prodl ds)). reflexivity.
Qed.

Lemma rank_norm : forall dims pers cs, allpos dims -> length pers = length dims -> length cs = length dims ->
  rank dims pers cs = option_map (lin dims) (norm dims pers cs).
Proof.
  intros. unfold rank. rewrite rank_aux_spec by assumption. destruct (norm dims pers cs); reflexivity.
Qed.

Lemma rank_coords : forall dims pers r, allpos dims -> length pers = length dims -> 0 <= r < prodl dims ->
  rank dims pers (coords (prodl dims) dims r) = Some r.
Proof.
  intros dims pers r Hp Hl Hr. destruct (coords_inrange dims r Hp Hr) as [Hi Hlin].
  rewrite rank_norm, norm_id by (try assumption; apply inrange_length; assumption). cbn. f_equal. assumption.
Qed.

Lemma coords_rank : forall dims pers cs, allpos dims -> length pers = length dims -> inrange dims cs ->
  exists r, rank dims pers cs = Some r /\ 0 <= r < prodl dims /\ coords (prodl dims) dims r = cs.
Proof.
  intros dims pers cs Hp Hl Hi. exists (lin dims cs).
  rewrite rank_norm, norm_id by (try assumption; apply inrange_length; assumption).
  split; [reflexivity|apply lin_valid; assumption].
Qed.

(* out-of-range coordinates: periodic dimensions wrap, others are refused; the answer is a valid rank whose
   coordinates are the wrapped ones *)
Lemma rank_wrap : forall dims pers cs, allpos dims -> length pers = length dims -> length cs = length dims ->
  match rank dims pers cs with
  | Some r => exists l, norm dims pers cs = Some l /\ 0 <= r < prodl dims /\ coords (prodl dims) dims r = l
  | None => norm dims pers cs = None
  end.
Proof.
  intros dims pers cs Hp Hl1 Hl2. rewrite rank_norm by assumption.
  destruct (norm dims pers cs) as [l|] eqn:E; cbn; [|reflexivity].
  exists l. split; [reflexivity|]. apply lin_valid; [assumption|]. exact (norm_inrange _ _ _ _ Hp E Hl1 Hl2).
Qed.

Lemma upd_length : forall k x l, length (upd k x l) = length l.
Proof. induction k; destruct l; cbn; intros; try reflexivity. f_equal. apply IHk. Qed.

Lemma nth_pos : forall dims k, allpos dims -> (k < length dims)%nat -> 0 < nth k dims 0.
Proof.
  induction dims as [|d ds IH]; intros k Hp Hk; cbn [length] in Hk; [lia|]. cbn [allpos] in Hp.
  destruct k; cbn [nth]; [tauto|]. apply IH; [tauto|lia].
Qed.

Lemma inrange_upd : forall dims cs k y, inrange dims cs -> (k < length dims)%nat -> 0 <= y < nth k dims 0 ->
  inrange dims (upd k y cs).
Proof.
  induction dims as [|d ds IH]; intros cs k y Hi Hk Hy; [inversion Hk|].
  destruct cs as [|c cs]; [destruct Hi|]. destruct Hi as [Hc Hi].
  destruct k; cbn [upd nth inrange length] in *; [tauto|]. split; [assumption|]. apply IH; [assumption|lia|assumption].
Qed.

Lemma norm_upd : forall dims pers cs k y, inrange dims cs -> length pers = length dims ->
  (k < length dims)%nat -> (nth k pers false = true \/ 0 <= y < nth k dims 0) ->
  norm dims pers (upd k y cs) = Some (upd k (y mod nth k dims 0) cs).
Proof.
  induction dims as [|d ds IH]; intros pers cs k y Hr Hl Hk Hy; [inversion Hk|].
  destruct cs as [|c cs]; [destruct Hr|]. destruct Hr as [Hc Hr]. destruct pers as [|p ps]; [discriminate Hl|].
  injection Hl as Hl. destruct k as [|k]; cbn [upd nth length] in *; rewrite norm_cons.
  - rewrite norm_id, norm1_wrap by assumption. reflexivity.
  - rewrite IH, norm1_id by (assumption || lia). reflexivity.
Qed.

Lemma rank_or_err_upd : forall dims pers cs k y, allpos dims -> inrange dims cs -> length pers = length dims ->
  (k < length dims)%nat -> (nth k pers false = true \/ 0 <= y < nth k dims 0) ->
  rank_or_err dims pers (upd k y cs) = lin dims (upd k (y mod nth k dims 0) cs).
Proof.
  intros dims pers cs k y Hp Hi Hl Hk Hy. unfold rank_or_err.
  rewrite rank_norm, norm_upd by (try assumption; rewrite upd_length; apply inrange_length; assumption). reflexivity.
Qed.

(* what MPI prescribes for one neighbour: coordinate k moved to x *)
Definition target (dims : list Z) (pers : list bool) (cs : list Z) (k : nat) (x : Z) : Z :=
  let d := nth k dims 0 in
  if nth k pers false then lin dims (upd k (x mod d) cs)
  else if (0 <=? x) && (x <? d) then lin dims (upd k x cs) else PROC_NULL.

Lemma shift_to_spec : forall dims pers pos cs k x, allpos dims -> length pers = length dims ->
  inrange dims cs -> (k < length dims)%nat ->
  shift_to {| c_nn := prodl dims; c_dims := dims; c_pers := pers; c_pos := pos |} cs k x = target dims pers cs k x.
Proof.
  intros dims pers pos cs k x Hp Hl Hi Hk. unfold shift_to, target. cbn [c_dims c_pers].
  pose proof (nth_pos dims k Hp Hk) as Hd. set (d := nth k dims 0) in *.
  destruct ((x <? 0) || (d <=? x)) eqn:E1.
  - destruct (nth k pers false) eqn:E2.
    + rewrite rank_or_err_upd by auto. fold d. rewrite rem_mod by assumption. reflexivity.
    + replace ((0 <=? x) && (x <? d)) with false by lia. reflexivity.
  - rewrite rank_or_err_upd by (try assumption; right; fold d; lia). fold d. rewrite Z.mod_small by lia.
    destruct (nth k pers false); [reflexivity|]. replace ((0 <=? x) && (x <? d)) with true by lia. reflexivity.
Qed.

Lemma cart_create_some : forall dims pers r, r < prodl dims -> cart_create dims pers r =
  Some {| c_nn := prodl dims; c_dims := dims; c_pers := pers; c_pos := coords (prodl dims) dims r |}.
Proof. intros dims pers r H. unfold cart_create. rewrite (proj2 (Z.leb_gt _ _) H). reflexivity. Qed.

Lemma shift_spec : forall dims pers r t k disp, allpos dims -> length pers = length dims ->
  0 <= r < prodl dims -> (k < length dims)%nat -> cart_create dims pers r = Some t ->
  let cs := coords (prodl dims) dims r in
  shift t r k disp = Some (target dims pers cs k (nth k cs 0 - disp), target dims pers cs k (nth k cs 0 + disp)).
Proof.
  intros dims pers r t k disp Hp Hl Hr Hk Hc cs. rewrite cart_create_some in Hc by apply Hr. inv Hc.
  unfold shift. cbn [c_dims c_nn c_pos].
  destruct (length dims =? 0)%nat eqn:E1; [apply Nat.eqb_eq in E1; lia|].
  destruct (length dims <? k)%nat eqn:E2; [apply Nat.ltb_lt in E2; lia|].
  fold cs. destruct (coords_inrange dims r Hp Hr) as [Hi _]. fold cs in Hi.
  rewrite !shift_to_spec by assumption. reflexivity.
Qed.

Lemma target_coords : forall dims pers cs k x, allpos dims -> inrange dims cs -> (k < length dims)%nat ->
  (nth k pers false = true \/ 0 <= x < nth k dims 0) ->
  let r' := target dims pers cs k x in
  0 <= r' < prodl dims /\ coords (prodl dims) dims r' = upd k (x mod nth k dims 0) cs.
Proof.
  intros dims pers cs k x Hp Hi Hk Hx r'. subst r'. unfold target.
  pose proof (nth_pos dims k Hp Hk) as Hd.
  destruct (nth k pers false).
  - apply lin_valid, inrange_upd; try assumption. apply Z.mod_pos_bound; assumption.
  - destruct Hx as [Hx|Hx]; [discriminate|].
    replace ((0 <=? x) && (x <? nth k dims 0)) with true by lia. rewrite Z.mod_small by assumption.
    apply lin_valid, inrange_upd; assumption.
Qed.
