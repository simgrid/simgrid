(** C29 — the free-monoid lifting: what a schedule computes on provenance labels determines what it computes in every
    commutative monoid on every input. *)
From SGV Require Import Base.Tactics Smpi.CollSched.
From Coq Require Import Permutation.
Local Open Scope Z_scope.

Section Lifting.
  Variable M : CMonoid.
  Variable v : label -> car M.

  Local Notation "a == b" := (eqv M a b) (at level 70).
  Local Notation "a (+) b" := (op M a b) (at level 50, left associativity).

  Lemma op_unit_r : forall x, x (+) unit M == x.
  Proof. intros; eapply eqv_trans; [apply op_comm | apply op_unit_l]. Qed.

  Lemma hom_app : forall l1 l2, hom M v (l1 ++ l2) == hom M v l1 (+) hom M v l2.
  Proof.
    induction l1 as [|x l1 IH]; intros l2; cbn [hom app].
    - apply eqv_sym, op_unit_l.
    - eapply eqv_trans; [apply op_proper; [apply eqv_refl | apply IH] |].
      apply eqv_sym, op_assoc.
  Qed.

  Lemma hom_perm : forall l1 l2, Permutation l1 l2 -> hom M v l1 == hom M v l2.
  Proof.
    induction 1 as [| x l l' HP IH | x y l | l l' l'' HP1 IH1 HP2 IH2]; cbn [hom].
    - apply eqv_refl.
    - apply op_proper; [apply eqv_refl | exact IH].
    - (* y (+) (x (+) r) == x (+) (y (+) r) *)
      eapply eqv_trans; [apply eqv_sym, op_assoc |].
      eapply eqv_trans; [| apply op_assoc].
      apply op_proper; [apply op_comm | apply eqv_refl].
    - eapply eqv_trans; eauto.
  Qed.

  (** the invariant: the M-state is the homomorphic image of the label-state *)
  Definition related (sm : state M) (sf : state Free) : Prop := forall c, sm c == hom M v (sf c).

  Lemma upd_related : forall sm sf d x l, related sm sf -> x == hom M v l -> related (upd sm d x) (upd (M:=Free) sf d l).
  Proof.
    intros sm sf d x l HR Hx c; unfold upd; destruct (c =? d); [exact Hx | apply HR].
  Qed.

  Lemma exec_related : forall s sm sf, related sm sf -> related (exec sm s) (exec (M:=Free) sf s).
  Proof.
    intros [d s | d s | d a b] sm sf HR; cbn [exec]; apply upd_related; try exact HR.
    - apply HR.
    - eapply eqv_trans; [apply op_proper; apply HR |]. apply eqv_sym. apply (hom_app (sf d) (sf s)).
    - eapply eqv_trans; [apply op_proper; apply HR |]. apply eqv_sym. apply (hom_app (sf a) (sf b)).
  Qed.

  Lemma run_related : forall S sm sf, related sm sf -> related (run_sched S sm) (run_sched (M:=Free) S sf).
  Proof.
    induction S as [|s S IH]; intros sm sf HR; cbn [run_sched fold_left]; [exact HR |].
    apply IH, exec_related, HR.
  Qed.

  (** running commutes with the homomorphism *)
  Theorem hom_run : forall S (lab : cell -> list label) c,
    run_sched S (fun c => hom M v (lab c)) c == hom M v (run_sched (M:=Free) S lab c).
  Proof.
    intros S lab; apply run_related; intros c; apply eqv_refl.
  Qed.

  (** if on provenance labels the schedule yields the specified multisets, then on every input it yields the fold of the
      operator over the specified multiset *)
  Theorem free_monoid_lifting : forall S (lab spec : cell -> list label) (out : cell -> Prop),
    (forall c, out c -> Permutation (run_sched (M:=Free) S lab c) (spec c)) ->
    forall c, out c -> run_sched S (fun c => hom M v (lab c)) c == hom M v (spec c).
  Proof.
    intros S lab spec out Hfree c Hc.
    eapply eqv_trans; [apply hom_run |]. apply hom_perm, Hfree, Hc.
  Qed.

  (** uniqueness: any map from multisets to M that sends [] to the unit, ++ to (+) and generator x to v x is hom *)
  Theorem hom_unique : forall h : list label -> car M,
    h [] == unit M -> (forall l1 l2, h (l1 ++ l2) == h l1 (+) h l2) -> (forall x, h [x] == v x) ->
    forall l, h l == hom M v l.
  Proof.
    intros h H0 Happ Hgen; induction l as [|x l IH]; cbn [hom]; [exact H0 |].
    change (x :: l) with ([x] ++ l).
    eapply eqv_trans; [apply Happ |]. apply op_proper; [apply Hgen | exact IH].
  Qed.
End Lifting.

Lemma hom_single : forall M v x, eqv M (hom M v [x]) (v x).
Proof. intros M v x. apply op_unit_r. Qed.

(** ---- a concrete schedule used for the non-vacuity examples: 3 ranks, 1 element; cells 0,1,2 = send buffers,
    10,11,12 = receive buffers; binomial reduce to rank 0 then broadcast *)
Definition demo_allreduce : list step :=
  [Copy 20 2;            (* rank 2 -> rank 0 : message *)
   Red3 30 0 20;         (* rank 0: tmp = own (+) received *)
   Copy 21 1; Red 30 21; (* rank 1 -> rank 0, reduce *)
   Copy 10 30; Copy 11 10; Copy 12 11].  (* result, forwarded along a chain *)
Definition demo_lab (c : cell) : list label := if (0 <=? c) && (c <? 3) then [(c, 0)] else [].
Definition demo_spec (c : cell) : list label := [(0, 0); (1, 0); (2, 0)].

Lemma demo_free_ok : forall c, (c = 10 \/ c = 11 \/ c = 12) ->
  Permutation (run_sched (M:=Free) demo_allreduce demo_lab c) (demo_spec c).
Proof.
  intros c [-> | [-> | ->]]; vm_compute;
    (apply perm_trans with [(0,0);(2,0);(1,0)]; [apply Permutation_refl | apply perm_skip, perm_swap]).
Qed.
