(** C32 — range_incl / range_excl: the ranks denoted by (first, last, stride) triplets *)
From SGV Require Import Base.PlainLia Base.Facts Smpi.Group Smpi.GroupProofs.
Local Open Scope Z_scope.

(* MPI: first, first+stride, ..., first + floor((last-first)/stride)*stride *)
Definition range_spec (t : rng3) : list Z :=
  let '(first, last, stride) := t in
  map (fun k => first + k * stride) (zseq ((last - first) / stride + 1)).
Definition valid_range (size : Z) (t : rng3) : Prop :=
  let '(first, last, stride) := t in
  0 <= first < size /\ 0 <= last < size /\ ((first <= last /\ 0 < stride) \/ (last <= first /\ stride < 0)).

(* the test of the range loops *)
Definition guard (size first last j : Z) : bool := (0 <=? j) && (j <? size) && in_range j first last.

(* a loop whose test holds exactly n times yields n ranks *)
Lemma range_loop_count : forall size first last stride (n : nat) fuel j, (n < fuel)%nat ->
  (forall i, 0 <= i < Z.of_nat n -> guard size first last (j + i * stride) = true) ->
  guard size first last (j + Z.of_nat n * stride) = false ->
  range_loop fuel size j first last stride = Some (map (fun i => j + i * stride) (zseq (Z.of_nat n))).
Proof.
  intros size first last stride. unfold zseq.
  induction n as [|n IH]; intros fuel j Hfu Hin Hout; (destruct fuel as [|fuel]; [lia|]); cbn [range_loop].
  - rewrite Z.add_0_r in Hout. unfold guard in Hout. rewrite Hout. reflexivity.
  - pose proof (Hin 0 ltac:(lia)) as H0. rewrite Z.add_0_r in H0. unfold guard in H0. rewrite H0.
    rewrite (IH fuel (j + stride)); [|lia| |].
    + rewrite !Nat2Z.id, zseq_S. cbn [option_map map]. rewrite (map_map Z.succ), Z.add_0_r. do 2 f_equal.
      apply map_ext. intros i. lia.
    + intros i Hi. replace (j + stride + i * stride) with (j + Z.succ i * stride) by lia. apply Hin. lia.
    + replace (j + stride + Z.of_nat n * stride) with (j + Z.of_nat (S n) * stride) by lia. exact Hout.
Qed.

(* on a valid triplet the test holds for first + k * stride exactly when 0 <= k <= (last - first) / stride *)
Lemma range_steps : forall size first last stride, valid_range size (first, last, stride) ->
  let m := (last - first) / stride in
  0 <= m < size /\ (forall k, 0 <= k <= m -> guard size first last (first + k * stride) = true) /\
  guard size first last (first + (m + 1) * stride) = false.
Proof.
  intros size first last stride (Hf & Hl & Hs) m. unfold guard, in_range.
  pose proof (Z.div_mod (last - first) stride ltac:(lia)) as Hdm. fold m in Hdm.
  destruct Hs as [[H1 H2]|[H1 H2]].
  - pose proof (Z.mod_pos_bound (last - first) stride H2) as Hmb.
    assert (Hm : 0 <= m < size) by nia.
    assert (Hk : forall k, 0 <= k <= m -> first <= first + k * stride <= last) by (intros; nia).
    split; [assumption|]. split; [intros k Hk'; specialize (Hk k Hk')|]; lia.
  - pose proof (Z.mod_neg_bound (last - first) stride H2) as Hmb.
    assert (Hm : 0 <= m < size) by nia.
    assert (Hk : forall k, 0 <= k <= m -> last <= first + k * stride <= first) by (intros; nia).
    split; [assumption|]. split; [intros k Hk'; specialize (Hk k Hk')|]; lia.
Qed.

Lemma range_one : forall size t, valid_range size t ->
  let '(first, last, stride) := t in
  range_loop (S (Z.to_nat size)) size first first last stride = Some (range_spec t).
Proof.
  intros size [[first last] stride] Hv. destruct (range_steps _ _ _ _ Hv) as (Hm & Hin & Hout). unfold range_spec.
  set (m := (last - first) / stride) in *. rewrite <- (Z2Nat.id (m + 1)) in * by lia.
  apply range_loop_count; [lia| |exact Hout]. intros i Hi. apply Hin. lia.
Qed.

Lemma range_ranks_spec : forall size ranges, Forall (valid_range size) ranges ->
  range_ranks size ranges = Some (flat_map range_spec ranges).
Proof.
  intros size. induction ranges as [|t ranges IH]; intros H; [reflexivity|]. inv H.
  pose proof (range_one size t H2) as H1. destruct t as [[first last] stride].
  cbn [range_ranks flat_map]. rewrite H1, IH by assumption. reflexivity.
Qed.

(* every denoted rank is a rank of the group *)
Lemma range_spec_in : forall size t r, valid_range size t -> In r (range_spec t) -> 0 <= r < size.
Proof.
  intros size [[first last] stride] r Hv Hin. destruct (range_steps _ _ _ _ Hv) as (_ & Hg & _).
  apply in_map_iff in Hin. destruct Hin as [k [<- Hk]]. apply In_zseq in Hk.
  specialize (Hg k ltac:(lia)). unfold guard in Hg. lia.
Qed.
