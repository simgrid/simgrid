(** C36 — on a trace where every access follows the hook for the current rank ([disc_from]), the one window with
    lazily mapped stores answers every read as the specification does, where each rank reads its own last write.
    [Inv] ties the two: the store of every rank holds its own last writes, and while the discipline holds the loaded
    page is the current rank's. *)
From SGV Require Import Base.PlainLia Smpi.Priv.
Local Open Scope Z_scope.

Definition Inv (init : mem) (st : state) (hist : list obs) (c : Z) (ok : bool) : Prop :=
  cur st = c /\ (forall r a, store st r a = own_last hist r a init) /\ (ok = true -> loaded st = Some c).

Lemma switch_seg_props : forall st r,
  cur (switch_seg st r) = cur st /\ store (switch_seg st r) = store st /\ loaded (switch_seg st r) = Some r.
Proof.
  intros st r. unfold switch_seg. destruct (loaded st) as [p|] eqn:E.
  - destruct (p =? r) eqn:Epr.
    + apply Z.eqb_eq in Epr. subst p. auto.
    + cbn. auto.
  - cbn. auto.
Qed.

Lemma run_from_spec : forall init t st hist c ok,
  Inv init st hist c ok -> disc_from ok t = true -> run_from st t = spec_from init hist c t.
Proof.
  intros init. induction t as [|e t IH]; intros st hist c ok HI HD; [reflexivity|].
  destruct HI as [Hc [Hs Hl]].
  destruct e as [r|r|p|a v|a]; cbn [run_from step spec_from disc_from] in *.
  - destruct (switch_seg_props (set_cur st r) r) as [P1 [P2 P3]].
    apply (IH _ hist r true); [|exact HD].
    split; [rewrite P1; reflexivity|]. split; [|intros _; exact P3].
    intros r0 a0. rewrite P2. cbn. apply Hs.
  - apply (IH _ hist r false); [|exact HD].
    split; [reflexivity|]. split; [exact Hs|discriminate].
  - destruct (switch_seg_props st p) as [P1 [P2 P3]].
    apply (IH _ hist c false); [|exact HD].
    split; [rewrite P1; exact Hc|]. split; [|discriminate].
    intros r0 a0. rewrite P2. apply Hs.
  - apply andb_prop in HD as [-> HD]. specialize (Hl eq_refl).
    apply (IH _ ((c, a, v) :: hist) c true); [|exact HD].
    unfold write_window. rewrite Hl. split; [exact Hc|]. split; [|intros _; reflexivity].
    intros r0 a0. cbn [store own_last]. unfold upd.
    destruct (r0 =? c) eqn:E1.
    + apply Z.eqb_eq in E1. subst r0. rewrite Z.eqb_refl. cbn [andb].
      rewrite (Z.eqb_sym a a0). destruct (a0 =? a); [reflexivity|apply Hs].
    + rewrite (Z.eqb_sym c r0), E1. cbn [andb]. apply Hs.
  - apply andb_prop in HD as [-> HD]. specialize (Hl eq_refl).
    unfold window. rewrite Hl, Hc, Hs. f_equal. apply (IH _ hist c true); [|exact HD].
    split; [exact Hc|]. split; [exact Hs|intros _; exact Hl].
Qed.

(** other ranks' writes are invisible: the value r reads does not depend on what any other rank wrote *)
Lemma own_last_other : forall hist r' a' v r a init, r' <> r -> own_last ((r', a', v) :: hist) r a init = own_last hist r a init.
Proof. intros. cbn [own_last]. now rewrite (proj2 (Z.eqb_neq r' r)). Qed.

Lemma own_last_same : forall hist r a v init, own_last ((r, a, v) :: hist) r a init = v.
Proof. intros. cbn [own_last]. rewrite !Z.eqb_refl. reflexivity. Qed.

Lemma own_last_never : forall hist r a init, (forall v, ~ In (r, a, v) hist) -> own_last hist r a init = init a.
Proof.
  induction hist as [|[[r' a'] v'] h IH]; intros r a init H; [reflexivity|].
  cbn [own_last]. destruct ((r' =? r) && (a' =? a)) eqn:E.
  - apply andb_prop in E as [E1 E2]. apply Z.eqb_eq in E1, E2. subst. destruct (H v'). now left.
  - apply IH. intros v Hin. apply (H v). right. exact Hin.
Qed.

Lemma obs_eqb_sound : forall x y, obs_eqb x y = true -> x = y.
Proof.
  induction x as [|[[r a] v] x IH]; intros [|[[r' a'] v'] y] H; cbn in H; try discriminate; [reflexivity|].
  apply andb_prop in H as [H H4]. apply andb_prop in H as [H H3]. apply andb_prop in H as [H1 H2].
  apply Z.eqb_eq in H1, H2, H3. subst. f_equal. apply IH, H4.
Qed.
