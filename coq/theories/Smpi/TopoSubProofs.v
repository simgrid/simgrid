(** C33 — Cart_sub (counting argument for Comm::split) and Dims_create *)
From SGV Require Import Base.PlainLia Base.Facts Smpi.Topo Smpi.TopoProofs.
Local Open Scope Z_scope.

Lemma cnt_add : forall f a b, 0 <= a -> 0 <= b -> cnt f (a + b) = cnt f a + cnt (fun j => f (a + j)) b.
Proof.
  intros f a b Ha Hb. unfold cnt, zseq.
  rewrite zseq_app, filter_app, app_length, (filter_map_comm _ _ f (Z.add a)), map_length by assumption.
  apply Nat2Z.inj_add.
Qed.

Lemma cnt_ext : forall f g n, (forall j, 0 <= j < n -> f j = g j) -> cnt f n = cnt g n.
Proof.
  intros f g n H. unfold cnt. f_equal. f_equal. apply filter_ext_in. intros a Ha. apply H, In_zseq, Ha.
Qed.

Lemma cnt_false : forall n, cnt (fun _ => false) n = 0.
Proof. intros n. unfold cnt. induction (zseq n); cbn; [reflexivity|assumption]. Qed.

Lemma cnt_zero : forall f, cnt f 0 = 0.
Proof. reflexivity. Qed.

(* c blocks of P elements each: every block counts as [g] does ... *)
Lemma cnt_blocks_kept : forall P f g, 0 < P -> forall c, 0 <= c ->
  (forall i j, 0 <= i < c -> 0 <= j < P -> f (i * P + j) = g j) -> cnt f (c * P) = c * cnt g P.
Proof.
  intros P f g HP c Hc. pattern c. apply natlike_ind; [| |assumption]; clear c Hc.
  - intros _. reflexivity.
  - intros c Hc IH H. pose proof (Z.mul_nonneg_nonneg c P Hc (Z.lt_le_incl _ _ HP)) as HcP.
    rewrite Z.mul_succ_l, cnt_add, IH by (try lia; intros; apply H; lia).
    rewrite (cnt_ext (fun j => f (c * P + j)) g) by (intros; apply H; lia). symmetry. apply Z.mul_succ_l.
Qed.

(* ... or only block c0 does *)
Lemma cnt_blocks_drop : forall P f g c0, 0 < P -> forall c, 0 <= c ->
  (forall i j, 0 <= i < c -> 0 <= j < P -> f (i * P + j) = (i =? c0) && g j) ->
  cnt f (c * P) = if (0 <=? c0) && (c0 <? c) then cnt g P else 0.
Proof.
  intros P f g c0 HP c Hc. pattern c. apply natlike_ind; [| |assumption]; clear c Hc.
  - intros _. replace ((0 <=? c0) && (c0 <? 0)) with false by lia. reflexivity.
  - intros c Hc IH H. pose proof (Z.mul_nonneg_nonneg c P Hc (Z.lt_le_incl _ _ HP)) as HcP.
    rewrite Z.mul_succ_l, cnt_add, IH by (try lia; intros; apply H; lia).
    rewrite (cnt_ext (fun j => f (c * P + j)) (fun j => (c =? c0) && g j)) by (intros; apply H; lia).
    destruct (c =? c0) eqn:E; cbn [andb].
    + replace ((0 <=? c0) && (c0 <? c)) with false by lia.
      replace ((0 <=? c0) && (c0 <? Z.succ c)) with true by lia. reflexivity.
    + rewrite cnt_false. replace ((0 <=? c0) && (c0 <? Z.succ c)) with ((0 <=? c0) && (c0 <? c)) by lia. apply Z.add_0_r.
Qed.

Definition PD (rem : list bool) (dims : list Z) : Z := prodl (select (map negb rem) dims).

Lemma PD_cons : forall b rem d ds, PD (b :: rem) (d :: ds) = if b then PD rem ds else d * PD rem ds.
Proof. intros [|] rem d ds; reflexivity. Qed.

(* the accumulator enters the colour linearly *)
Lemma color_lin : forall rem dims cs acc, length cs = length dims ->
  color_of acc rem dims cs = acc * PD rem dims + color_of 0 rem dims cs.
Proof.
  induction rem as [|b rem IH]; intros dims cs acc Hl; [cbn; lia|].
  destruct dims as [|d ds], cs as [|c cs]; try discriminate; [cbn; lia|]. injection Hl as Hl.
  cbn [color_of]. rewrite PD_cons. destruct b; [apply IH, Hl|].
  rewrite (IH ds cs (acc * d + c)), (IH ds cs (0 * d + c)) by assumption. change (0 * d + c) with c.
  rewrite Z.mul_add_distr_r, Z.mul_assoc, Z.add_assoc. reflexivity.
Qed.

Lemma PD_pos : forall rem dims, allpos dims -> 0 < PD rem dims.
Proof.
  induction rem as [|b rem IH]; intros dims Hp; [reflexivity|]. destruct dims as [|d ds]; [reflexivity|].
  destruct Hp as [Hd Hs]. rewrite PD_cons. destruct b; [|apply Z.mul_pos_pos; [assumption|]]; apply IH, Hs.
Qed.

Lemma color_range : forall rem dims cs, allpos dims -> inrange dims cs ->
  0 <= color_of 0 rem dims cs < PD rem dims.
Proof.
  induction rem as [|b rem IH]; intros dims cs Hp Hi; [change (0 <= 0 < 1); lia|].
  destruct dims as [|d ds], cs as [|c cs]; cbn [inrange] in Hi; try tauto; [change (0 <= 0 < 1); lia|].
  destruct Hp as [Hd Hs], Hi as [Hc Hi]. specialize (IH ds cs Hs Hi). cbn [color_of]. rewrite PD_cons. destruct b; [assumption|].
  rewrite color_lin by (apply inrange_length; assumption). change (0 * d + c) with c. apply radix_range; assumption.
Qed.

Lemma colr_step : forall d ds b rem i j, 0 < d -> allpos ds -> 0 <= i < d -> 0 <= j < prodl ds ->
  colr (d :: ds) (b :: rem) (i * prodl ds + j) =
  if b then colr ds rem j else i * PD rem ds + colr ds rem j.
Proof.
  intros d ds b rem i j Hd Hs Hi Hj. unfold colr. cbn [prodl].
  rewrite coords_radix by (try apply prodl_pos; tauto). cbn [color_of]. destruct b; [reflexivity|].
  destruct (coords_inrange ds j Hs Hj) as [Hin _].
  rewrite color_lin by (apply inrange_length; assumption). reflexivity.
Qed.

(* two numbers are equal when their digits are *)
Lemma eqb_radix : forall i c0 x y M, 0 <= x < M -> 0 <= y < M ->
  (i * M + x =? c0 * M + y) = (i =? c0) && (x =? y).
Proof.
  intros i c0 x y M Hx Hy. apply eq_true_iff_eq. rewrite andb_true_iff, !Z.eqb_eq.
  split; [intros E|intros [-> ->]; reflexivity].
  destruct (divmod_pair i x M Hx) as [Q R], (divmod_pair c0 y M Hy) as [Q' R']. rewrite E in Q, R. split; congruence.
Qed.

Lemma same_step : forall d ds b rem c0 j0 i j, 0 < d -> allpos ds ->
  0 <= c0 < d -> 0 <= j0 < prodl ds -> 0 <= i < d -> 0 <= j < prodl ds ->
  same (d :: ds) (b :: rem) (c0 * prodl ds + j0) (i * prodl ds + j) =
  if b then same ds rem j0 j else (i =? c0) && same ds rem j0 j.
Proof.
  intros d ds b rem c0 j0 i j Hd Hs Hc Hj0 Hi Hj. unfold same.
  rewrite !colr_step by assumption. destruct b; [reflexivity|].
  apply eqb_radix; unfold colr; apply color_range; try assumption; apply coords_inrange; assumption.
Qed.

(* the members of the colour class of c0 * prodl ds + j0 among the first c blocks *)
Lemma same_blocks : forall d ds b rem c0 j0 c, 0 < d -> allpos ds -> 0 <= c0 < d -> 0 <= j0 < prodl ds -> 0 <= c <= d ->
  cnt (same (d :: ds) (b :: rem) (c0 * prodl ds + j0)) (c * prodl ds) =
  if b then c * cnt (same ds rem j0) (prodl ds)
  else if (0 <=? c0) && (c0 <? c) then cnt (same ds rem j0) (prodl ds) else 0.
Proof.
  intros d ds b rem c0 j0 c Hd Hs Hc0 Hj0 Hc. pose proof (prodl_pos ds Hs) as HP.
  destruct b; [apply cnt_blocks_kept|apply cnt_blocks_drop]; try lia;
    intros i j Hi Hj; rewrite same_step by (assumption || lia); reflexivity.
Qed.

Lemma sub_count : forall dims, allpos dims -> forall rem r0, length rem = length dims -> 0 <= r0 < prodl dims ->
  cnt (same dims rem r0) r0 = lin (select rem dims) (select rem (coords (prodl dims) dims r0))
  /\ cnt (same dims rem r0) (prodl dims) = prodl (select rem dims).
Proof.
  induction dims as [|d ds IH]; intros Hp rem r0 Hl Hr.
  - destruct rem; [|discriminate]. cbn [prodl] in Hr. replace r0 with 0 by lia. split; reflexivity.
  - destruct rem as [|b rem]; [discriminate|]. injection Hl as Hl. destruct Hp as [Hd Hs].
    pose proof (prodl_pos ds Hs) as HP. cbn [prodl] in Hr |- *.
    destruct (divmod_range r0 d (prodl ds) HP Hr) as (Hc0 & Hj0 & Er).
    rewrite coords_cons by lia. destruct (IH Hs rem _ Hl Hj0) as [IH1 IH2].
    set (c0 := r0 / prodl ds) in *. set (j0 := r0 mod prodl ds) in *. rewrite Er. split.
    + (* below r0: c0 whole blocks, then the first j0 elements of block c0 *)
      pose proof (Z.mul_nonneg_nonneg c0 (prodl ds)) as Hb.
      rewrite cnt_add, same_blocks by (assumption || lia).
      rewrite (cnt_ext _ (same ds rem j0) j0).
      2:{ intros j Hj. rewrite same_step by (assumption || lia). rewrite Z.eqb_refl. destruct b; reflexivity. }
      destruct b; cbn [select lin]; [rewrite IH1, IH2; reflexivity|].
      replace ((0 <=? c0) && (c0 <? c0)) with false by lia. exact IH1.
    + rewrite same_blocks by (assumption || lia).
      destruct b; cbn [select prodl]; [rewrite IH2; reflexivity|].
      replace ((0 <=? c0) && (c0 <? d)) with true by lia. exact IH2.
Qed.

Lemma select_valid : forall rem dims cs, allpos dims -> inrange dims cs ->
  allpos (select rem dims) /\ inrange (select rem dims) (select rem cs).
Proof.
  induction rem as [|b rem IH]; intros dims cs Hp Hi; [split; exact I|].
  destruct dims as [|d ds], cs as [|c cs]; cbn [inrange] in Hi; try tauto.
  destruct Hp as [Hd Hs], Hi as [Hc Hi], (IH ds cs Hs Hi) as [IH1 IH2]. cbn [select].
  destruct b; [cbn [allpos inrange]|]; tauto.
Qed.

Lemma sub_spec : forall dims pers rem r, allpos dims -> length rem = length dims -> 0 <= r < prodl dims ->
  let nd := select rem dims in
  let cs := select rem (coords (prodl dims) dims r) in
  sub dims pers rem r = Some {| c_nn := prodl nd; c_dims := nd; c_pers := select rem pers; c_pos := cs |}
  /\ sub_size dims rem r = prodl nd
  /\ 0 <= sub_rank dims rem r < prodl nd
  /\ coords (prodl nd) nd (sub_rank dims rem r) = cs.
Proof.
  intros dims pers rem r Hp Hl Hr nd cs.
  destruct (sub_count dims Hp rem r Hl Hr) as [H1 H2]. fold nd cs in H1, H2.
  destruct (coords_inrange dims r Hp Hr) as [Hi _].
  destruct (select_valid rem dims _ Hp Hi) as [Hp' Hi']. destruct (lin_valid nd cs Hp' Hi') as [Hlr Hcs].
  unfold sub, sub_size, sub_rank. fold nd. rewrite H1, H2, cart_create_some, Hcs by apply Hlr. auto.
Qed.

(* the code as pinned: a 2x3 grid, keep dimension 0: rank 1 gets coordinate 1 in a communicator where its rank is 0 *)
Lemma sub_orig_refuted_coords :
  exists dims pers rem r, allpos dims /\ 0 <= r < prodl dims /\
    option_map c_pos (sub_orig dims pers rem r) <> Some (select rem (coords (prodl dims) dims r)).
Proof. exists [2; 3], [false; true], [true; false], 1. vm_compute. repeat split; try discriminate. Qed.

(* the two factor loops keep [num * product of the factors found] and stop before the fuel runs out *)
Lemma divs_spec : forall fuel num d acc, 2 <= d -> 0 < num <= Z.of_nat fuel ->
  exists n' a', divs fuel num d acc = Some (n', a') /\ 0 < n' <= num /\ n' * prodl a' = num * prodl acc.
Proof.
  induction fuel as [|f IH]; intros num d acc Hd Hn; [lia|]. cbn [divs].
  destruct (Z.rem num d =? 0) eqn:E; [|exists num, acc; repeat split; lia].
  apply Z.eqb_eq in E. pose proof (Z.quot_rem' num d) as Hq. rewrite E, Z.add_0_r in Hq.
  assert (Hlt : 0 < Z.quot num d < num) by nia.
  destruct (IH (Z.quot num d) d (acc ++ [d]) Hd ltac:(lia)) as (n' & a' & H1 & H2 & H3).
  exists n', a'. rewrite prodl_app in H3. cbn [prodl] in H3. repeat split; [assumption|lia|lia|].
  rewrite H3. rewrite Hq at 2. ring.
Qed.

Lemma odds_spec : forall fuel num d acc, 3 <= d -> 0 < num -> (0 < fuel)%nat -> num - d < Z.of_nat fuel ->
  exists n' a', odds fuel num d acc = Some (n', a') /\ n' * prodl a' = num * prodl acc.
Proof.
  induction fuel as [|f IH]; intros num d acc Hd Hn Hf0 Hf; [lia|].
  cbn [odds]. destruct ((1 <? num) && (d * d <? num)) eqn:E; [|exists num, acc; split; reflexivity].
  destruct (divs_spec (Z.to_nat num) num d acc ltac:(lia) ltac:(lia)) as (n1 & a1 & H1 & H2 & H3). rewrite H1.
  assert (Hd' : d < num) by nia. destruct (IH n1 (d + 2) a1) as (n' & a' & H4 & H5); [lia..|]. exists n', a'. split; [assumption|congruence].
Qed.

Lemma getfactors_spec : forall num, exists fs, getfactors num = Some fs /\ (2 <= num -> prodl fs = num).
Proof.
  intros num. unfold getfactors. destruct (num <? 2) eqn:E; [exists []; split; [reflexivity|lia]|].
  destruct (divs_spec (Z.to_nat num) num 2 [] ltac:(lia) ltac:(lia)) as (n1 & a1 & H1 & Hn1 & P1). rewrite H1.
  destruct (odds_spec (Z.to_nat n1) n1 3 a1 ltac:(lia) ltac:(lia) ltac:(lia) ltac:(lia)) as (n2 & a2 & H2 & P2).
  rewrite H2. eexists. split; [reflexivity|]. intros _. cbn [prodl] in P1.
  destruct (n2 =? 1) eqn:E3; [apply Z.eqb_eq in E3|rewrite prodl_app; cbn [prodl]]; lia.
Qed.

Lemma minl_in : forall l, l <> [] -> In (minl l) l.
Proof.
  induction l as [|a l IH]; intros H; [congruence|]. destruct l as [|b l]; [left; reflexivity|].
  assert (Hi : In (minl (b :: l)) (b :: l)) by (apply IH; discriminate).
  change (minl (a :: b :: l)) with (Z.min a (minl (b :: l))).
  destruct (Z.min_spec a (minl (b :: l))) as [[_ E]|[_ E]]; rewrite E; [left; reflexivity|right; assumption].
Qed.
Lemma mul_first_prod : forall m f l, In m l -> prodl (mul_first m f l) = f * prodl l.
Proof.
  induction l as [|a l IH]; intros H; [destruct H|]. cbn [mul_first].
  destruct (a =? m) eqn:E; cbn [prodl]; [ring|]. rewrite IH; [ring|]. destruct H as [H|H]; [lia|assumption].
Qed.
Lemma mul_first_length : forall m f l, length (mul_first m f l) = length l.
Proof. induction l as [|a l IH]; cbn [mul_first]; [reflexivity|]. destruct (a =? m); cbn [length]; congruence. Qed.

Lemma assign_fold : forall fs bins, bins <> [] ->
  let r := fold_left (fun bins f => mul_first (minl bins) f bins) fs bins in
  prodl r = prodl fs * prodl bins /\ length r = length bins.
Proof.
  induction fs as [|f fs IH]; intros bins Hb; cbn [fold_left prodl]; [split; [lia|reflexivity]|].
  assert (Hn : mul_first (minl bins) f bins <> []).
  { intros E. apply (f_equal (@length Z)) in E. rewrite mul_first_length in E. destruct bins; [congruence|discriminate]. }
  destruct (IH _ Hn) as [H1 H2]. cbn zeta in H1, H2. rewrite H1, H2.
  rewrite mul_first_prod by (apply minl_in; assumption). rewrite mul_first_length. split; [ring|reflexivity].
Qed.

Lemma insert_desc_prod : forall x l, prodl (insert_desc x l) = x * prodl l /\ length (insert_desc x l) = S (length l).
Proof.
  induction l as [|a l [IH1 IH2]]; cbn [insert_desc]; [split; reflexivity|].
  destruct (a <=? x); cbn [prodl length]; [split; reflexivity|]. rewrite IH1, IH2. split; [ring|reflexivity].
Qed.
Lemma sort_desc_prod : forall l, prodl (sort_desc l) = prodl l /\ length (sort_desc l) = length l.
Proof.
  induction l as [|a l [IH1 IH2]]; [split; reflexivity|]. unfold sort_desc in *. cbn [fold_right].
  destruct (insert_desc_prod a (fold_right insert_desc [] l)) as [H1 H2]. rewrite H1, H2, IH1, IH2. split; reflexivity.
Qed.
Lemma prodl_rev : forall l, prodl (rev l) = prodl l.
Proof. induction l as [|a l IH]; [reflexivity|]. cbn [rev]. rewrite prodl_app, IH. cbn [prodl]. ring. Qed.
Lemma prodl_repeat1 : forall n, prodl (repeat 1 n) = 1.
Proof. induction n; cbn [repeat prodl]; lia. Qed.

Lemma assignnodes_prod : forall n fs, (0 < n)%nat ->
  prodl (assignnodes n fs) = prodl fs /\ length (assignnodes n fs) = n.
Proof.
  intros n fs Hn. unfold assignnodes.
  destruct (sort_desc_prod (fold_left (fun bins f => mul_first (minl bins) f bins) (rev fs) (repeat 1 n))) as [H1 H2].
  assert (Hne : repeat 1 n <> []) by (destruct n; [lia|discriminate]).
  destruct (assign_fold (rev fs) (repeat 1 n) Hne) as [H3 H4]. cbn zeta in H3, H4.
  rewrite H1, H2, H3, H4, prodl_rev, prodl_repeat1, repeat_length. split; [ring|reflexivity].
Qed.

Fixpoint given (dims : list Z) : list Z :=
  match dims with [] => [] | d :: r => if d =? 0 then given r else d :: given r end.
Fixpoint zeros (dims : list Z) : nat :=
  match dims with [] => O | d :: r => if d =? 0 then S (zeros r) else zeros r end.
(* res keeps every given entry *)
Fixpoint respects (dims res : list Z) : Prop :=
  match dims, res with
  | d :: ds, r :: rs => (d <> 0 -> r = d) /\ respects ds rs
  | [], [] => True
  | _, _ => False
  end.

Lemma dc_scan_fixed : forall dims nn fp fd fp' fd',
  dc_scan true nn dims fp fd = Some (fp', fd') ->
  fp = fp' * prodl (given dims) /\ fd' = (fd + zeros dims)%nat /\ 0 < prodl (given dims).
Proof.
  induction dims as [|d ds IH]; intros nn fp fd fp' fd' H; cbn [dc_scan given zeros prodl] in *.
  - inv H. repeat split; lia.
  - destruct (d =? 0) eqn:E0.
    + apply IH in H. destruct H as [H1 [H2 H3]]. repeat split; [assumption|lia|assumption].
    + destruct ((d <? 0) || negb (Z.rem fp d =? 0)) eqn:E1; [discriminate|].
      apply IH in H. destruct H as [H1 [H2 H3]]. cbn [prodl]. repeat split; [|assumption|nia].
      pose proof (Z.quot_rem' fp d). assert (Z.rem fp d = 0) by lia. nia.
Qed.

(* every result of dims_create is [fill dims procs] for some [procs], one per zero entry *)
Lemma fill_spec : forall dims procs, length procs = zeros dims ->
  prodl (fill dims procs) = prodl (given dims) * prodl procs /\ respects dims (fill dims procs).
Proof.
  induction dims as [|d ds IH]; intros procs Hl; cbn [fill given zeros] in *.
  - destruct procs; [|discriminate]. cbn. split; [lia|exact I].
  - destruct (d =? 0) eqn:E.
    + destruct procs as [|p ps]; [discriminate|]. cbn [length] in Hl.
      destruct (IH ps ltac:(lia)) as [H1 H2]. cbn [prodl respects]. rewrite H1. split; [ring|]. split; [lia|assumption].
    + destruct (IH procs Hl) as [H1 H2]. cbn [prodl respects]. rewrite H1. split; [ring|]. split; [reflexivity|assumption].
Qed.
Lemma fill_nil : forall dims, zeros dims = O -> fill dims [] = dims.
Proof. induction dims as [|d ds IH]; cbn [zeros fill]; [reflexivity|]. destruct (d =? 0); [discriminate|]. intros. f_equal. auto. Qed.
Lemma fill_ones : forall dims, fill dims (repeat 1 (zeros dims)) = map (fun d => if d =? 0 then 1 else d) dims.
Proof. induction dims as [|d ds IH]; cbn [zeros fill map]; [reflexivity|]. destruct (d =? 0); cbn [repeat]; rewrite IH; reflexivity. Qed.

Lemma dims_create_ok : forall nnodes dims res, 1 <= nnodes ->
  dims_create nnodes dims = DC_ok res -> prodl res = nnodes /\ respects dims res.
Proof.
  intros nnodes dims res Hnn H. unfold dims_create, dims_create_gen in H.
  destruct (dc_scan true nnodes dims nnodes 0) as [[fp fd]|] eqn:E; [|discriminate].
  apply dc_scan_fixed in E. destruct E as [E1 [E2 Hg]]. cbn [Nat.add] in E2. subst fd.
  assert (Hfill : forall procs, length procs = zeros dims -> prodl procs = fp -> res = fill dims procs ->
            prodl res = nnodes /\ respects dims res).
  { intros procs Hl Hp ->. destruct (fill_spec dims procs Hl) as [H1 H2]. split; [lia|assumption]. }
  destruct (zeros dims) eqn:Ez.
  - destruct (fp =? 1) eqn:E3; [|discriminate]. apply Z.eqb_eq in E3. injection H as <-.
    apply (Hfill []); [reflexivity|symmetry; assumption|symmetry; apply fill_nil, Ez].
  - destruct (fp =? 1) eqn:E3.
    + apply Z.eqb_eq in E3. injection H as <-.
      apply (Hfill (repeat 1 (S n))); [apply repeat_length|rewrite prodl_repeat1; symmetry; assumption|].
      rewrite <- Ez. symmetry. apply fill_ones.
    + destruct (getfactors_spec fp) as (fs & E4 & Hfs). rewrite E4 in H. injection H as <-.
      destruct (assignnodes_prod (S n) fs ltac:(lia)) as [H1 H2]. apply (Hfill _ H2); [|reflexivity].
      rewrite H1. apply Hfs. apply Z.eqb_neq in E3. nia.
Qed.

Lemma dims_create_no_fuel : forall fixed nnodes dims, dims_create_gen fixed nnodes dims <> DC_fuel.
Proof.
  intros fixed nnodes dims. unfold dims_create_gen.
  destruct (dc_scan fixed nnodes dims nnodes 0) as [[fp fd]|]; [|discriminate].
  destruct fd; [destruct (fp =? 1); discriminate|].
  destruct (fp =? 1); [discriminate|].
  destruct (getfactors_spec fp) as (fs & E & _). rewrite E. discriminate.
Qed.
