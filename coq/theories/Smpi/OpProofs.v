(** C31 — proofs: fixed-width wrap, the element macros against MPI's definitions, the finite table facts *)
From Coq Require Import String.
From SGV Require Import Base.PlainLia Gen.OpTable Smpi.Op.
Local Open Scope string_scope.
Local Open Scope Z_scope.

Definition in_width (bits : Z) (signed : bool) (z : Z) : Prop :=
  if signed then - 2 ^ (bits - 1) <= z < 2 ^ (bits - 1) else 0 <= z < 2 ^ bits.

Lemma pow_half : forall bits, 1 <= bits -> 2 ^ bits = 2 * 2 ^ (bits - 1).
Proof. intros bits H. replace bits with (Z.succ (bits - 1)) at 1 by lia. rewrite Z.pow_succ_r by lia. reflexivity. Qed.

Lemma wrap_spec : forall bits signed z, 1 <= bits ->
  in_width bits signed (wrap bits signed z) /\ (wrap bits signed z) mod 2 ^ bits = z mod 2 ^ bits.
Proof.
  intros bits signed z Hb. unfold wrap, in_width. pose proof (pow_half bits Hb) as Hh.
  assert (Hp : 0 < 2 ^ (bits - 1)) by (apply Z.pow_pos_nonneg; lia).
  pose proof (Z.mod_pos_bound z (2 ^ bits) ltac:(lia)) as Hm.
  destruct signed; cbn [andb].
  - destruct (2 ^ (bits - 1) <=? z mod 2 ^ bits) eqn:E.
    + split; [lia|]. replace (z mod 2 ^ bits - 2 ^ bits) with (z mod 2 ^ bits + (-1) * 2 ^ bits) by lia.
      rewrite Z.mod_add by lia. apply Z.mod_mod. lia.
    + split; [lia|]. apply Z.mod_mod. lia.
  - split; [lia|]. apply Z.mod_mod. lia.
Qed.

Lemma wrap_id : forall bits signed z, 1 <= bits -> in_width bits signed z -> wrap bits signed z = z.
Proof.
  intros bits signed z Hb Hz. unfold wrap, in_width in *. pose proof (pow_half bits Hb) as Hh.
  destruct signed; cbn [andb].
  - destruct (Z_lt_le_dec z 0) as [Hn|Hn].
    + assert (E : z mod 2 ^ bits = z + 2 ^ bits).
      { symmetry. apply (Z.mod_unique z (2 ^ bits) (-1)); lia. }
      rewrite E. replace (2 ^ (bits - 1) <=? z + 2 ^ bits) with true by lia. lia.
    + rewrite Z.mod_small by lia. replace (2 ^ (bits - 1) <=? z) with false by lia. reflexivity.
  - apply Z.mod_small. lia.
Qed.

(* SUM / PROD on a w-bit integer type give the exact result reduced modulo 2^w into the type's range
   (for signed types this is what the machine does; C leaves signed overflow undefined) *)
Lemma wrap_exact : forall bits signed z, 1 <= bits -> let r := wrap bits signed z in
  in_width bits signed r /\ r mod 2 ^ bits = z mod 2 ^ bits /\ (in_width bits signed z -> r = z).
Proof.
  intros bits signed z Hb. destruct (wrap_spec bits signed z Hb) as [H1 H2].
  repeat split; [exact H1 | exact H2 | apply wrap_id, Hb].
Qed.

(** * the element macros compute MPI's element-wise results *)
Lemma max_spec : forall f k a ia b ib, elem_op f "MAX_OP" k (a, ia) (b, ib) = (Z.max a b, 0).
Proof. intros. cbn. destruct (a <? b) eqn:E; f_equal; lia. Qed.
Lemma min_spec : forall f k a ia b ib, elem_op f "MIN_OP" k (a, ia) (b, ib) = (Z.min a b, 0).
Proof. intros. cbn. destruct (a <? b) eqn:E; f_equal; lia. Qed.

(* logical operators: non-zero is true, the result is 1 or 0 *)
Lemma logical_spec : forall f bits s a ia b ib, 2 <= bits ->
  elem_op f "LAND_OP" (KInt bits s) (a, ia) (b, ib) = (bz (nz a && nz b), 0) /\
  elem_op f "LOR_OP" (KInt bits s) (a, ia) (b, ib) = (bz (nz a || nz b), 0) /\
  elem_op f "LXOR_OP" (KInt bits s) (a, ia) (b, ib) = (bz (xorb (nz a) (nz b)), 0).
Proof.
  intros f bits s a ia b ib Hb.
  assert (H : forall x : bool, wrap bits s (bz x) = bz x).
  { intros x. apply wrap_id; [lia|]. unfold in_width.
    assert (2 <= 2 ^ (bits - 1)) by (replace 2 with (2 ^ 1) at 1 by reflexivity; apply Z.pow_le_mono_r; lia).
    pose proof (pow_half bits ltac:(lia)). destruct s, x; cbn [bz]; lia. }
  cbn. rewrite !H. repeat split.
Qed.

(* bitwise operators are the two's-complement bitwise operations (Z.land/lor/lxor are exactly that) *)
Lemma bitwise_spec : forall f k a ia b ib,
  elem_op f "BAND_OP" k (a, ia) (b, ib) = (Z.land a b, 0) /\
  elem_op f "BOR_OP" k (a, ia) (b, ib) = (Z.lor a b, 0) /\
  elem_op f "BXOR_OP" k (a, ia) (b, ib) = (Z.lxor a b, 0).
Proof. intros. cbn. rewrite Z.land_comm, Z.lor_comm, Z.lxor_comm. repeat split. Qed.

(* MINLOC / MAXLOC: the extreme value, and on equal values the lowest index *)
Lemma minloc_spec : forall f k a ia b ib,
  let r := elem_op f "MINLOC_OP" k (a, ia) (b, ib) in
  fst r = Z.min a b /\ (a < b -> snd r = ia) /\ (b < a -> snd r = ib) /\ (a = b -> snd r = Z.min ia ib).
Proof.
  intros. subst r. cbn. destruct (a <? b) eqn:E1; cbn [fst snd].
  - repeat split; lia.
  - destruct (a =? b) eqn:E2; [destruct (ia <? ib) eqn:E3|]; cbn [fst snd]; repeat split; lia.
Qed.
Lemma maxloc_spec : forall f k a ia b ib,
  let r := elem_op f "MAXLOC_OP" k (a, ia) (b, ib) in
  fst r = Z.max a b /\ (a < b -> snd r = ib) /\ (b < a -> snd r = ia) /\ (a = b -> snd r = Z.min ia ib).
Proof.
  intros. subst r. cbn. destruct (a <? b) eqn:E1; cbn [fst snd].
  - repeat split; lia.
  - destruct (a =? b) eqn:E2; [destruct (ia <? ib) eqn:E3|]; cbn [fst snd]; repeat split; lia.
Qed.

(* complex numbers: C/C++ complex types and (repaired) the Fortran complex pairs multiply as complex numbers *)
Lemma complex_spec : forall a b,
  elem_op true "SUM_OP" KCplx a b = (fst a + fst b, snd a + snd b) /\
  elem_op true "PROD_OP" KCplx a b = cprod a b /\
  elem_op true "SUM_OP_COMPLEX" (KPair KFloat KFloat) a b = (fst a + fst b, snd a + snd b) /\
  elem_op true "PROD_OP_COMPLEX" (KPair KFloat KFloat) a b = cprod a b.
Proof. intros [ar ai] [br bi]. cbn. repeat split; f_equal; lia. Qed.

Lemma mems_in : forall x l, mems x l = true -> In x l.
Proof. intros x l H. apply existsb_exists in H as [y [Hy E]]. apply String.eqb_eq in E. now subst. Qed.
Lemma in_pairs : forall op dt, In (op, dt) pairs -> In op all_ops /\ In dt all_dts.
Proof.
  intros op dt H. apply in_flat_map in H as [o [Ho H]]. apply in_map_iff in H as [d [E Hd]].
  injection E as <- <-. split; assumption.
Qed.

(* Every string comparison of the two checks over [pairs] reads one name, the operator's (14) or the datatype's (58),
   not the pair (812).  [view_op]/[view_dt] hold what is read off a name; [supported_v]/[dispatched_v] are the bodies of
   the checks over views, convertible with them on [view_op o], [view_dt d] (the [exact] steps of [supported_iff] and
   [dispatched_pair] check that).  In [forallb_product] each view is evaluated once: lazy evaluation shares the [let]
   and the mapped list. *)
Lemma forallb_product : forall A B A' B' (va : A -> A') (vb : B -> B') (G : A' -> B' -> bool) xs ys,
  (let bs := map vb ys in forallb (fun a => forallb (G a) bs) (map va xs)) = true ->
  forall x y, In x xs -> In y ys -> G (va x) (vb y) = true.
Proof.
  cbv zeta. intros A B A' B' va vb G xs ys H x y Hx Hy. rewrite forallb_forall in H.
  specialize (H _ (in_map va _ _ Hx)). rewrite forallb_forall in H. exact (H _ (in_map vb _ _ Hy)).
Qed.

Record op_view := { o_name : string; o_decl : option (string * list string); o_rma : bool; o_maxmin : bool;
  o_sumprod : bool; o_logical : bool; o_bitwise : bool; o_loc : bool; o_char : bool }.
Record dt_view := { d_name : string; d_decl : option (string * string); d_class : mclass; d_char : bool }.
Definition view_op (o : string) : op_view :=
  {| o_name := o; o_decl := assoc o op_decl; o_rma := rma_only o;
     o_maxmin := mems o ["MPI_MAX"; "MPI_MIN"]; o_sumprod := mems o ["MPI_SUM"; "MPI_PROD"];
     o_logical := mems o ["MPI_LAND"; "MPI_LOR"; "MPI_LXOR"]; o_bitwise := mems o ["MPI_BAND"; "MPI_BOR"; "MPI_BXOR"];
     o_loc := mems o ["MPI_MAXLOC"; "MPI_MINLOC"];
     o_char := mems o ["MPI_MAX"; "MPI_MIN"; "MPI_SUM"; "MPI_PROD"; "MPI_LAND"; "MPI_LOR"; "MPI_LXOR"; "MPI_BAND"; "MPI_BOR"; "MPI_BXOR"] |}.
Definition view_dt (d : string) : dt_view :=
  {| d_name := d; d_decl := assoc d dt_decl; d_class := mpi_class d; d_char := String.eqb d "MPI_CHAR" |}.

Definition accepted_v (o : op_view) (d : dt_view) : bool :=
  match o_decl o, d_decl d with
  | Some (_, fams), Some (_, fam) => negb (o_rma o) && match fams with [] => true | _ => mems fam fams end
  | _, _ => false
  end.
(* [Bool.eqb accepted (mpi_allows || extension)] *)
Definition supported_v (o : op_view) (d : dt_view) : bool :=
  let c := d_class d in
  Bool.eqb (accepted_v o d)
    ((if o_maxmin o then match c with CInt | FInt | Fp | Multi => true | _ => false end
      else if o_sumprod o then match c with CInt | FInt | Fp | Cplx | Multi => true | _ => false end
      else if o_logical o then match c with CInt | Logical => true | _ => false end
      else if o_bitwise o then match c with CInt | FInt | Byte | Multi => true | _ => false end
      else if o_loc o then match c with LocPair => true | _ => false end
      else false)
     || ((d_char d && o_char o) || (o_logical o && match c with Fp | Multi => true | _ => false end))).
(* [dispatch] keeps its nesting: with the two look-ups merged into one field the terms would not be convertible *)
Definition dispatched_v (o : op_view) (d : dt_view) : bool :=
  if accepted_v o d then
    match match o_decl o with
          | Some (f, _) => match assoc f func_loops with Some l => assoc (d_name d) l | None => None end
          | None => None end with
    | Some (c, mac) => negb (aborts (o_name o) (d_name d)) && String.eqb mac (expected_macro (o_name o) (ctype_kind c))
                       && match ctype_kind c with KOther => false | _ => true end
    | None => aborts (o_name o) (d_name d)
    end
  else true.

Lemma checks_views :
  (let ds := map view_dt all_dts in
   forallb (fun o => forallb (fun d => supported_v o d && dispatched_v o d) ds) (map view_op all_ops)) = true.
Proof. vm_compute. reflexivity. Qed.
Definition checks_pair op dt Ho Hd := andb_prop _ _ (forallb_product _ _ _ _ view_op view_dt _ _ _ checks_views op dt Ho Hd).

Lemma supported_iff : forall op dt, In op all_ops -> In dt all_dts ->
  accepted op dt = mpi_allows op dt || extension op dt.
Proof. intros op dt Ho Hd. apply eqb_prop. exact (proj1 (checks_pair op dt Ho Hd)). Qed.
Lemma dispatched_pair : forall op dt, In op all_ops -> In dt all_dts ->
  (if accepted op dt then
     match dispatch op dt with
     | Some (c, mac) => negb (aborts op dt) && String.eqb mac (expected_macro op (ctype_kind c))
                        && match ctype_kind c with KOther => false | _ => true end
     | None => aborts op dt
     end
   else true) = true.
Proof. intros op dt Ho Hd. exact (proj2 (checks_pair op dt Ho Hd)). Qed.

Lemma supported : supported_ok = true.
Proof.
  apply forallb_forall. intros [o d] H. apply in_pairs in H as [Ho Hd]. cbn [fst snd].
  rewrite (supported_iff o d Ho Hd). apply eqb_reflx.
Qed.
Lemma dispatched : dispatched_ok = true.
Proof. apply forallb_forall. intros [o d] H. apply in_pairs in H as [Ho Hd]. exact (dispatched_pair o d Ho Hd). Qed.

(* stated in the form [table_types_all] applies: unfolding [table_types_ok] in a hypothesis would make the kernel
   evaluate the table again at [Qed] *)
Lemma table_types_loops : forall fl, In fl func_loops ->
  forallb (fun e => match assoc (fst e) dt_decl with
                    | Some (c, _) => String.eqb c (fst (snd e))
                    | None => false end) (snd fl) = true.
Proof. apply forallb_forall. vm_compute. reflexivity. Qed.
Lemma table_types : table_types_ok = true. Proof. exact (proj2 (forallb_forall _ _) table_types_loops). Qed.
Lemma sizes : sizes_ok = true. Proof. vm_compute. reflexivity. Qed.
Lemma declared_kinds : declared_kinds_ok = true. Proof. vm_compute. reflexivity. Qed.

Lemma dispatched_all : forall op dt, In op all_ops -> In dt all_dts -> accepted op dt = true ->
  match dispatch op dt with
  | Some (c, mac) => aborts op dt = false /\ mac = expected_macro op (ctype_kind c) /\ ctype_kind c <> KOther
  | None => aborts op dt = true
  end.
Proof.
  intros op dt Ho Hd Ha. pose proof (dispatched_pair op dt Ho Hd) as H.
  rewrite Ha in H. destruct (dispatch op dt) as [[c mac]|]; [|assumption].
  apply andb_prop in H. destruct H as [H H3]. apply andb_prop in H. destruct H as [H1 H2].
  repeat split.
  - destruct (aborts op dt); [discriminate|reflexivity].
  - apply String.eqb_eq. assumption.
  - intros E. rewrite E in H3. discriminate.
Qed.
Lemma table_types_all : forall f l dt c mac, In (f, l) func_loops -> In (dt, (c, mac)) l ->
  exists fam, assoc dt dt_decl = Some (c, fam).
Proof.
  intros f l dt c mac Hf Hl. pose proof (table_types_loops (f, l) Hf) as H. cbn [snd] in H.
  rewrite forallb_forall in H. specialize (H (dt, (c, mac)) Hl).
  cbn [fst snd] in H. destruct (assoc dt dt_decl) as [[c' fam]|]; [|discriminate].
  apply String.eqb_eq in H. subst. eauto.
Qed.
