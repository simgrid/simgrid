(** C32 — Group::rank finds the first occurrence, so rank and actor are inverse on a duplicate-free group.  Every group
    operation maps [g_actor g] over a list of ranks; here each is rewritten as [filter] (selection by member) or
    [keep_from] (selection by rank) on the member list itself, from which members and order are read off. *)
From SGV Require Import Base.PlainLia Base.Facts Smpi.Group.
From Coq Require Import Permutation.
Local Open Scope Z_scope.

Definition mem (a : Z) (g : list Z) : bool := existsb (Z.eqb a) g.
Lemma mem_In : forall a g, mem a g = true <-> In a g.
Proof.
  intros a g. unfold mem. rewrite existsb_exists. split.
  - intros [x [Hx E]]. apply Z.eqb_eq in E. subst. assumption.
  - intros H. exists a. split; [assumption|apply Z.eqb_refl].
Qed.
Lemma mem_false : forall a g, mem a g = false <-> ~ In a g.
Proof. intros a g. rewrite <- mem_In. destruct (mem a g); split; congruence. Qed.

Lemma g_size_cons : forall x g, g_size (x :: g) = Z.succ (g_size g).
Proof. intros. apply Nat2Z.inj_succ. Qed.

Lemma g_rank_from_notin : forall g i a, ~ In a g -> g_rank_from i g a = UNDEF.
Proof.
  induction g as [|x g IH]; intros i a H; cbn [g_rank_from]; [reflexivity|].
  destruct (x =? a) eqn:E; [apply Z.eqb_eq in E; subst; exfalso; apply H; left; reflexivity|].
  apply IH. intros Hin. apply H. right. assumption.
Qed.
(* the search that starts counting at i answers i + the position of the first occurrence
   ([Group.first_with] is the same search, see GroupProofs2) *)
Lemma g_rank_from_first : forall g i a dflt, In a g ->
  exists k : nat, g_rank_from i g a = i + Z.of_nat k /\ (k < length g)%nat /\ nth k g dflt = a /\
    (forall k', (k' < k)%nat -> nth k' g dflt <> a).
Proof.
  induction g as [|x g IH]; intros i a dflt H; [destruct H|]. cbn [g_rank_from].
  destruct (x =? a) eqn:E.
  - apply Z.eqb_eq in E. exists O. cbn [nth length]. repeat split; [lia|lia|assumption|intros k' Hk'; inversion Hk'].
  - apply Z.eqb_neq in E. destruct H as [H|H]; [contradiction|].
    destruct (IH (i + 1) a dflt H) as (k & H1 & H2 & H3 & H4). exists (S k). cbn [nth length].
    repeat split; [lia|lia|assumption|]. intros [|k'] Hk'; [exact E|apply H4; lia].
Qed.

Lemma g_actor_nth : forall g r, 0 <= r < g_size g -> g_actor g r = nth (Z.to_nat r) g (-1).
Proof. intros g r H. unfold g_actor. replace ((0 <=? r) && (r <? g_size g)) with true by lia. reflexivity. Qed.

(* what Group::rank answers *)
Lemma g_rank_spec : forall g a,
  (In a g -> 0 <= g_rank g a < g_size g /\ g_actor g (g_rank g a) = a) /\ (~ In a g -> g_rank g a = UNDEF).
Proof.
  intros g a. split; [|apply g_rank_from_notin].
  intros H. destruct (g_rank_from_first g 0 a (-1) H) as (k & E & Hk & Ha & _). unfold g_rank. rewrite E, Z.add_0_l.
  unfold g_size. split; [lia|]. rewrite g_actor_nth, Nat2Z.id by (unfold g_size; lia). exact Ha.
Qed.

Lemma g_rank_undef : forall g a, (g_rank g a =? UNDEF) = negb (mem a g).
Proof.
  intros g a. destruct (mem a g) eqn:E.
  - apply mem_In in E. destruct (proj1 (g_rank_spec g a) E) as [H _]. apply Z.eqb_neq. unfold UNDEF. lia.
  - apply mem_false in E. rewrite (proj2 (g_rank_spec g a) E). reflexivity.
Qed.

(* rank and actor are inverse on a duplicate-free group *)
Lemma g_rank_actor : forall g i, NoDup g -> 0 <= i < g_size g -> g_rank g (g_actor g i) = i.
Proof.
  intros g i Hn Hi. rewrite g_actor_nth by assumption. unfold g_size in Hi.
  assert (Hin : In (nth (Z.to_nat i) g (-1)) g) by (apply nth_In; lia).
  destruct (g_rank_from_first g 0 _ (-1) Hin) as (k & E & Hk & Ha & _). unfold g_rank. rewrite E, Z.add_0_l.
  apply (proj1 (NoDup_nth g (-1)) Hn) in Ha; lia.
Qed.

Lemma indices_cons : forall x g, indices (x :: g) = 0 :: map Z.succ (indices g).
Proof. intros x g. unfold indices, zseq, g_size. cbn [length]. rewrite !Nat2Z.id. apply zseq_S. Qed.
Lemma In_indices : forall g i, In i (indices g) <-> 0 <= i < g_size g.
Proof. intros. apply In_zseq. Qed.
Lemma g_actor_succ : forall x g i, 0 <= i -> g_actor (x :: g) (Z.succ i) = g_actor g i.
Proof.
  intros x g i Hi. unfold g_actor. rewrite g_size_cons.
  replace ((0 <=? Z.succ i) && (Z.succ i <? Z.succ (g_size g))) with ((0 <=? i) && (i <? g_size g)) by lia.
  rewrite Z2Nat.inj_succ by assumption. reflexivity.
Qed.
Lemma map_actor_succ : forall x g l, List.incl l (indices g) -> map (g_actor (x :: g)) (map Z.succ l) = map (g_actor g) l.
Proof.
  intros x g l H. rewrite map_map. apply map_ext_in. intros i Hi. apply H, In_indices in Hi. apply g_actor_succ, Hi.
Qed.

Lemma map_actor_all : forall g, map (g_actor g) (indices g) = g.
Proof.
  induction g as [|x g IH]; [reflexivity|].
  rewrite indices_cons. cbn [map]. rewrite map_actor_succ, IH by apply incl_refl. reflexivity.
Qed.
(* selecting ranks by a predicate on the member = filtering the member list *)
Lemma map_actor_filter : forall (P : Z -> bool) g,
  map (g_actor g) (filter (fun i => P (g_actor g i)) (indices g)) = filter P g.
Proof. intros P g. rewrite <- filter_map_comm, map_actor_all. reflexivity. Qed.

(* selecting ranks by a predicate on the rank *)
Fixpoint keep_from (i : Z) (Q : Z -> bool) (g : list Z) : list Z :=
  match g with [] => [] | x :: r => if Q i then x :: keep_from (i + 1) Q r else keep_from (i + 1) Q r end.
Lemma keep_from_shift : forall g i Q, keep_from i (fun j => Q (Z.succ j)) g = keep_from (i + 1) Q g.
Proof.
  induction g as [|x g IH]; intros i Q; cbn [keep_from]; [reflexivity|].
  rewrite IH. replace (Z.succ i) with (i + 1) by lia. reflexivity.
Qed.
Lemma map_actor_keep : forall g Q, map (g_actor g) (filter Q (indices g)) = keep_from 0 Q g.
Proof.
  induction g as [|x g IH]; intros Q; [reflexivity|].
  rewrite indices_cons. cbn [filter keep_from]. rewrite filter_map_comm.
  destruct (Q 0); cbn [map]; rewrite map_actor_succ, IH, keep_from_shift by apply incl_filter; reflexivity.
Qed.

Lemma union_spec : forall g1 g2, group_union g1 g2 = g1 ++ filter (fun a => negb (mem a g1)) g2.
Proof.
  intros g1 g2. unfold group_union. rewrite map_actor_all.
  rewrite (map_actor_filter (fun a => g_rank g1 a =? UNDEF) g2). f_equal.
  apply filter_ext. intros a. apply g_rank_undef.
Qed.
Lemma intersection_spec : forall g1 g2, intersection g1 g2 = filter (fun a => mem a g2) g1.
Proof.
  intros g1 g2. unfold intersection, incl.
  rewrite (map_actor_filter (fun a => negb (g_rank g2 a =? UNDEF)) g1).
  apply filter_ext. intros a. rewrite g_rank_undef. apply negb_involutive.
Qed.
Lemma difference_spec : forall g1 g2, difference g1 g2 = filter (fun a => negb (mem a g2)) g1.
Proof.
  intros g1 g2. unfold difference, incl.
  rewrite (map_actor_filter (fun a => g_rank g2 a =? UNDEF) g1).
  apply filter_ext. intros a. apply g_rank_undef.
Qed.
(* [intersection_orig] is [intersection] with the groups exchanged *)
Lemma intersection_orig_spec : forall g1 g2, intersection_orig g1 g2 = filter (fun a => mem a g1) g2.
Proof. intros g1 g2. exact (intersection_spec g2 g1). Qed.

Lemma union_NoDup : forall g1 g2, NoDup g1 -> NoDup g2 -> NoDup (group_union g1 g2).
Proof.
  intros g1 g2 H1 H2. rewrite union_spec. apply NoDup_app_disj; [assumption|apply NoDup_filter; assumption|].
  intros x Hx Hf. apply filter_In in Hf. destruct Hf as [_ Hf]. apply mem_In in Hx. rewrite Hx in Hf. discriminate.
Qed.
Lemma union_members : forall g1 g2 a, In a (group_union g1 g2) <-> In a g1 \/ In a g2.
Proof.
  intros g1 g2 a. rewrite union_spec, in_app_iff, filter_In. split.
  - intros [H|[H _]]; auto.
  - intros [H|H]; [left; assumption|]. destruct (mem a g1) eqn:E; [left; apply mem_In; assumption|right; split; [assumption|reflexivity]].
Qed.

Definition valid_ranks (g : group) (ranks : list Z) : Prop :=
  NoDup ranks /\ Forall (fun r => 0 <= r < g_size g) ranks.
Lemma incl_spec : forall g ranks, valid_ranks g ranks ->
  g_size (incl g ranks) = Z.of_nat (length ranks) /\
  (forall i, 0 <= i < Z.of_nat (length ranks) -> g_actor (incl g ranks) i = g_actor g (nth (Z.to_nat i) ranks (-1))).
Proof.
  intros g ranks [Hn Hf]. unfold incl, g_size. rewrite map_length. split; [reflexivity|].
  intros i Hi. rewrite g_actor_nth by (unfold g_size; rewrite map_length; lia).
  change (-1) with (g_actor g (-1)) at 1. rewrite map_nth. reflexivity.
Qed.
Lemma incl_NoDup : forall g ranks, NoDup g -> valid_ranks g ranks -> NoDup (incl g ranks).
Proof.
  intros g ranks Hg [Hn Hf]. unfold incl. induction ranks as [|r ranks IH]; [constructor|].
  inv Hn. inv Hf. cbn [map]. constructor; [|apply IH; assumption].
  intros Hin. apply in_map_iff in Hin. destruct Hin as [r' [E Hr']].
  rewrite Forall_forall in H4. specialize (H4 r' Hr').
  apply (f_equal (g_rank g)) in E. rewrite !g_rank_actor in E by assumption. subst. contradiction.
Qed.
Lemma incl_members : forall g ranks a, valid_ranks g ranks ->
  (In a (incl g ranks) <-> exists r, In r ranks /\ g_actor g r = a).
Proof.
  intros g ranks a _. unfold incl. rewrite in_map_iff. split; intros [r [H1 H2]]; exists r; tauto.
Qed.

Lemma excl_spec : forall g ranks, excl g ranks = keep_from 0 (fun i => negb (mem i ranks)) g.
Proof. intros g ranks. unfold excl, excl_map, incl. apply map_actor_keep. Qed.

Lemma keep_all : forall g i Q, (forall j, Q j = true) -> keep_from i Q g = g.
Proof. induction g as [|x g IH]; intros i Q H; cbn [keep_from]; [reflexivity|]. rewrite H, IH by assumption. reflexivity. Qed.
Lemma keep_none : forall g i Q, (forall j, i <= j < i + g_size g -> Q j = false) -> keep_from i Q g = [].
Proof.
  induction g as [|x g IH]; intros i Q H; cbn [keep_from]; [reflexivity|]. unfold g_size in *. cbn [length] in H.
  rewrite H by lia. apply IH. intros j Hj. apply H. lia.
Qed.
(* the binding's shortcuts (n = 0, n = size) agree with the general rule *)
Lemma p_excl_spec : forall g ranks, valid_ranks g ranks ->
  p_excl g ranks = keep_from 0 (fun i => negb (mem i ranks)) g.
Proof.
  intros g ranks [Hn Hf]. unfold p_excl.
  destruct (Z.of_nat (length ranks) =? 0) eqn:E0.
  - destruct ranks; [|cbn [length] in E0; lia]. symmetry. apply keep_all. reflexivity.
  - destruct (Z.of_nat (length ranks) =? g_size g) eqn:E1; [|apply excl_spec].
    symmetry. apply keep_none. intros j Hj. apply negb_false_iff. apply mem_In.
    assert (Hincl : List.incl (indices g) ranks).
    { apply NoDup_length_incl; [assumption| |].
      - unfold indices, zseq. rewrite map_length, seq_length. unfold g_size in *. lia.
      - intros r Hr. rewrite Forall_forall in Hf. apply In_indices. apply Hf. assumption. }
    apply Hincl. apply In_indices. lia.
Qed.

Lemma translate_spec : forall g1 g2 ranks,
  Forall (fun r => r = PNULL \/ 0 <= r < g_size g1) ranks ->
  translate g1 ranks g2 = Some (map (fun r => if r =? PNULL then PNULL else g_rank g2 (g_actor g1 r)) ranks).
Proof.
  intros g1 g2 ranks H. induction ranks as [|r rs IH]; [reflexivity|]. inv H. cbn [translate map].
  rewrite IH by assumption.
  replace (negb (r =? PNULL) && ((r <? 0) || (g_size g1 <=? r))) with false; [reflexivity|].
  destruct H2 as [->|Hr]; [reflexivity|]. replace ((r <? 0) || (g_size g1 <=? r)) with false by lia. symmetry. apply andb_false_r.
Qed.
