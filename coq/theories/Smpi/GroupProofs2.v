(** C32 — Group::compare and Comm::split *)
From SGV Require Import Base.PlainLia Base.Facts Smpi.Group Smpi.GroupProofs.
From Coq Require Import Permutation Sorting.Sorted.
Local Open Scope Z_scope.

Lemma compare_loop_spec : forall g1 g2 idx res,
  compare_loop g1 g2 idx res =
  if existsb (fun i => g_rank g2 (g_actor g1 i) =? UNDEF) idx then UNEQUAL
  else if existsb (fun i => negb (g_rank g2 (g_actor g1 i) =? i)) idx then SIMILAR else res.
Proof.
  intros g1 g2. induction idx as [|i idx IH]; intros res; cbn [compare_loop existsb]; [reflexivity|].
  destruct (g_rank g2 (g_actor g1 i) =? UNDEF) eqn:E1; cbn [orb]; [reflexivity|].
  rewrite IH. destruct (existsb (fun i0 => g_rank g2 (g_actor g1 i0) =? UNDEF) idx); [reflexivity|].
  destruct (g_rank g2 (g_actor g1 i) =? i); cbn [negb orb]; [reflexivity|].
  destruct (existsb (fun i0 => negb (g_rank g2 (g_actor g1 i0) =? i0)) idx); reflexivity.
Qed.

Lemma actor_in : forall g i, 0 <= i < g_size g -> In (g_actor g i) g.
Proof. intros g i H. rewrite g_actor_nth by assumption. apply nth_In. unfold g_size in H. lia. Qed.
Lemma in_actor : forall g a, In a g -> exists i, 0 <= i < g_size g /\ g_actor g i = a.
Proof. intros g a H. destruct (proj1 (g_rank_spec g a) H) as [H1 H2]. eauto. Qed.

Lemma group_ext : forall g1 g2, g_size g1 = g_size g2 ->
  (forall i, 0 <= i < g_size g1 -> g_actor g1 i = g_actor g2 i) -> g1 = g2.
Proof.
  intros g1 g2 Hs H. unfold g_size in *. apply (nth_ext g1 g2 (-1) (-1)); [lia|].
  intros n Hn. specialize (H (Z.of_nat n) ltac:(lia)).
  rewrite !g_actor_nth in H by (unfold g_size; lia). rewrite Nat2Z.id in H. assumption.
Qed.

Lemma existsb_false : forall (A : Type) (f : A -> bool) l, existsb f l = false <-> forall x, In x l -> f x = false.
Proof.
  intros A f l. rewrite <- not_true_iff_false, existsb_exists. split.
  - intros H x Hx. destruct (f x) eqn:E; [exfalso; eauto|reflexivity].
  - intros H (x & Hx & E). rewrite (H x Hx) in E. discriminate.
Qed.

Lemma compare_spec : forall g1 g2, NoDup g1 -> NoDup g2 ->
  (compare g1 g2 = IDENT /\ g1 = g2) \/
  (compare g1 g2 = SIMILAR /\ Permutation g1 g2 /\ g1 <> g2) \/
  (compare g1 g2 = UNEQUAL /\ ~ Permutation g1 g2).
Proof.
  intros g1 g2 Hn1 Hn2. unfold compare.
  destruct (g_size g1 =? g_size g2) eqn:Es; cbn [negb].
  2:{ right. right. split; [reflexivity|]. intros Hp. apply Permutation_length in Hp. unfold g_size in Es. lia. }
  apply Z.eqb_eq in Es. rewrite compare_loop_spec.
  destruct (existsb (fun i => g_rank g2 (g_actor g1 i) =? UNDEF) (indices g1)) eqn:E1.
  - (* some member of g1 is not in g2 *)
    right. right. split; [reflexivity|]. intros Hp.
    apply existsb_exists in E1. destruct E1 as [i [Hi E]]. apply In_indices in Hi.
    rewrite g_rank_undef in E. apply negb_true_iff, mem_false in E. apply E.
    eapply Permutation_in; [exact Hp|]. apply actor_in. assumption.
  - assert (Hall : forall i, 0 <= i < g_size g1 -> In (g_actor g1 i) g2).
    { intros i Hi. apply In_indices, (proj1 (existsb_false _ _ _) E1) in Hi.
      rewrite g_rank_undef in Hi. apply negb_false_iff, mem_In in Hi. exact Hi. }
    assert (Hperm : Permutation g1 g2).
    { apply NoDup_Permutation_bis; [assumption|unfold g_size in Es; lia|].
      intros a Ha. destruct (in_actor g1 a Ha) as [i [Hi Ea]]. subst a. apply Hall. assumption. }
    destruct (existsb (fun i => negb (g_rank g2 (g_actor g1 i) =? i)) (indices g1)) eqn:E2.
    + (* some member has another rank in g2 *)
      right. left. split; [reflexivity|]. split; [assumption|]. intros Heq. subst g2.
      apply existsb_exists in E2. destruct E2 as [i [Hi E]]. apply In_indices in Hi.
      rewrite g_rank_actor in E by assumption. rewrite Z.eqb_refl in E. discriminate.
    + left. split; [reflexivity|]. apply group_ext; [assumption|]. intros i Hi.
      pose proof (proj1 (existsb_false _ _ _) E2 i (proj2 (In_indices _ _) Hi)) as Er.
      apply negb_false_iff, Z.eqb_eq in Er.
      destruct (proj1 (g_rank_spec g2 (g_actor g1 i)) (Hall i Hi)) as [_ H]. rewrite Er in H. symmetry. assumption.
Qed.

Definition ple (a b : Z * Z) : Prop := pair_le a b = true.
Lemma ple_total : forall a b, pair_le a b = false -> ple b a.
Proof. intros [a1 a2] [b1 b2]. unfold ple, pair_le. cbn [fst snd]. lia. Qed.
Lemma ple_trans : forall a b c, ple a b -> ple b c -> ple a c.
Proof. intros [a1 a2] [b1 b2] [c1 c2]. unfold ple, pair_le. cbn [fst snd]. lia. Qed.

Lemma insert_perm : forall x l, Permutation (insert_pair x l) (x :: l).
Proof.
  induction l as [|a l IH]; cbn [insert_pair]; [apply Permutation_refl|].
  destruct (pair_le x a); [apply Permutation_refl|]. eapply perm_trans; [apply perm_skip; exact IH|apply perm_swap].
Qed.
Lemma sort_perm : forall l, Permutation (sort_pairs l) l.
Proof.
  induction l as [|a l IH]; [apply Permutation_refl|]. unfold sort_pairs in *. cbn [fold_right].
  eapply perm_trans; [apply insert_perm|apply perm_skip; exact IH].
Qed.
Lemma insert_sorted : forall x l, StronglySorted ple l -> StronglySorted ple (insert_pair x l).
Proof.
  induction l as [|a l IH]; intros Hs; cbn [insert_pair]; [repeat constructor|].
  inv Hs. destruct (pair_le x a) eqn:E.
  - constructor; [constructor; assumption|]. constructor; [exact E|].
    rewrite Forall_forall in *. intros y Hy. eapply ple_trans; [exact E|apply H2; assumption].
  - constructor; [apply IH; assumption|]. rewrite Forall_forall in *. intros y Hy.
    apply (Permutation_in _ (insert_perm x l)) in Hy. destruct Hy as [Hy|Hy]; [subst; apply ple_total; assumption|apply H2; assumption].
Qed.
Lemma sort_sorted : forall l, StronglySorted ple (sort_pairs l).
Proof. induction l as [|a l IH]; [constructor|]. unfold sort_pairs in *. cbn [fold_right]. apply insert_sorted. assumption. Qed.

Lemma sorted_map : forall (f : Z -> Z * Z) l,
  StronglySorted ple l -> (forall p, In p l -> p = f (snd p)) ->
  StronglySorted (fun a b => ple (f a) (f b)) (map snd l).
Proof.
  intros f. induction l as [|p l IH]; intros Hs Hf; cbn [map]; [constructor|]. inv Hs.
  constructor; [apply IH; [assumption|intros; apply Hf; right; assumption]|].
  rewrite Forall_forall in *. intros y Hy. apply in_map_iff in Hy. destruct Hy as [q [Eq Hq]]. subst y.
  rewrite <- (Hf p (or_introl eq_refl)), <- (Hf q (or_intror Hq)). apply H2. assumption.
Qed.

Definition col (cks : list (Z * Z)) (j : Z) : Z := fst (nth (Z.to_nat j) cks (UNDEF, 0)).
Definition key (cks : list (Z * Z)) (j : Z) : Z := snd (nth (Z.to_nat j) cks (UNDEF, 0)).

(* [first_with] is the search of [g_rank_from] (they differ in the answer for an absent element only) *)
Lemma first_with_rank : forall colors c i, In c colors -> first_with c i colors = g_rank_from i colors c.
Proof.
  induction colors as [|x colors IH]; intros c i H; [destruct H|]. cbn [first_with g_rank_from].
  destruct (x =? c) eqn:E; [reflexivity|]. apply IH. destruct H as [H|H]; [apply Z.eqb_neq in E; contradiction|assumption].
Qed.

Lemma col_map : forall cks j, nth j (map fst cks) UNDEF = col cks (Z.of_nat j).
Proof. intros. unfold col. rewrite Nat2Z.id. change UNDEF with (fst (UNDEF, 0)) at 1. apply map_nth. Qed.

(* the pairs gathered for the class found at index i are the ranks of that class after i, then i, tagged with their keys *)
Lemma rankmap_eq : forall cks i, rankmap cks i =
  map (fun j => (key cks j, j))
      (filter (fun j => (i <? j) && (col cks j =? col cks i)) (zseq (Z.of_nat (length cks))) ++ [i]).
Proof. intros. rewrite map_app. reflexivity. Qed.

(* sorting ranks tagged with a key orders them by key, then by rank *)
Lemma sort_pairs_keyed : forall (k : Z -> Z) L,
  let l := map snd (sort_pairs (map (fun j => (k j, j)) L)) in
  Permutation l L /\ StronglySorted (fun a b => ple (k a, a) (k b, b)) l.
Proof.
  intros k L l. pose proof (sort_perm (map (fun j => (k j, j)) L)) as Hp. split.
  - apply (Permutation_map snd) in Hp. rewrite map_map in Hp. cbn [snd] in Hp. rewrite map_id in Hp. exact Hp.
  - apply sorted_map; [apply sort_sorted|]. intros p Hin.
    apply (Permutation_in _ Hp), in_map_iff in Hin. destruct Hin as (j & <- & _). reflexivity.
Qed.

Lemma split_spec : forall cks r, 0 <= r < Z.of_nat (length cks) -> col cks r <> UNDEF ->
  exists l, split_ranks cks r = Some l /\ NoDup l /\
    (forall j, In j l <-> 0 <= j < Z.of_nat (length cks) /\ col cks j = col cks r) /\
    StronglySorted (fun a b => ple (key cks a, a) (key cks b, b)) l.
Proof.
  intros cks r Hr Hc. unfold split_ranks. fold (col cks r).
  destruct (col cks r =? UNDEF) eqn:E; [apply Z.eqb_eq in E; contradiction|]. clear E.
  set (c := col cks r).
  assert (Hin : In c (map fst cks)).
  { replace c with (nth (Z.to_nat r) (map fst cks) UNDEF) by (rewrite col_map, Z2Nat.id by lia; reflexivity).
    apply nth_In. rewrite map_length. lia. }
  (* i0: the first rank of colour c *)
  rewrite first_with_rank by assumption.
  destruct (g_rank_from_first _ 0 c UNDEF Hin) as (k & -> & Hk & F2 & F3). rewrite Z.add_0_l, rankmap_eq.
  rewrite map_length in Hk. rewrite col_map in F2. set (i0 := Z.of_nat k) in *. rewrite F2.
  set (L := filter _ _ ++ [i0]).
  destruct (sort_pairs_keyed (key cks) L) as [Hp Hs]. eexists. split; [reflexivity|].
  assert (HL : forall j, In j L <-> 0 <= j < Z.of_nat (length cks) /\ col cks j = c).
  { intros j. unfold L. rewrite in_app_iff, filter_In. cbn [In]. split.
    - intros [[Hj Hb]|[<-|[]]]; [|split; [lia|exact F2]].
      apply In_zseq in Hj. apply andb_prop in Hb. split; [exact Hj|apply Z.eqb_eq, Hb].
    - intros [Hj Ej]. destruct (Z.eq_dec i0 j) as [|Hne]; [right; left; assumption|]. left.
      split; [apply In_zseq, Hj|]. rewrite Ej, Z.eqb_refl, andb_true_r. apply Z.ltb_lt.
      destruct (Z_lt_le_dec i0 j) as [|Hle]; [assumption|]. exfalso.
      apply (F3 (Z.to_nat j)); [lia|]. rewrite col_map, Z2Nat.id by lia. exact Ej. }
  split; [|split; [|exact Hs]].
  - apply (Permutation_NoDup (Permutation_sym Hp)). apply NoDup_app_disj.
    + apply NoDup_filter, NoDup_zseq.
    + repeat constructor. intros [].
    + intros x Hx [<-|[]]. apply filter_In in Hx. lia.
  - intros j. rewrite <- HL. split; apply Permutation_in; [|apply Permutation_sym]; exact Hp.
Qed.
