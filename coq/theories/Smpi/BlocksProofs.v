(** C35 — proofs: the bytes denoted by the shifted, merged and complemented block lists. *)
From SGV Require Import Base.PlainLia Smpi.Blocks.
Local Open Scope Z_scope.

Lemma covered_nil x : covered [] x <-> False.
Proof. split; [intros (b & e & H & _); destruct H | intros []]. Qed.

Lemma covered_cons b e l x : covered ((b, e) :: l) x <-> (b <= x < e) \/ covered l x.
Proof.
  unfold covered; split.
  - intros (b' & e' & [H | H] & Hx); [injection H as <- <-; now left | right; eauto].
  - intros [H | (b' & e' & H & Hx)]; [exists b, e | exists b', e']; split; auto; [now left | now right].
Qed.

Lemma covered_app l1 l2 x : covered (l1 ++ l2) x <-> covered l1 x \/ covered l2 x.
Proof.
  unfold covered; split.
  - intros (b & e & H & Hx). apply in_app_or in H. destruct H; [left | right]; eauto.
  - intros [(b & e & H & Hx) | (b & e & H & Hx)]; exists b, e; split; auto using in_or_app.
Qed.

Lemma covered_single b e x : covered [(b, e)] x <-> b <= x < e.
Proof. rewrite covered_cons, covered_nil. tauto. Qed.

Lemma covered_guard c b x : covered (if c <? b then [(c, b)] else []) x <-> c <= x < b.
Proof. destruct (Z.ltb_spec c b); [apply covered_single | rewrite covered_nil; lia]. Qed.

(** * shift: exactly the bytes of the message that lie in a private block, re-based at the message start *)
Definition shift1 (b e off size : Z) : blocks :=
  if (0 <? rel e off size) && (rel b off size <? size) then [(rel b off size, rel e off size)] else [].
Lemma shift_cons b e l off size : shift ((b, e) :: l) off size = shift1 b e off size ++ shift l off size.
Proof. reflexivity. Qed.

(* [rel p off size] is [p - off] clamped to [0, size] *)
Section Rel.
Variables off size : Z.
Hypothesis Hsize : 0 <= size.

Lemma rel_range p : 0 <= rel p off size <= size.
Proof. unfold rel. destruct (Z.ltb_spec off p); lia. Qed.
Lemma rel_mono p q : p <= q -> rel p off size <= rel q off size.
Proof. intros H. unfold rel. destruct (Z.ltb_spec off p), (Z.ltb_spec off q); lia. Qed.
Lemma rel_lt p q : p < q -> 0 < rel q off size -> rel p off size < size -> rel p off size < rel q off size.
Proof. unfold rel. destruct (Z.ltb_spec off p), (Z.ltb_spec off q); lia. Qed.
(* inside the frame, re-based positions compare with x as the positions themselves compare with x + off *)
Lemma rel_between b e x : 0 <= x < size -> (rel b off size <= x < rel e off size <-> b <= x + off < e).
Proof. intros H. unfold rel. destruct (Z.ltb_spec off b), (Z.ltb_spec off e); lia. Qed.

Lemma shift_one b e x : covered (shift1 b e off size) x <-> 0 <= x < size /\ b <= x + off < e.
Proof.
  pose proof (rel_range b) as Hb. pose proof (rel_range e) as He. unfold shift1. split.
  - destruct (_ && _); [rewrite covered_single | rewrite covered_nil; intros []].
    intros Hx. assert (Hf : 0 <= x < size) by lia. split; [exact Hf | now apply rel_between].
  - intros [Hx Hbe]. apply rel_between in Hbe; [|exact Hx].
    rewrite (proj2 (Z.ltb_lt 0 _)), (proj2 (Z.ltb_lt _ size)) by lia. now apply covered_single.
Qed.
End Rel.

Lemma in_shift vec off size b e : In (b, e) (shift vec off size) <->
  exists b0 e0, In (b0, e0) vec /\ b = rel b0 off size /\ e = rel e0 off size /\ 0 < e /\ b < size.
Proof.
  unfold shift. rewrite in_flat_map. split.
  - intros ([b0 e0] & Hin & H). cbn [fst snd] in H. destruct (_ && _) eqn:Hc; [|destruct H].
    destruct H as [H|[]]. injection H as <- <-. apply andb_prop in Hc as [H1 H2].
    apply Z.ltb_lt in H1, H2. exists b0, e0. auto.
  - intros (b0 & e0 & Hin & -> & -> & H1 & H2). exists (b0, e0). split; [assumption|]. cbn [fst snd].
    apply Z.ltb_lt in H1, H2. rewrite H1, H2. now left.
Qed.

Lemma shift_covers vec off size x :
  0 <= off -> 0 <= size ->
  (covered (shift vec off size) x <-> 0 <= x < size /\ covered vec (x + off)).
Proof.
  intros Hoff Hsize. induction vec as [| [b e] vec IH].
  - cbn. rewrite !covered_nil. tauto.
  - rewrite shift_cons, covered_app, IH, covered_cons, shift_one by assumption. clear IH. tauto.
Qed.

Lemma shift_in_frame vec off size b e :
  0 <= off -> 0 <= size -> Forall (fun be => fst be <= snd be) vec ->
  In (b, e) (shift vec off size) -> 0 <= b <= e /\ e <= size.
Proof.
  intros Hoff Hsize Hwf Hin. apply in_shift in Hin as (b0 & e0 & Hin & -> & -> & _).
  apply (proj1 (Forall_forall _ _) Hwf) in Hin.
  repeat split; [apply rel_range | apply rel_mono | apply rel_range]; assumption.
Qed.

Lemma sorted_wf l : sorted l -> Forall (fun be => fst be <= snd be) l.
Proof. induction 1; constructor; [apply Z.lt_le_incl|]; assumption. Qed.

Lemma shift_sorted vec off size : 0 <= off -> 0 <= size -> sorted vec -> sorted (shift vec off size).
Proof.
  intros Hoff Hsize Hs. induction Hs as [| b e l Hbe Hall Hs IH]; [constructor |].
  rewrite shift_cons. unfold shift1. destruct (_ && _) eqn:Hc; [| exact IH]. apply andb_prop in Hc as [H1 H2]. apply Z.ltb_lt in H1, H2.
  constructor; [| | exact IH].
  - now apply rel_lt.
  - intros b' e' Hin. apply in_shift in Hin as (b0 & e0 & Hin & -> & _). apply rel_mono, (Hall _ _ Hin). exact Hsize.
Qed.

Lemma sorted_inv b e l : sorted ((b, e) :: l) -> b < e /\ sorted l /\ forall x, covered l x -> e <= x.
Proof.
  inversion 1 as [| ? ? ? Hbe Hall Hs]; subst. repeat split; try assumption.
  intros x (b' & e' & Hin & Hx). specialize (Hall _ _ Hin). lia.
Qed.

(* of two sorted lists, the head that ends first meets the other list in its head only, and can then be dropped *)
Lemma inter_drop_head sb se s' db de d' x :
  sorted ((sb, se) :: s') -> sorted ((db, de) :: d') -> se <= de ->
  (covered ((sb, se) :: s') x /\ covered ((db, de) :: d') x <->
   Z.max sb db <= x < Z.min se de \/ (covered s' x /\ covered ((db, de) :: d') x)).
Proof.
  intros Hs Hd Hle. destruct (sorted_inv _ _ _ Hd) as (_ & _ & Hdl). rewrite (covered_cons sb se), !(covered_cons db de).
  split.
  - intros [[Ha | Ha] Hb]; [| now right]. destruct Hb as [Hb | Hb]; [left; lia | apply Hdl in Hb; lia].
  - intros [H | [Ha Hb]]; [split; left; lia | split; [now right | assumption]].
Qed.

Lemma inter_drop_head_r sb se s' db de d' x :
  sorted ((sb, se) :: s') -> sorted ((db, de) :: d') -> de <= se ->
  (covered ((sb, se) :: s') x /\ covered ((db, de) :: d') x <->
   Z.max sb db <= x < Z.min se de \/ (covered ((sb, se) :: s') x /\ covered d' x)).
Proof.
  intros Hs Hd Hle. rewrite and_comm, inter_drop_head, Z.max_comm, Z.min_comm, (and_comm (covered d' x)) by assumption.
  reflexivity.
Qed.

Lemma merge_fuel_covers n : forall s d x,
  (length s + length d <= n)%nat -> sorted s -> sorted d ->
  (covered (merge_fuel n s d) x <-> covered s x /\ covered d x).
Proof.
  induction n as [| n IH]; intros s d x Hlen Hs Hd.
  - destruct s; [|cbn in Hlen; lia]. cbn. rewrite !covered_nil. tauto.
  - destruct s as [| [sb se] s']; [cbn; rewrite !covered_nil; tauto|].
    destruct d as [| [db de] d']; [cbn; rewrite !covered_nil; tauto|].
    cbn [merge_fuel]. cbn [length] in Hlen.
    destruct (sorted_inv _ _ _ Hs) as (Hsbe & Hs' & _), (sorted_inv _ _ _ Hd) as (Hdbe & Hd' & _).
    destruct (Z.leb_spec se db) as [H1|H1]; [|destruct (Z.leb_spec de sb) as [H2|H2]; [|destruct (Z.ltb_spec se de) as [H3|H3]]];
      rewrite ?(covered_cons (Z.max sb db)), IH by (cbn [length]; auto; lia).
    + rewrite (inter_drop_head sb se s') by (auto; lia). split; [now right | intros [H|H]; [lia | exact H]].
    + rewrite (inter_drop_head_r sb se s') by (auto; lia). split; [now right | intros [H|H]; [lia | exact H]].
    + symmetry. apply inter_drop_head; auto; lia.
    + symmetry. apply inter_drop_head_r; auto; lia.
Qed.

Lemma merge_is_intersection s d x :
  sorted s -> sorted d -> (covered (merge s d) x <-> covered s x /\ covered d x).
Proof. intros. apply merge_fuel_covers; auto. Qed.

(** * the callback copies exactly the bytes private on both sides *)
Lemma private_bytes_copied src dst soff doff size x :
  0 <= soff -> 0 <= doff -> 0 <= size -> sorted src -> sorted dst ->
  (covered (copied src dst soff doff size) x <->
   0 <= x < size /\ covered src (x + soff) /\ covered dst (x + doff)).
Proof.
  intros. unfold copied. rewrite merge_is_intersection by (apply shift_sorted; auto).
  rewrite !shift_covers by auto. tauto.
Qed.

Lemma merge_fuel_in_frame n : forall s d size b e,
  Forall (fun be => 0 <= fst be <= snd be /\ snd be <= size) s ->
  Forall (fun be => 0 <= fst be <= snd be /\ snd be <= size) d ->
  In (b, e) (merge_fuel n s d) -> 0 <= b /\ e <= size.
Proof.
  induction n as [| n IH]; intros s d size b e Fs Fd Hin; [destruct Hin |].
  destruct s as [| [sb se] s']; [destruct Hin |]. destruct d as [| [db de] d']; [destruct Hin |].
  cbn [merge_fuel] in Hin. pose proof (Forall_inv Fs) as Hs0. pose proof (Forall_inv Fd) as Hd0.
  pose proof (Forall_inv_tail Fs) as Fs'. pose proof (Forall_inv_tail Fd) as Fd'. cbn [fst snd] in Hs0, Hd0.
  destruct (se <=? db); [exact (IH _ _ _ _ _ Fs' Fd Hin) |]. destruct (de <=? sb); [exact (IH _ _ _ _ _ Fs Fd' Hin) |].
  destruct Hin as [Hin | Hin]; [injection Hin as <- <-; lia |].
  destruct (se <? de); [exact (IH _ _ _ _ _ Fs' Fd Hin) | exact (IH _ _ _ _ _ Fs Fd' Hin)].
Qed.

(** boolean test of [sorted], for examples and for the generators' validity check *)
Fixpoint sorted_b (l : blocks) : bool :=
  match l with
  | [] => true
  | (b, e) :: r => (b <? e) && forallb (fun be => e <=? fst be) r && sorted_b r
  end.
Lemma sorted_b_sound l : sorted_b l = true -> sorted l.
Proof.
  induction l as [| [b e] r IH]; [constructor |]. cbn [sorted_b].
  intros H. apply andb_prop in H as [H H3]. apply andb_prop in H as [H1 H2]. constructor; [now apply Z.ltb_lt | | auto].
  intros b' e' Hin. apply (proj1 (forallb_forall _ _) H2) in Hin. now apply Z.leb_le.
Qed.

(** * private blocks = complement of the shared blocks *)
Definition within (cur size : Z) (l : blocks) : Prop := forall b e, In (b, e) l -> cur <= b /\ e <= size.

Lemma within_inv cur size b e r : sorted ((b, e) :: r) -> within cur size ((b, e) :: r) ->
  cur <= b < e /\ e <= size /\ sorted r /\ within e size r.
Proof.
  intros Hs Hw. inversion Hs as [| ? ? ? Hbe Hall Hs']; subst. destruct (Hw b e (or_introl eq_refl)).
  split; [split; assumption |]. split; [assumption |]. split; [assumption |].
  intros b' e' Hin. split; [apply (Hall _ _ Hin) | apply (Hw _ _ (or_intror Hin))].
Qed.

Lemma priv_from_covers : forall shared cur size x,
  within cur size shared -> sorted shared -> cur <= size ->
  (covered (priv_from cur size shared) x <-> cur <= x < size /\ ~ covered shared x).
Proof.
  induction shared as [| [b e] r IH]; intros cur size x Hb Hs Hc; cbn [priv_from].
  - rewrite covered_guard, covered_nil. tauto.
  - destruct (within_inv _ _ _ _ _ Hs Hb) as (Hcb & Hes & Hs' & Hb'). destruct (sorted_inv _ _ _ Hs) as (_ & _ & Hr).
    rewrite covered_app, covered_guard, IH, (covered_cons b e r) by assumption. split.
    + intros [H | [H1 H2]]; (split; [lia|]); intros [H3 | H3]; [lia | apply Hr in H3; lia | lia | exact (H2 H3)].
    + intros [H1 H2]. destruct (Z_lt_le_dec x b) as [Hx | Hx]; [left; lia |].
      right. split; [| intro H3; apply H2; right; exact H3].
      destruct (Z_lt_le_dec x e); [exfalso; apply H2; left; lia | lia].
Qed.

Lemma priv_blocks_complement shared size x :
  (forall b e, In (b, e) shared -> 0 <= b /\ e <= size) -> sorted shared -> 0 <= size ->
  (covered (priv_blocks size shared) x <-> 0 <= x < size /\ ~ covered shared x).
Proof. intros. now apply priv_from_covers. Qed.

Lemma priv_from_sorted : forall shared cur size, within cur size shared -> sorted shared ->
  sorted (priv_from cur size shared) /\ forall b' e', In (b', e') (priv_from cur size shared) -> cur <= b'.
Proof.
  induction shared as [| [b e] r IH]; intros cur size Hb Hs; cbn [priv_from].
  - destruct (Z.ltb_spec cur size); split; [repeat constructor; [assumption | intros ? ? []] | | constructor | intros ? ? []].
    intros b' e' [H'|[]]. injection H' as <- _. apply Z.le_refl.
  - destruct (within_inv _ _ _ _ _ Hs Hb) as (Hcb & Hes & Hs' & Hb'). destruct (IH e size Hb' Hs') as [IHs IHl].
    destruct (Z.ltb_spec cur b); cbn [app]; split.
    + constructor; [assumption | intros b' e' Hin; apply IHl in Hin; lia | exact IHs].
    + intros b' e' [H'|Hin]; [injection H' as <- _; apply Z.le_refl | apply IHl in Hin; lia].
    + exact IHs.
    + intros b' e' Hin. apply IHl in Hin. lia.
Qed.

Lemma e2e_spec ssize sshared dsize dshared soff doff size x :
  0 <= soff -> 0 <= doff -> 0 <= size -> 0 <= ssize -> 0 <= dsize ->
  sorted sshared -> sorted dshared ->
  (forall b e, In (b, e) sshared -> 0 <= b /\ e <= ssize) ->
  (forall b e, In (b, e) dshared -> 0 <= b /\ e <= dsize) ->
  (covered (e2e ssize sshared dsize dshared soff doff size) x <->
   0 <= x < size /\ (0 <= x + soff < ssize /\ ~ covered sshared (x + soff))
                 /\ (0 <= x + doff < dsize /\ ~ covered dshared (x + doff))).
Proof.
  intros. unfold e2e. rewrite private_bytes_copied, !priv_blocks_complement by (auto; now apply priv_from_sorted).
  reflexivity.
Qed.
