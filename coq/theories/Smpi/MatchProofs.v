(** C28 — a send and a receive match exactly when communicator, source and tag agree up to MPI's wildcards, and the
    status then carries the sender's source and tag; the ids a receiver accepts are consecutive from its counter. *)
From SGV Require Import Base.PlainLia Smpi.Match.
Local Open Scope Z_scope.

Definition comm_ok (s r : req) : Prop := comm r = UNDEFINED \/ comm s = UNDEFINED \/ comm r = comm s.
Definition src_ok (s r : req) (g : bool) : Prop := (src r = ANY_SOURCE /\ g = true) \/ src r = src s.
Definition tag_ok (s r : req) : Prop := (tag r = ANY_TAG /\ 0 <= tag s) \/ tag r = tag s.

Lemma comm_ok_b s r :
  ((comm r =? UNDEFINED) || (comm s =? UNDEFINED) || (comm r =? comm s)) = true <-> comm_ok s r.
Proof.
  unfold comm_ok. split.
  - intros H. apply orb_prop in H as [H|H]; [apply orb_prop in H as [H|H]|]; apply Z.eqb_eq in H; auto.
  - intros [-> |[-> | ->]]; rewrite Z.eqb_refl, ?orb_true_r; reflexivity.
Qed.

Lemma src_ok_b s r g : ((src r =? ANY_SOURCE) && g || (src r =? src s)) = true <-> src_ok s r g.
Proof.
  unfold src_ok. split.
  - intros H. apply orb_prop in H as [H|H]; [apply andb_prop in H as [H ->]|]; apply Z.eqb_eq in H; auto.
  - intros [[-> ->] | ->]; rewrite Z.eqb_refl, ?orb_true_r; reflexivity.
Qed.

Lemma tag_ok_b s r : ((tag r =? ANY_TAG) && (0 <=? tag s) || (tag r =? tag s)) = true <-> tag_ok s r.
Proof.
  unfold tag_ok. split.
  - intros H. apply orb_prop in H as [H|H]; [apply andb_prop in H as [H H']; apply Z.leb_le in H'|];
      apply Z.eqb_eq in H; auto.
  - intros [[-> H] | ->]; [apply Z.leb_le in H; rewrite H|]; rewrite Z.eqb_refl, ?orb_true_r; reflexivity.
Qed.

Lemma match_iff s r g : (exists v, match_common s r g = Some v) <-> comm_ok s r /\ src_ok s r g /\ tag_ok s r.
Proof.
  rewrite <- comm_ok_b, <- src_ok_b, <- tag_ok_b. unfold match_common.
  destruct (_ && _ && _) eqn:E.
  - apply andb_prop in E as [E E3]. apply andb_prop in E as [E1 E2]. split; eauto.
  - split; [intros (v & H); discriminate | intros (H1 & H2 & H3); rewrite H1, H2, H3 in E; discriminate].
Qed.

Lemma status_exact s r g a b t : match_common s r g = Some (a, b, t) ->
  a = src s /\ b = tag s /\ (t = true <-> probe r = false /\ size r < size s).
Proof.
  intros H. destruct (proj1 (match_iff s r g) (ex_intro _ _ H)) as (_ & Hs & Ht).
  unfold match_common in H. destruct (_ && _ && _) in H; [|discriminate]. injection H as <- <- <-.
  split; [|split].
  - destruct Hs as [[-> _]| ->]; [reflexivity | destruct (_ =? _); reflexivity].
  - destruct Ht as [[-> _]| ->]; [reflexivity | destruct (_ =? _); reflexivity].
  - rewrite andb_true_iff, negb_true_iff, Z.ltb_lt. reflexivity.
Qed.

(** counters: whatever each receive sees pending and in whichever order it scans it, the accepted ids are consecutive
    from the receiver's counter, i.e. the messages of one (source,destination,tag) class are taken in send order *)
Lemma pick_is_next c scan id : pick c scan = Some id -> id = c.
Proof. intros H. apply find_some in H. apply Z.eqb_eq, H. Qed.

Lemma receive_all_in_order scans : forall c,
  receive_all c scans = map (fun k => c + Z.of_nat k) (seq 0 (length (receive_all c scans))).
Proof.
  induction scans as [|scan r IH]; intros c; cbn [receive_all]; [reflexivity|].
  destruct (pick c scan) as [id|] eqn:E; [|apply IH].
  apply pick_is_next in E. subst id. cbn [length seq map]. f_equal; [symmetry; apply Z.add_0_r|].
  rewrite IH at 1. rewrite <- seq_shift, map_map. apply map_ext. intros; lia.
Qed.

(** a message that is pending and next in send order is never passed over *)
Lemma pick_finds c scan : In c scan -> pick c scan = Some c.
Proof.
  intros H. destruct (pick c scan) as [id|] eqn:E.
  - f_equal. exact (pick_is_next _ _ _ E).
  - apply (find_none _ _ E) in H. unfold id_ok in H. rewrite Z.eqb_refl in H. discriminate.
Qed.
