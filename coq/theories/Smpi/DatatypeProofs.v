(** C30 — proofs: the objects built by Datatype::create_* have the size/lb/ub of the MPI type map and
    serialize/unserialize visit exactly the bytes of the type map, for trees of any depth.

    Every replicating constructor is read as a list of blocks (block length, byte displacement) of one old type, which
    is a struct all of whose members have that type; an object is then either the loop over its blocks ([Rel_loop]) or,
    when the blocks touch and the old types are not derived, one flat range ([Rel_tiled]). *)
From SGV Require Import Base.PlainLia Base.Facts Smpi.Datatype.
Local Open Scope Z_scope.

Lemma flat_map_map {A B C} (f : B -> list C) (g : A -> B) l :
  flat_map f (map g l) = flat_map (fun x => f (g x)) l.
Proof. induction l as [|a l IH]; cbn; [reflexivity | now rewrite IH]. Qed.

Lemma flat_map_flat_map {A B C} (f : B -> list C) (g : A -> list B) l :
  flat_map f (flat_map g l) = flat_map (fun x => flat_map f (g x)) l.
Proof. induction l as [|a l IH]; cbn; [reflexivity | now rewrite flat_map_app, IH]. Qed.

Lemma map_flat_map {A B C} (f : B -> C) (g : A -> list B) l :
  map f (flat_map g l) = flat_map (fun x => map f (g x)) l.
Proof. induction l as [|a l IH]; cbn; [reflexivity | now rewrite map_app, IH]. Qed.

Lemma flat_map_nil {A B} (l : list A) : flat_map (fun _ => @nil B) l = [].
Proof. induction l; cbn; auto. Qed.

Lemma iota_length n : Z.of_nat (length (iota n)) = Z.max 0 n.
Proof. unfold iota. rewrite map_length, seq_length. lia. Qed.

Lemma range_app p a b : 0 <= a -> 0 <= b -> range p (a + b) = range p a ++ range (p + a) b.
Proof.
  intros Ha Hb. unfold range, iota. rewrite zseq_app, map_app by assumption. f_equal.
  rewrite !map_map. apply map_ext. intros k. apply Z.add_assoc.
Qed.

Lemma range_blocks p s n : 0 <= s -> 0 <= n ->
  range p (n * s) = flat_map (fun j => range (p + j * s) s) (iota n).
Proof.
  intros Hs Hn. unfold iota. rewrite <- (Z2Nat.id n) by assumption. induction (Z.to_nat n) as [|m IH]; [reflexivity|].
  rewrite Nat2Z.inj_succ, <- Z.add_1_r, (zseq_app _ 1), flat_map_app, Z.mul_add_distr_r, range_app, IH by lia.
  change (Z.to_nat 1) with 1%nat. cbn [seq map flat_map Z.of_nat]. rewrite app_nil_r, Z.add_0_r, Z.mul_1_l. reflexivity.
Qed.

Lemma min_list_spec l : l <> [] -> In (min_list l) l /\ forall y, In y l -> min_list l <= y.
Proof.
  destruct l as [|x r]; [congruence|]. intros _. cbn [min_list].
  induction r as [|a r [IHin IHle]]; cbn [fold_right].
  - split; [now left | intros y [<-|[]]; apply Z.le_refl].
  - split.
    + destruct (Z.min_spec a (fold_right Z.min x r)) as [[_ ->]|[_ ->]]; [right; now left|].
      destruct IHin as [E|E]; [now left | right; now right].
    + intros y [<-|[<-|H]]; [specialize (IHle x (or_introl eq_refl)) | | specialize (IHle y (or_intror H))]; lia.
Qed.

Lemma min_list_le l y : In y l -> min_list l <= y.
Proof. intros H. apply min_list_spec; [intros -> | assumption]. destruct H. Qed.

Lemma min_list_char l m : In m l -> (forall y, In y l -> m <= y) -> min_list l = m.
Proof.
  intros Hin Hle. destruct (min_list_spec l) as [H1 H2]; [intros -> ; destruct Hin|].
  apply Z.le_antisymm; [apply H2, Hin | apply Hle, H1].
Qed.

Lemma max_list_neg l : max_list l = - min_list (map Z.opp l).
Proof.
  destruct l as [|x r]; [reflexivity|]. cbn [max_list min_list map].
  induction r as [|a r IH]; cbn; [lia|]. rewrite IH. lia.
Qed.

Lemma max_list_spec l : l <> [] -> In (max_list l) l /\ forall y, In y l -> y <= max_list l.
Proof.
  intros H. rewrite max_list_neg. destruct (min_list_spec (map Z.opp l)) as [Hin Hle]; [now destruct l|]. split.
  - apply in_map_iff in Hin as (z & <- & Hz). now rewrite Z.opp_involutive.
  - intros y Hy. apply Z.opp_le_mono. rewrite Z.opp_involutive. apply Hle, in_map, Hy.
Qed.

Lemma max_list_le l y : In y l -> y <= max_list l.
Proof. intros H. apply max_list_spec; [intros -> | assumption]. destruct H. Qed.

Lemma max_list_char l m : In m l -> (forall y, In y l -> y <= m) -> max_list l = m.
Proof.
  intros Hin Hle. destruct (max_list_spec l) as [H1 H2]; [intros -> ; destruct Hin|].
  apply Z.le_antisymm; [apply Hle, H1 | apply H2, Hin].
Qed.

Lemma min_list_map_char {A} (f : A -> Z) l x : In x l -> (forall y, In y l -> f x <= f y) -> min_list (map f l) = f x.
Proof.
  intros Hx Hle. apply min_list_char; [now apply in_map|].
  intros y Hy. apply in_map_iff in Hy as (z & <- & Hz). now apply Hle.
Qed.

Lemma max_list_map_char {A} (f : A -> Z) l x : In x l -> (forall y, In y l -> f y <= f x) -> max_list (map f l) = f x.
Proof.
  intros Hx Hle. apply max_list_char; [now apply in_map|].
  intros y Hy. apply in_map_iff in Hy as (z & <- & Hz). now apply Hle.
Qed.

Lemma shift_shift d e m : shift d (shift e m) = shift (e + d) m.
Proof. unfold shift. rewrite map_map. apply map_ext. intros [a b]; cbn. f_equal. lia. Qed.

Lemma shift_0 m : shift 0 m = m.
Proof. unfold shift. rewrite <- (map_id m) at 2. apply map_ext. intros [a b]; cbn. f_equal. lia. Qed.

Lemma shift_place d ds m : shift d (place ds m) = place (map (fun x => x + d) ds) m.
Proof.
  unfold place. rewrite flat_map_map. unfold shift at 1. rewrite map_flat_map.
  apply flat_map_ext. intros x. apply shift_shift.
Qed.

Lemma tmbytes_place ds m : tmbytes (place ds m) = flat_map (fun d => tmbytes (shift d m)) ds.
Proof. apply flat_map_flat_map. Qed.

Lemma place_flat_map {A} (f : A -> list Z) l m : place (flat_map f l) m = flat_map (fun x => place (f x) m) l.
Proof. apply flat_map_flat_map. Qed.

Lemma tmsize_app a b : tmsize (a ++ b) = tmsize a + tmsize b.
Proof. unfold tmsize. induction a as [|x a IH]; cbn; [reflexivity | rewrite IH; lia]. Qed.

Lemma tmsize_place ds m : tmsize (place ds m) = Z.of_nat (length ds) * tmsize m.
Proof.
  assert (Hs : forall d, tmsize (shift d m) = tmsize m).
  { intros d. unfold tmsize, shift. induction m as [|x m IH]; cbn; [reflexivity | now rewrite IH]. }
  unfold place. induction ds as [|d ds IH]; [reflexivity|].
  cbn [flat_map length]. rewrite tmsize_app, Hs, IH. lia.
Qed.

Lemma sext_mk m l u : sext (mkSem m l u) = u - l.
Proof. reflexivity. Qed.

Lemma sbytes_blockds s base n :
  sbytes s base n = flat_map (fun d => tmbytes (shift d (tm s))) (blockds base (sext s) n).
Proof. unfold sbytes, blockds. now rewrite flat_map_map. Qed.

Definition blk (old : ctype) (p n : Z) : list Z :=
  if cderived old then cser old p n else range p (n * csize old).

Record Rel (c : ctype) (s : sem) : Prop := {
  r_size : csize c = tmsize (tm s);
  r_lb : clb c = slb s;
  r_ub : cub c = sub s;
  r_ext : 0 <= sext s;
  r_pos : 0 <= csize c;
  r_plain : cderived c = false -> clb c = 0 /\ cub c = csize c /\ 0 < csize c;
  r_ser : forall base count, 0 <= count -> cser c base count = sbytes s base count;
  r_blk : forall p n, 0 <= n -> blk c p n = sbytes s p n }.

Lemma Rel_cext c s : Rel c s -> cext c = sext s.
Proof. intros R. unfold cext, sext. now rewrite (r_lb _ _ R), (r_ub _ _ R). Qed.

(** a derived object only needs r_ser *)
Lemma Rel_derived c s :
  cderived c = true -> csize c = tmsize (tm s) -> clb c = slb s -> cub c = sub s -> 0 <= sext s -> 0 <= csize c ->
  (forall base count, 0 <= count -> cser c base count = sbytes s base count) -> Rel c s.
Proof.
  intros Hd H1 H2 H3 H4 H5 H6. constructor; auto.
  - rewrite Hd. discriminate.
  - intros p n Hn. unfold blk. rewrite Hd. now apply H6.
Qed.

Lemma Rel_plain c s : Rel c s -> cderived c = false ->
  clb c = 0 /\ cub c = csize c /\ cext c = csize c /\ sext s = csize c /\ 0 < csize c.
Proof.
  intros R Hd. destruct (r_plain _ _ R Hd) as (Hl & Hu & Hp). rewrite <- (Rel_cext _ _ R). unfold cext.
  rewrite Hl, Hu, Z.sub_0_r. auto.
Qed.

Lemma blk_plain old p n : cderived old = false -> blk old p n = range p (n * csize old).
Proof. intros Hd. unfold blk. now rewrite Hd. Qed.

Lemma Rel_basic sz : 0 < sz -> Rel (CPlain sz 0 sz false) (mkSem [(0, sz)] 0 sz).
Proof.
  intros H.
  assert (Hb : forall p n, 0 <= n -> range p (n * sz) = sbytes (mkSem [(0, sz)] 0 sz) p n).
  { intros p n Hn. rewrite range_blocks by lia. apply flat_map_ext. intros j. cbn. rewrite app_nil_r, sext_mk, Z.sub_0_r. reflexivity. }
  constructor; unfold sext; cbn; try lia.
  - intros base count Hc. rewrite Z.add_0_r. now apply Hb.
  - exact Hb.
Qed.

Lemma blockds_length start ex bl : Z.of_nat (length (blockds start ex bl)) = Z.max 0 bl.
Proof. unfold blockds. rewrite map_length. apply iota_length. Qed.

Lemma block_bounds start ex bl l u : 1 <= bl -> 0 <= ex ->
  min_list (map (fun d => d + l) (blockds start ex bl)) = start + l /\
  max_list (map (fun d => d + u) (blockds start ex bl)) = start + (bl - 1) * ex + u.
Proof.
  intros Hb He. unfold blockds. rewrite !map_map. split.
  - rewrite (min_list_map_char _ _ 0); [lia | apply In_zseq; lia|]. intros k Hk. apply In_zseq in Hk. nia.
  - rewrite (max_list_map_char _ _ (bl - 1)); [lia | apply In_zseq; lia|]. intros k Hk. apply In_zseq in Hk. nia.
Qed.

Definition frel (c : Z * Z * ctype) (f : Z * Z * sem) : Prop :=
  match c, f with (bl, d, old), (bl', d', s) => bl = bl' /\ d = d' /\ 1 <= bl /\ Rel old s end.

Definition flb (c : Z * Z * ctype) : Z := match c with (bl, d, old) => d + clb old end.
Definition fub (c : Z * Z * ctype) : Z := match c with (bl, d, old) => d + (bl - 1) * cext old + cub old end.
(* the bytes of one member when the element starts at q *)
Definition fblk (q : Z) (c : Z * Z * ctype) : list Z := match c with (bl, d, old) => blk old (q + d) bl end.

Lemma cser_struct z L U cf base count :
  cser (CStruct z L U cf) base count = flat_map (fun j => flat_map (fblk (base + j * (U - L))) cf) (iota count).
Proof. reflexivity. Qed.

Lemma frel_bounds c f : frel c f -> slb (field_sem f) = flb c /\ sub (field_sem f) = fub c.
Proof.
  destruct c as [[bl d] old], f as [[bl' d'] s]. intros (-> & -> & Hb & R). cbn.
  destruct (block_bounds d' (sext s) bl' (slb s) (sub s) Hb (r_ext _ _ R)) as [-> ->].
  rewrite (Rel_cext _ _ R), (r_lb _ _ R), (r_ub _ _ R). split; reflexivity.
Qed.

Lemma frel_bytes q c f : frel c f -> tmbytes (shift q (tm (field_sem f))) = fblk q c.
Proof.
  destruct c as [[bl d] old], f as [[bl' d'] s]. intros (-> & -> & Hb & R).
  cbn [field_sem replicate tm fblk]. rewrite shift_place, tmbytes_place, (r_blk _ _ R), sbytes_blockds by lia.
  unfold blockds. rewrite !map_map, !flat_map_map. apply flat_map_ext. intros k. do 2 f_equal. lia.
Qed.

Lemma Forall2_map_eq {A B C} (R : A -> B -> Prop) (f : A -> C) (g : B -> C) l1 l2 :
  Forall2 R l1 l2 -> (forall a b, R a b -> f a = g b) -> map f l1 = map g l2.
Proof. induction 1; intros H'; cbn; [reflexivity|]. f_equal; auto. Qed.

Lemma sem_struct_bounds cf sf : Forall2 frel cf sf ->
  slb (sem_struct sf) = min_list (map flb cf) /\ sub (sem_struct sf) = max_list (map fub cf).
Proof.
  intros F. cbn [sem_struct slb sub].
  split; f_equal; symmetry; apply (Forall2_map_eq frel _ _ _ _ F); intros a b Hab; now destruct (frel_bounds a b Hab).
Qed.

Lemma struct_size_spec cf sf : Forall2 frel cf sf -> struct_size cf = tmsize (tm (sem_struct sf)) /\ 0 <= struct_size cf.
Proof.
  cbn [sem_struct tm]. induction 1 as [|[[bl d] old] [[bl' d'] s] cf sf (-> & -> & Hb & R) F [IH IH']]; [now split|].
  cbn [flat_map]. rewrite tmsize_app, <- IH. cbn [field_sem replicate tm]. rewrite tmsize_place, <- (r_size _ _ R).
  pose proof (blockds_length d' (sext s) bl'). pose proof (r_pos _ _ R).
  change (struct_size ((bl', d', old) :: cf)) with (bl' * csize old + struct_size cf). split; nia.
Qed.

Lemma struct_ext_nonneg cf sf : Forall2 frel cf sf -> cf <> [] -> min_list (map flb cf) <= max_list (map fub cf).
Proof.
  intros F Hne. destruct F as [|c f cf sf Hcf F]; [congruence|].
  pose proof (min_list_le (map flb (c :: cf)) (flb c) (or_introl eq_refl)).
  pose proof (max_list_le (map fub (c :: cf)) (fub c) (or_introl eq_refl)).
  destruct c as [[bl d] old], f as [[bl' d'] s]. destruct Hcf as (-> & -> & Hb & R).
  pose proof (r_ext _ _ R). pose proof (Rel_cext _ _ R). cbn [flb fub] in *. unfold cext in *. nia.
Qed.

Lemma struct_ser cf sf base count : Forall2 frel cf sf ->
  sbytes (sem_struct sf) base count =
  flat_map (fun j => flat_map (fblk (base + j * sext (sem_struct sf))) cf) (iota count).
Proof.
  intros F. apply flat_map_ext. intros j. cbn [sem_struct tm]. generalize (base + j * sext (sem_struct sf)) as q.
  intros q. induction F as [|c f cf sf Hcf F IH]; [reflexivity|].
  cbn [flat_map]. unfold shift, tmbytes in *. rewrite map_app, flat_map_app, IH. f_equal. now apply frel_bytes.
Qed.

(** the object that loops over its members, as Type_Struct::serialize does *)
Lemma Rel_loop c cf sf : Forall2 frel cf sf -> cf <> [] -> cderived c = true -> csize c = struct_size cf ->
  clb c = min_list (map flb cf) -> cub c = max_list (map fub cf) ->
  (forall base count, 0 <= count ->
     cser c base count = flat_map (fun j => flat_map (fblk (base + j * cext c)) cf) (iota count)) ->
  Rel c (sem_struct sf).
Proof.
  intros F Hne Hd Hsz Hlb Hub Hser. destruct (sem_struct_bounds cf sf F) as [Hl Hu].
  destruct (struct_size_spec cf sf F) as [Hs Hp]. pose proof (struct_ext_nonneg cf sf F Hne).
  assert (He : cext c = sext (sem_struct sf)) by (unfold cext, sext; congruence).
  apply Rel_derived; try congruence.
  - rewrite <- He. unfold cext. lia.
  - intros base count Hc. rewrite Hser, He by assumption. symmetry. now apply struct_ser.
Qed.

(** members of non-derived types that touch each other tile one contiguous range *)
Definition fdisp (c : Z * Z * ctype) : Z := match c with (_, d, _) => d end.
Definition fold_t (c : Z * Z * ctype) : ctype := match c with (_, _, o) => o end.
Definition first_disp (cf : list (Z * Z * ctype)) : Z := match cf with [] => 0 | c :: _ => fdisp c end.

Lemma tiles cf sf : Forall2 frel cf sf -> cf <> [] ->
  (forall c, In c cf -> cderived (fold_t c) = false) -> struct_chain cf = true ->
  (forall q, flat_map (fblk q) cf = range (q + first_disp cf) (struct_size cf)) /\
  min_list (map flb cf) = first_disp cf /\ max_list (map fub cf) = first_disp cf + struct_size cf /\
  0 < struct_size cf.
Proof.
  induction 1 as [|[[bl d] old] [[bl' d'] s] cf sf (-> & -> & Hb & R) F IH]; intros Hne Hnd Hch; [congruence|].
  assert (Hd : cderived old = false) by apply (Hnd _ (or_introl eq_refl)).
  destruct (Rel_plain _ _ R Hd) as (Hl0 & Hu0 & He0 & _ & Hs0).
  assert (HP : 0 < bl' * csize old) by (apply Z.mul_pos_pos; lia).
  assert (Hflb : flb (bl', d', old) = d') by (cbn; lia).
  assert (Hfub : fub (bl', d', old) = d' + bl' * csize old) by (cbn; rewrite He0, Hu0; ring).
  change (struct_size ((bl', d', old) :: cf)) with (bl' * csize old + struct_size cf).
  cbn [first_disp fdisp flat_map fblk map]. rewrite Hflb, Hfub. clear Hflb Hfub Hl0 Hu0 He0 Hs0 R.
  destruct cf as [|c2 cf'].
  - cbn. rewrite Z.add_0_r. repeat split; [intros q; rewrite blk_plain by assumption; apply app_nil_r | exact HP].
  - assert (Hd2 : d' + bl' * csize old = fdisp c2 /\ struct_chain (c2 :: cf') = true).
    { destruct c2 as [[bl2 d2] o2]. cbn in Hch. apply andb_prop in Hch as [E Hc]. split; [cbn; lia | exact Hc]. }
    destruct Hd2 as [Hd2 Hch2].
    destruct IH as (I1 & I2 & I3 & I4); [congruence | intros; apply Hnd; now right | assumption |].
    cbn [first_disp] in I1, I2, I3. set (r := c2 :: cf') in *.
    assert (Hr : map fub r <> []) by (subst r; discriminate). repeat split; [| | | lia].
    + intros q. rewrite I1, blk_plain, range_app by (assumption || lia). do 2 f_equal. lia.
    + apply min_list_char; [now left|]. intros y [<-|Hy]; [lia | pose proof (min_list_le _ _ Hy); lia].
    + apply max_list_char.
      * right. replace (d' + _) with (max_list (map fub r)) by lia. now apply max_list_spec.
      * intros y [<-|Hy]; [lia | pose proof (max_list_le _ _ Hy); lia].
Qed.

(** the object that copies its members as one range *)
Lemma Rel_tiled c cf sf : Forall2 frel cf sf -> cf <> [] ->
  (forall c, In c cf -> cderived (fold_t c) = false) -> struct_chain cf = true ->
  cderived c = true -> csize c = struct_size cf -> clb c = min_list (map flb cf) -> cub c = clb c + csize c ->
  (forall base count, 0 <= count -> cser c base count = range (base + clb c) (count * csize c)) ->
  Rel c (sem_struct sf).
Proof.
  intros F Hne Hnd Hch Hd Hsz Hlb Hub Hser.
  destruct (tiles cf sf F Hne Hnd Hch) as (T1 & TL & TU & Tp).
  apply (Rel_loop c cf sf); try assumption; [congruence|].
  intros base count Hc. rewrite Hser, range_blocks by lia. apply flat_map_ext. intros j.
  rewrite T1, <- TL, <- Hlb, <- Hsz. unfold cext. rewrite Hub. f_equal. lia.
Qed.

Lemma upd_bounds_minmax lb ub bl d old :
  upd_bounds (lb, ub) bl d (cext old) (clb old) (cub old) = (Z.min lb (flb (bl, d, old)), Z.max ub (fub (bl, d, old))).
Proof.
  cbn. f_equal; [destruct (Z.ltb_spec (d + clb old) lb) | destruct (Z.ltb_spec ub (d + (bl - 1) * cext old + cub old))]; lia.
Qed.

Lemma struct_bounds_fold fields : forall lb ub,
  struct_bounds fields (lb, ub) = (fold_left Z.min (map flb fields) lb, fold_left Z.max (map fub fields) ub).
Proof.
  induction fields as [|[[bl d] old] r IH]; intros lb ub; [reflexivity|].
  cbn [struct_bounds]. rewrite upd_bounds_minmax. apply IH.
Qed.

Definition struct_init (fields : list (Z * Z * ctype)) : Z * Z :=
  match fields with [] => (0, 0) | (bl, d, old) :: _ => (d + clb old, d + (bl - 1) * cext old + cub old) end.

(* the loop of create_struct starts from the bounds of the first member and folds [Z.min]/[Z.max] from the left;
   [min_list]/[max_list] fold from the right *)
Lemma struct_bounds_minmax fields : fields <> [] ->
  struct_bounds fields (struct_init fields) = (min_list (map flb fields), max_list (map fub fields)).
Proof.
  destruct fields as [|f0 r]; [congruence|]. intros _.
  replace (struct_init (f0 :: r)) with (flb f0, fub f0) by (destruct f0 as [[bl d] old]; reflexivity).
  rewrite struct_bounds_fold. cbn [map fold_left min_list max_list]. rewrite Z.min_id, Z.max_id. f_equal.
  - apply fold_symmetric; [exact Z.min_assoc | intros; apply Z.min_comm].
  - apply fold_symmetric; [exact Z.max_assoc | intros; apply Z.max_comm].
Qed.

Lemma Rel_struct cf sf : Forall2 frel cf sf -> cf <> [] -> Rel (create_struct cf) (sem_struct sf).
Proof.
  intros F Hne. unfold create_struct. fold (struct_init cf). rewrite struct_bounds_minmax by assumption.
  destruct (struct_chain cf && _) eqn:Hc.
  - apply andb_prop in Hc as [Hch Hnd]. destruct (struct_size_spec cf sf F) as [_ Hp].
    assert (Hnd' : forall c, In c cf -> cderived (fold_t c) = false).
    { intros [[bl d] o] Hc. apply (proj1 (forallb_forall _ _) Hnd) in Hc. now apply negb_true_iff. }
    destruct (tiles cf sf F Hne Hnd' Hch) as (_ & _ & _ & Tp).
    unfold create_contiguous. cbn [cderived c_char]. rewrite (proj2 (Z.ltb_lt _ _) Tp).
    apply (Rel_tiled _ cf sf); cbn [cderived csize clb cub c_char cser]; try assumption; try reflexivity; [apply Z.mul_1_r|].
    intros base count _. f_equal. lia.
  - now apply (Rel_loop _ cf sf).
Qed.

(** a list of blocks of [old] is a struct all of whose members have type [old] *)
Definition asf (old : ctype) (blocks : list (Z * Z)) : list (Z * Z * ctype) := map (fun b => (fst b, snd b, old)) blocks.
Definition ass (s : sem) (blocks : list (Z * Z)) : list (Z * Z * sem) := map (fun b => (fst b, snd b, s)) blocks.

Lemma hidx_bounds_minmax old blocks : blocks <> [] ->
  hidx_bounds (cext old) (clb old) (cub old) blocks (first_bounds blocks (cext old) (clb old) (cub old)) =
  (min_list (map flb (asf old blocks)), max_list (map fub (asf old blocks))).
Proof.
  intros Hne. rewrite <- struct_bounds_minmax by (destruct blocks; [congruence | discriminate]).
  replace (first_bounds _ _ _ _) with (struct_init (asf old blocks)) by (destruct blocks as [|[bl d] r]; reflexivity).
  generalize (struct_init (asf old blocks)) as lbub. clear Hne.
  induction blocks as [|[bl d] r IH]; intros lbub; cbn; [reflexivity | apply IH].
Qed.

Lemma chain_ok_struct old blocks : chain_ok (fun bl => csize old * bl) blocks = struct_chain (asf old blocks).
Proof.
  induction blocks as [|[bl d] r IH]; [reflexivity|]. destruct r as [|[bl2 d2] r']; [reflexivity|].
  cbn [chain_ok asf map struct_chain fst snd] in *. now rewrite IH.
Qed.

Lemma sum_bl_struct old blocks : sum_bl blocks * csize old = struct_size (asf old blocks).
Proof.
  induction blocks as [|[bl d] r IH]; [reflexivity|].
  change (struct_size (asf old ((bl, d) :: r))) with (bl * csize old + struct_size (asf old r)). rewrite <- IH.
  apply Z.mul_add_distr_r.
Qed.

Lemma frel_asf old s blocks : Rel old s -> Forall (fun b => 1 <= fst b) blocks -> Forall2 frel (asf old blocks) (ass s blocks).
Proof. intros R. induction 1 as [|[bl d] r Hb F IH]; cbn; constructor; cbn; auto. Qed.

Lemma min_list_flat_map {A} (f : A -> list Z) l : l <> [] -> (forall x, In x l -> f x <> []) ->
  min_list (flat_map f l) = min_list (map (fun x => min_list (f x)) l).
Proof.
  intros Hl Hf. destruct (min_list_spec (map (fun x => min_list (f x)) l)) as [Hin Hle]; [now destruct l|].
  apply in_map_iff in Hin as (x & Hx & Hin). apply min_list_char.
  - rewrite <- Hx. apply in_flat_map. exists x. split; [assumption|]. now apply min_list_spec, Hf.
  - intros y Hy. apply in_flat_map in Hy as (z & Hz & Hy).
    apply Z.le_trans with (min_list (f z)); [apply Hle, (in_map (fun x => min_list (f x))), Hz | apply min_list_le, Hy].
Qed.

Lemma max_list_flat_map {A} (f : A -> list Z) l : l <> [] -> (forall x, In x l -> f x <> []) ->
  max_list (flat_map f l) = max_list (map (fun x => max_list (f x)) l).
Proof.
  intros Hl Hf. rewrite !max_list_neg, map_flat_map, map_map, min_list_flat_map; try assumption.
  - do 2 f_equal. apply map_ext. intros x. rewrite max_list_neg. symmetry. apply Z.opp_involutive.
  - intros x Hx E. apply map_eq_nil in E. now apply (Hf x).
Qed.

Lemma hidx_spec_struct s blocks : blocks <> [] -> Forall (fun b => 1 <= fst b) blocks ->
  sem_struct (ass s blocks) = replicate (ds_hindexed (sext s) blocks) s.
Proof.
  intros Hne Hb. unfold sem_struct, replicate, ass, ds_hindexed. rewrite !map_map, !map_flat_map, flat_map_map.
  assert (Hf : forall l x, In x blocks -> map (fun d => d + l) (blockds (snd x) (sext s) (fst x)) <> []).
  { intros l x Hx E. apply map_eq_nil, (f_equal (@length Z)) in E. apply (proj1 (Forall_forall _ _) Hb) in Hx.
    pose proof (blockds_length (snd x) (sext s) (fst x)) as Hl. rewrite E in Hl. cbn in Hl. lia. }
  rewrite min_list_flat_map, max_list_flat_map, place_flat_map by auto. reflexivity.
Qed.

Section Blocks.
Variables (old : ctype) (s : sem) (bb : list (Z * Z)) (c : ctype).
Hypotheses (R : Rel old s) (Hne : bb <> []) (Hb : Forall (fun b => 1 <= fst b) bb).
Hypotheses (Hd : cderived c = true) (Hsz : csize c = sum_bl bb * csize old) (Hlb : clb c = min_list (map flb (asf old bb))).

Lemma Rel_blocks_loop : cub c = max_list (map fub (asf old bb)) ->
  (forall base count, 0 <= count ->
     cser c base count = flat_map (fun j => flat_map (fblk (base + j * cext c)) (asf old bb)) (iota count)) ->
  Rel c (replicate (ds_hindexed (sext s) bb) s).
Proof.
  intros Hub Hser. rewrite <- hidx_spec_struct by assumption.
  apply (Rel_loop c (asf old bb)); try assumption; [now apply frel_asf | now destruct bb | now rewrite <- sum_bl_struct].
Qed.

Lemma Rel_blocks_flat : cderived old = false -> chain_ok (fun bl => csize old * bl) bb = true ->
  cub c = clb c + csize c ->
  (forall base count, 0 <= count -> cser c base count = range (base + clb c) (count * csize c)) ->
  Rel c (replicate (ds_hindexed (sext s) bb) s).
Proof.
  intros Hdo Hch Hub Hser. rewrite <- hidx_spec_struct by assumption.
  apply (Rel_tiled c (asf old bb)); try assumption;
    [now apply frel_asf | now destruct bb | | now rewrite <- chain_ok_struct | now rewrite <- sum_bl_struct].
  intros f Hf. apply in_map_iff in Hf as (b & <- & _). exact Hdo.
Qed.
End Blocks.

Lemma cser_hidx sz L U blocks old base count :
  cser (CHidx sz L U blocks old) base count =
  flat_map (fun j => flat_map (fblk (base + j * (U - L))) (asf old blocks)) (iota count).
Proof. cbn [cser]. apply flat_map_ext. intros j. unfold asf. rewrite flat_map_map. reflexivity. Qed.

Lemma create_contiguous_plain n old lb : cderived old = false -> 0 < n ->
  create_contiguous n old lb = CContig (n * csize old) lb (lb + n * csize old) n old.
Proof. intros Hd Hn. unfold create_contiguous. now rewrite Hd, (proj2 (Z.ltb_lt 0 n) Hn). Qed.

Lemma sum_bl_pos bb : bb <> [] -> Forall (fun b => 1 <= fst b) bb -> 0 < sum_bl bb.
Proof.
  intros Hne Hb. assert (H : Z.of_nat (length bb) <= sum_bl bb).
  { clear Hne. induction Hb as [|b r H1 _ IH]; [reflexivity|].
    change (sum_bl (b :: r)) with (fst b + sum_bl r). cbn [length]. lia. }
  destruct bb; [congruence | cbn [length] in H; lia].
Qed.

(** what create_hindexed and create_indexed build for the byte blocks [bb]: a Type_Contiguous object when their test
    [contig] (of the lower bound) says that the blocks touch and the old type is not derived, else the Type_Hindexed *)
Lemma Rel_hidx_obj old s bb n (contig : Z -> bool) : Rel old s -> bb <> [] -> Forall (fun b => 1 <= fst b) bb ->
  n = sum_bl bb ->
  (forall lb, contig lb = true -> cderived old = false /\ chain_ok (fun bl => csize old * bl) bb = true) ->
  Rel (let '(lb, ub) := hidx_bounds (cext old) (clb old) (cub old) bb (first_bounds bb (cext old) (clb old) (cub old)) in
       if contig lb then create_contiguous n old lb else CHidx (n * csize old) lb ub bb old)
      (replicate (ds_hindexed (sext s) bb) s).
Proof.
  intros R Hne Hb -> Hc. rewrite hidx_bounds_minmax by assumption. destruct (contig _) eqn:E.
  - destruct (Hc _ E) as [Hd Hch]. rewrite create_contiguous_plain by auto using sum_bl_pos.
    apply (Rel_blocks_flat old); try assumption; try reflexivity.
    intros base count _. cbn [cser clb csize]. f_equal. ring.
  - apply (Rel_blocks_loop old); try assumption; try reflexivity. intros. apply cser_hidx.
Qed.

Lemma Rel_hindexed old s bb : Rel old s -> bb <> [] -> Forall (fun b => 1 <= fst b) bb ->
  Rel (create_hindexed bb old) (replicate (ds_hindexed (sext s) bb) s).
Proof.
  intros R Hne Hb. apply (Rel_hidx_obj old s bb _ (fun lb => _ && negb (cderived old || negb (lb =? 0)))); auto.
  intros lb H. apply andb_prop in H as [Hch Hn]. apply negb_true_iff, orb_false_iff in Hn. now split.
Qed.

Lemma sum_bl_scale ex blocks : sum_bl (map (fun b => (fst b, snd b * ex)) blocks) = sum_bl blocks.
Proof. induction blocks as [|[bl d] r IH]; [reflexivity|]. unfold sum_bl in *. cbn. now rewrite IH. Qed.

Lemma chain_ok_scale sz blocks : chain_ok (fun bl => bl) blocks = true ->
  chain_ok (fun bl => sz * bl) (map (fun b => (fst b, snd b * sz)) blocks) = true.
Proof.
  induction blocks as [|[bl d] r IH]; [reflexivity|]. destruct r as [|[bl2 d2] r']; [reflexivity|].
  cbn [chain_ok map fst snd] in *. intros H. apply andb_prop in H as [E H]. apply Z.eqb_eq in E. subst d2.
  rewrite IH by assumption. rewrite andb_true_r. apply Z.eqb_eq. ring.
Qed.

Lemma Rel_indexed old s blocks : Rel old s -> blocks <> [] -> Forall (fun b => 1 <= fst b) blocks ->
  Rel (create_indexed blocks old) (replicate (ds_hindexed (sext s) (map (fun b => (fst b, snd b * sext s)) blocks)) s).
Proof.
  intros R Hne Hb.
  replace (map _ blocks) with (map (fun b => (fst b, snd b * cext old)) blocks) by now rewrite (Rel_cext _ _ R).
  apply (Rel_hidx_obj old s _ _ (fun _ => _ && negb (cderived old))); auto.
  - destruct blocks; [congruence | discriminate].
  - now apply Forall_map.
  - symmetry. apply sum_bl_scale.
  - intros _ H. apply andb_prop in H as [Hch Hd]. apply negb_true_iff in Hd.
    destruct (Rel_plain _ _ R Hd) as (_ & _ & -> & _). split; [assumption | now apply chain_ok_scale].
Qed.

(** an hvector is n blocks of bl elements, block i at byte i * stride *)
Definition hv_blocks (n bl stride : Z) : list (Z * Z) := map (fun i => (bl, i * stride)) (iota n).

Lemma ds_hvector_blocks ex n bl stride : ds_hvector ex n bl stride = ds_hindexed ex (hv_blocks n bl stride).
Proof. unfold ds_hindexed, hv_blocks. rewrite flat_map_map. reflexivity. Qed.

Lemma cser_hvec sz L U n bl stride old base count :
  cser (CHvec sz L U n bl stride old) base count =
  flat_map (fun j => flat_map (fblk (base + j * (U - L))) (asf old (hv_blocks n bl stride))) (iota count).
Proof. cbn [cser]. apply flat_map_ext. intros j. unfold asf, hv_blocks. rewrite !flat_map_map. reflexivity. Qed.

Lemma hv_blocks_bounds old n bl stride : 1 <= n -> 0 <= stride ->
  min_list (map flb (asf old (hv_blocks n bl stride))) = clb old /\
  max_list (map fub (asf old (hv_blocks n bl stride))) = (n - 1) * stride + (bl - 1) * cext old + cub old.
Proof.
  intros Hn Hs. unfold asf, hv_blocks. rewrite !map_map. cbn [flb fub fst snd]. split.
  - rewrite (min_list_map_char _ _ 0); [reflexivity | apply In_zseq; lia|]. intros i Hi. apply In_zseq in Hi. nia.
  - rewrite (max_list_map_char _ _ (n - 1)); [reflexivity | apply In_zseq; lia|]. intros i Hi. apply In_zseq in Hi. nia.
Qed.

Lemma hv_blocks_sum n bl stride : 0 <= n -> sum_bl (hv_blocks n bl stride) = bl * n.
Proof.
  intros Hn. replace n with (Z.of_nat (length (iota n))) at 2 by (rewrite iota_length; lia). unfold hv_blocks.
  induction (iota n) as [|i l IH]; [symmetry; apply Z.mul_0_r|].
  change (bl + sum_bl (map (fun i => (bl, i * stride)) l) = bl * Z.of_nat (S (length l))). rewrite IH. lia.
Qed.

Lemma hv_blocks_chain step n bl stride : step bl = stride -> chain_ok step (hv_blocks n bl stride) = true.
Proof.
  intros E. unfold hv_blocks, iota. generalize 0%nat as a.
  induction (Z.to_nat n) as [|k IH]; intros a; [reflexivity|]. destruct k; [reflexivity|].
  specialize (IH (S a)). cbn [seq map chain_ok] in IH |- *. rewrite IH, andb_true_r. apply Z.eqb_eq. lia.
Qed.

Lemma Rel_hvector old s n bl stride :
  Rel old s -> 1 <= n -> 1 <= bl -> 0 <= stride ->
  Rel (create_hvector n bl stride old) (replicate (ds_hvector (sext s) n bl stride) s).
Proof.
  intros R Hn Hb Hs. rewrite ds_hvector_blocks. destruct (hv_blocks_bounds old n bl stride Hn Hs) as [HL HU].
  assert (Hne : hv_blocks n bl stride <> []).
  { intros E. apply map_eq_nil in E. pose proof (proj2 (In_zseq n 0) ltac:(lia) : In 0 (iota n)) as H0. now rewrite E in H0. }
  assert (Hbl : Forall (fun b => 1 <= fst b) (hv_blocks n bl stride)) by (apply Forall_map, Forall_forall; intros; exact Hb).
  assert (Hsz : csize old * bl * n = sum_bl (hv_blocks n bl stride) * csize old) by (rewrite hv_blocks_sum by lia; ring).
  unfold create_hvector. rewrite (proj2 (Z.ltb_lt 0 n)) by lia.
  destruct (cderived old || negb (stride =? bl * cext old)) eqn:Hbr.
  - apply (Rel_blocks_loop old); cbn [cderived csize clb cub]; auto. intros. apply cser_hvec.
  - (* contiguous: old is not derived and the blocks touch *)
    apply orb_false_iff in Hbr as [Hd Hst]. apply negb_false_iff, Z.eqb_eq in Hst.
    destruct (Rel_plain _ _ R Hd) as (Hl0 & _ & He & _).
    apply (Rel_blocks_flat old); cbn [cderived csize clb cub cser]; auto; [congruence|].
    apply hv_blocks_chain. rewrite Hst, He. apply Z.mul_comm.
Qed.

Lemma create_vector_hvector old s n bl stride : Rel old s ->
  create_vector n bl stride old = create_hvector n bl (stride * cext old) old.
Proof.
  intros R. unfold create_vector, create_hvector.
  destruct (cderived old) eqn:Hd; cbn [orb].
  - f_equal. destruct (0 <? n); lia.
  - destruct (Rel_plain _ _ R Hd) as (_ & _ & -> & _ & Hp).
    destruct (Z.eqb_spec stride bl) as [->|Hne].
    + rewrite Z.eqb_refl. cbn [negb]. f_equal. ring.
    + rewrite (proj2 (Z.eqb_neq _ _)) by nia. cbn [negb]. f_equal. destruct (0 <? n); lia.
Qed.

Lemma Rel_vector old s n bl stride :
  Rel old s -> 1 <= n -> 1 <= bl -> 0 <= stride ->
  Rel (create_vector n bl stride old) (replicate (ds_hvector (sext s) n bl (stride * sext s)) s).
Proof.
  intros R Hn Hb Hs. rewrite (create_vector_hvector old s), (Rel_cext _ _ R) by assumption.
  apply Rel_hvector; auto. pose proof (r_ext _ _ R). nia.
Qed.

Lemma ds_hvector_bl1 X n stride : ds_hvector X n 1 stride = blockds 0 stride n.
Proof.
  unfold ds_hvector, blockds. change (iota 1) with [0]. cbn [map].
  apply flat_map_one, Forall_forall. intros i _. f_equal. lia.
Qed.

Lemma Rel_contiguous old s n :
  Rel old s -> 1 <= n -> Rel (create_contiguous n old 0) (replicate (blockds 0 (sext s) n) s).
Proof.
  intros R Hn. destruct (cderived old) eqn:Hd.
  - unfold create_contiguous. rewrite Hd, <- (ds_hvector_bl1 (sext s)), (Rel_cext _ _ R).
    apply Rel_hvector; auto; [lia | apply (r_ext _ _ R)].
  - (* Type_Contiguous over a type that is not derived: one block of n elements *)
    rewrite create_contiguous_plain by (auto; lia).
    replace (blockds 0 (sext s) n) with (ds_hindexed (sext s) [(n, 0)]) by apply app_nil_r.
    destruct (Rel_plain _ _ R Hd) as (Hl0 & _).
    apply (Rel_blocks_flat old); cbn [cderived csize clb cub cser]; auto; try discriminate.
    + cbn [sum_bl fold_right fst]. now rewrite Z.add_0_r.
    + intros base count _. f_equal. ring.
Qed.

Lemma Rel_resized old s lb ext : Rel old s -> 0 <= ext ->
  Rel (create_resized old lb ext) (mkSem (tm s) lb (lb + ext)).
Proof.
  intros R He. apply Rel_derived; cbn [create_resized csize clb cub cderived tm slb sub]; try reflexivity.
  - apply (r_size _ _ R).
  - rewrite sext_mk. lia.
  - apply (r_pos _ _ R).
  - (* the two markers contribute no byte, the member in the middle is one element of the old type *)
    intros base count Hc. unfold create_resized. rewrite cser_struct. apply flat_map_ext. intros j.
    cbn [flat_map fblk]. rewrite (r_blk _ _ R) by lia.
    change (blk c_marker) with (fun p n : Z => range p (n * 0)). cbn beta. rewrite Z.mul_0_r.
    unfold sbytes. change (iota 1) with [0]. cbn [range iota Z.to_nat seq map flat_map app tm].
    rewrite !app_nil_r, sext_mk. do 2 f_equal. lia.
Qed.

Lemma place_shift ds d m : place ds (shift d m) = shift d (place ds m).
Proof.
  rewrite shift_place. unfold place. rewrite flat_map_map. apply flat_map_ext. intros x.
  rewrite shift_shift. f_equal. apply Z.add_comm.
Qed.

Lemma place_blockds_start a E n m : place (blockds a E n) m = shift a (place (blockds 0 E n) m).
Proof. rewrite shift_place. f_equal. unfold blockds. rewrite map_map. apply map_ext. intros; lia. Qed.

Lemma place_blockds a E n m : place (blockds a E n) m = flat_map (fun i => shift (a + i * E) m) (iota n).
Proof. unfold place, blockds. apply flat_map_map. Qed.

Definition dimok (d : Z * Z * Z) : Prop := let '(sz, sb, st) := d in 1 <= sb /\ 0 <= st /\ st + sb <= sz.

(** invariant of the loop of create_subarray: the object built so far, moved to index lb, is the subarray of the
    dimensions handled so far *)
Definition sub_inv (ex : Z) (t : ctype) (size lb : Z) (sk : sem) : Prop :=
  exists v, Rel t v /\ tm sk = shift (lb * ex) (tm v) /\ slb sk = 0 /\ sub sk = size * ex /\ 0 <= size.

Lemma sub_inv_step ex t size lb sk sz sb st : 0 <= ex -> sub_inv ex t size lb sk -> dimok (sz, sb, st) ->
  sub_inv ex (create_hvector sb 1 (size * ex) t) (size * sz) (lb + size * st) (sub1 (sz, sb, st) sk).
Proof.
  intros Hex (v & R & Htm & Hl & Hu & Hs) (Hsb & Hst & Hsz).
  exists (replicate (ds_hvector (sext v) sb 1 (size * ex)) v).
  assert (HE : sext sk = size * ex) by (unfold sext; lia).
  split; [apply Rel_hvector; auto; nia|]. cbn [sub1 tm slb sub replicate]. rewrite HE. repeat split; try nia.
  rewrite Htm, place_shift, place_blockds_start, shift_shift, ds_hvector_bl1. f_equal. lia.
Qed.

Lemma sub_inv_fold ex rest : 0 <= ex -> Forall dimok rest -> forall t size lb sk, sub_inv ex t size lb sk ->
  let '(t', size', lb') :=
    fold_left (fun acc d => match acc, d with (t, size, lb), (sz, sb, st) =>
                              (create_hvector sb 1 (size * ex) t, size * sz, lb + size * st) end) rest (t, size, lb) in
  sub_inv ex t' size' lb' (fold_left (fun s d => sub1 d s) rest sk).
Proof.
  intros Hex. induction 1 as [|[[sz sb] st] rest Hd F IH]; intros t size lb sk Hinv; cbn [fold_left]; [exact Hinv|].
  apply IH. now apply sub_inv_step.
Qed.

Lemma sub_inv_finish ex t size lb sk : 0 <= ex -> sub_inv ex t size lb sk -> Rel (sub_finish t size lb ex) sk.
Proof.
  intros Hex (v & R & Htm & Hl & Hu & Hs). unfold sub_finish.
  pose proof (Rel_hindexed t v [(1, lb * ex)] R ltac:(discriminate) ltac:(constructor; [apply Z.le_refl | constructor])) as RH.
  pose proof (Rel_resized _ _ 0 (size * ex) RH ltac:(nia)) as RR.
  destruct sk as [m l u]. cbn [tm slb sub] in Htm, Hl, Hu. subst m l u.
  replace (shift (lb * ex) (tm v)) with (tm (replicate (ds_hindexed (sext v) [(1, lb * ex)]) v)); [exact RR|].
  cbn [replicate tm]. unfold ds_hindexed, blockds, place. cbn [flat_map fst snd]. change (iota 1) with [0].
  cbn [map flat_map app]. rewrite app_nil_r. f_equal. lia.
Qed.

Lemma sub_inv_1 old s sz sb st : Rel old s -> dimok (sz, sb, st) ->
  sub_inv (sext s) (create_contiguous sb old 0) sz st (sub1 (sz, sb, st) s).
Proof.
  intros R (Hsb & Hst & Hsz). exists (replicate (blockds 0 (sext s) sb) s).
  split; [now apply Rel_contiguous|]. cbn [sub1 tm slb sub replicate]. repeat split; try lia.
  apply place_blockds_start.
Qed.

Lemma sub_inv_2 old s sz0 sb0 st0 sz1 sb1 st1 : Rel old s -> dimok (sz0, sb0, st0) -> dimok (sz1, sb1, st1) ->
  sub_inv (sext s) (create_vector sb1 sb0 sz0 old) (sz0 * sz1) (st0 + st1 * sz0) (sub1 (sz1, sb1, st1) (sub1 (sz0, sb0, st0) s)).
Proof.
  intros R (Hsb0 & Hst0 & Hsz0) (Hsb1 & Hst1 & Hsz1).
  exists (replicate (ds_hvector (sext s) sb1 sb0 (sz0 * sext s)) s).
  split; [apply Rel_vector; auto; lia|].
  assert (HE : sext (sub1 (sz0, sb0, st0) s) = sz0 * sext s) by (cbn [sub1]; rewrite sext_mk; lia).
  set (s1 := sub1 (sz0, sb0, st0) s) in *. cbn [sub1]. rewrite HE. subst s1.
  cbn [sub1 tm slb sub replicate]. repeat split; try nia.
  rewrite (place_blockds_start (st0 * sext s)), place_shift, (place_blockds_start (st1 * (sz0 * sext s))), shift_shift.
  replace (st1 * (sz0 * sext s) + st0 * sext s) with ((st0 + st1 * sz0) * sext s) by lia. f_equal.
  unfold ds_hvector. rewrite place_flat_map, place_blockds.
  apply flat_map_ext. intros i. rewrite (place_blockds_start (i * (sz0 * sext s))). reflexivity.
Qed.

Lemma Rel_subarray old s c_order dims : Rel old s -> dims <> [] -> Forall dimok dims ->
  Rel (create_subarray c_order dims old) (fold_left (fun s d => sub1 d s) (if c_order then rev dims else dims) s).
Proof.
  intros R Hne Hd. unfold create_subarray. rewrite (Rel_cext _ _ R).
  set (ds := if c_order then rev dims else dims).
  assert (Hds : Forall dimok ds) by (subst ds; destruct c_order; [apply Forall_rev|]; assumption).
  assert (Hne' : ds <> []).
  { subst ds. destruct c_order; [|assumption]. intros E. apply (f_equal (@rev _)) in E. rewrite rev_involutive in E. now apply Hne. }
  clearbody ds. pose proof (r_ext _ _ R) as Hex.
  destruct ds as [|[[sz0 sb0] st0] [|[[sz1 sb1] st1] rest]]; [congruence | |]; cbn [fold_left].
  - apply sub_inv_finish; [assumption | apply sub_inv_1; [assumption | exact (Forall_inv Hds)]].
  - pose proof (Forall_inv_tail Hds) as Hds'.
    pose proof (sub_inv_fold (sext s) rest Hex (Forall_inv_tail Hds') _ _ _ _
                  (sub_inv_2 old s sz0 sb0 st0 sz1 sb1 st1 R (Forall_inv Hds) (Forall_inv Hds'))) as HF.
    destruct (fold_left _ rest (create_vector sb1 sb0 sz0 old, sz0 * sz1, st0 + st1 * sz0)) as [[t' size'] lb'].
    now apply sub_inv_finish.
Qed.

Scheme dt_mut := Induction for dt Sort Prop
  with flds_mut := Induction for flds Sort Prop.

Theorem Rel_build : forall t, wf t -> Rel (build t) (sem_of t).
Proof.
  apply (dt_mut (fun t => wf t -> Rel (build t) (sem_of t))
                (fun f => wf_flds f -> Forall2 frel (build_flds f) (sem_flds f)));
    cbn [wf wf_flds build build_flds sem_of sem_flds].
  - intros s Hs. now apply Rel_basic.
  - intros n t IH (Hn & Hw). apply Rel_contiguous; auto.
  - intros n bl st t IH (Hn & Hb & Hs & Hw). apply Rel_vector; auto.
  - intros n bl st t IH (Hn & Hb & Hs & Hw). apply Rel_hvector; auto.
  - intros blocks t IH (Hne & Hb & Hw). apply Rel_indexed; auto.
  - intros blocks t IH (Hne & Hb & Hw). apply Rel_hindexed; auto.
  - intros bl idxs t IH (Hne & Hb & Hw).
    pose proof (Rel_indexed (build t) (sem_of t) (map (fun i => (bl, i)) idxs) (IH Hw)) as H.
    rewrite map_map in H. apply H.
    + destruct idxs; [congruence | discriminate].
    + apply Forall_map, Forall_forall. intros; assumption.
  - intros f IH (Hne & Hw). apply Rel_struct; auto. destruct f; [congruence | discriminate].
  - intros lb ext t IH (He & Hw). apply Rel_resized; auto.
  - intros c_order dims t IH (Hne & Hd & Hw). apply Rel_subarray; auto.
  - intros _. constructor.
  - intros bl d t IHt r IHr (Hb & Hw & Hwr). constructor; [cbn; auto | auto].
Qed.
