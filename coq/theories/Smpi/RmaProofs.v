(** C34 — an operation writes only inside its footprint [inW] and reads only its target, so the memory of a window
    after a trace is decided by the operations addressed to it, in their order.  Hence exclusive-lock epochs are
    serial, and an epoch of pairwise commuting operations ends with the same memory in every order; the decidable
    test [commute_b] implies that they commute. *)
From SGV Require Import Base.PlainLia Base.Facts Smpi.Rma.
From Coq Require Import Permutation.
Local Open Scope Z_scope.

Definition meq (m m' : mem) : Prop := forall t x, m t x = m' t x.

Lemma meq_refl : forall m, meq m m. Proof. intros m t x; reflexivity. Qed.
Lemma meq_trans : forall a b c, meq a b -> meq b c -> meq a c.
Proof. intros a b c H1 H2 t x; now rewrite H1. Qed.
Lemma meq_sym : forall a b, meq a b -> meq b a.
Proof. intros a b H t x; now rewrite H. Qed.

(** ---- the cells an operation may write: memory is unchanged outside them, and inside them the result depends on
    them only (for CAS the compared cell is the written cell) *)
Definition inW (o : rop) (t x : Z) : Prop := t = otgt o /\ odisp o <= x < odisp o + wlen o.

Lemma inW_dec o t x : {inW o t x} + {~ inW o t x}.
Proof.
  unfold inW. destruct (Z.eq_dec t (otgt o)) as [E | E]; [| right; intros [E' _]; exact (E E')].
  destruct (Z_le_dec (odisp o) x) as [L | L]; [| right; intros [_ [L' _]]; exact (L L')].
  destruct (Z_lt_dec x (odisp o + wlen o)) as [U | U]; [left; auto | right; intros [_ [_ U']]; exact (U U')].
Qed.

Lemma zlen_nonneg : forall l, 0 <= zlen l. Proof. intros; apply Nat2Z.is_nonneg. Qed.

Lemma upd_range_out f m t d vals t' x : ~ (t' = t /\ d <= x < d + zlen vals) -> upd_range f m t d vals t' x = m t' x.
Proof.
  intros H. unfold upd_range.
  destruct (Z.eqb_spec t' t), (Z.leb_spec d x), (Z.ltb_spec x (d + zlen vals)); try reflexivity. now destruct H.
Qed.

Lemma upd_range_ext f m m' t d vals t' x :
  m t' x = m' t' x -> upd_range f m t d vals t' x = upd_range f m' t d vals t' x.
Proof. intros E. unfold upd_range. now rewrite E. Qed.

Lemma apply_mem_frame m o t x : ~ inW o t x -> apply_mem m o t x = m t x.
Proof.
  unfold inW, wlen, apply_mem. intros H.
  destruct (okind o =? 0); [apply upd_range_out, H |]. destruct (_ || _).
  { destruct (Z.eqb_spec (oop o) 6) as [E | _]; [| apply upd_range_out, H].
    unfold upd_range. rewrite E. now destruct (_ && _). }
  destruct (okind o =? 4); [| reflexivity]. destruct (_ =? ocmp o); [| reflexivity].
  apply upd_range_out. intros [Ht Hx]. apply H. split; [exact Ht |].
  assert (zlen (firstn 1 (ovals o)) <= 1) by (unfold zlen; rewrite firstn_length; lia). lia.
Qed.

Lemma apply_mem_depends m m' o t x :
  (forall y, inW o t y -> m t y = m' t y) -> inW o t x -> apply_mem m o t x = apply_mem m' o t x.
Proof.
  unfold inW, wlen, apply_mem. intros H Hx. pose proof (H x Hx) as E. destruct Hx as [-> Hx].
  destruct (okind o =? 0); [apply upd_range_ext, E |].
  destruct (_ || _); [apply upd_range_ext, E |].
  destruct (okind o =? 4); [| exact E].
  rewrite (H (odisp o)) by lia. destruct (_ =? ocmp o); [apply upd_range_ext |]; exact E.
Qed.

(** ---- an operation only touches its target, and what it does there depends only on the target's memory *)
Lemma apply_mem_other : forall m o t x, t <> otgt o -> apply_mem m o t x = m t x.
Proof. intros m o t x Hne. apply apply_mem_frame. intros [E _]. exact (Hne E). Qed.

Lemma apply_mem_local : forall m m' o x,
  (forall y, m (otgt o) y = m' (otgt o) y) -> apply_mem m o (otgt o) x = apply_mem m' o (otgt o) x.
Proof.
  intros m m' o x H. destruct (inW_dec o (otgt o) x) as [Hx | Hx].
  - apply apply_mem_depends; [intros; apply H | exact Hx].
  - rewrite !apply_mem_frame by exact Hx. apply H.
Qed.

Lemma apply_mem_meq : forall m m' o, meq m m' -> meq (apply_mem m o) (apply_mem m' o).
Proof.
  intros m m' o H t x. destruct (Z.eq_dec t (otgt o)) as [-> | Hne].
  - apply apply_mem_local; intros; apply H.
  - rewrite !apply_mem_other by assumption. apply H.
Qed.

Lemma exec_meq : forall ops m m', meq m m' -> meq (exec ops m) (exec ops m').
Proof.
  induction ops as [|o ops IH]; intros m m' H; cbn [exec fold_left]; [exact H |].
  apply IH, apply_mem_meq, H.
Qed.

(** the memory of target t after a trace depends only on the operations addressed to t, in their order *)
Lemma exec_proj_gen : forall tr m m' t,
  (forall y, m t y = m' t y) -> forall x, exec tr m t x = exec (proj t tr) m' t x.
Proof.
  induction tr as [|o tr IH]; intros m m' t H x; cbn [exec fold_left proj filter]; [apply H |].
  unfold on_target at 1. destruct (Z.eqb_spec (otgt o) t) as [E | Hne].
  - cbn [fold_left]. apply IH. intros y. subst t. apply apply_mem_local, H.
  - apply IH. intros y. rewrite apply_mem_other by congruence. apply H.
Qed.

(** EXCLUSIVE LOCKS.  [tr] is any interleaving of the operations actually performed; [serial] is the concatenation of the
    critical sections in lock-acquisition order.  Mutual exclusion on a target means: what that target sees ([proj t]) is
    the same in both.  Then every window ends with the memory of the serial execution. *)
Theorem exclusive_serial : forall tr serial m,
  (forall t, proj t tr = proj t serial) -> meq (exec tr m) (exec serial m).
Proof.
  intros tr serial m H t x.
  rewrite (exec_proj_gen tr m m t) by reflexivity. rewrite (exec_proj_gen serial m m t) by reflexivity.
  now rewrite H.
Qed.

(** critical sections: (target, operations); the serial trace and what mutual exclusion gives *)
Definition serial_of (secs : list (Z * list rop)) : list rop := flat_map snd secs.
Definition well_targeted (secs : list (Z * list rop)) : Prop :=
  forall s, In s secs -> forall o, In o (snd s) -> otgt o = fst s.
Lemma proj_app : forall t a b, proj t (a ++ b) = proj t a ++ proj t b.
Proof. intros; unfold proj; apply filter_app. Qed.
(** what target t sees in the serial trace = the sections on t, one after the other, in acquisition order *)
Theorem proj_serial : forall secs t, well_targeted secs ->
  proj t (serial_of secs) = flat_map (fun s => if fst s =? t then snd s else []) secs.
Proof.
  induction secs as [|s secs IH]; intros t H; [reflexivity |].
  unfold serial_of in *; cbn [flat_map]. rewrite proj_app, IH.
  - f_equal. destruct (Z.eqb_spec (fst s) t) as [E | Hne].
    + apply filter_all, Forall_forall. intros o Ho. apply Z.eqb_eq. rewrite <- E. apply (H s (or_introl eq_refl) o Ho).
    + apply filter_none, Forall_forall. intros o Ho. apply Z.eqb_neq. rewrite (H s (or_introl eq_refl) o Ho). exact Hne.
  - intros s' Hs'; apply H; now right.
Qed.

(** ---- commuting epochs *)
Definition commute (a b : rop) : Prop := forall m, meq (apply_mem (apply_mem m a) b) (apply_mem (apply_mem m b) a).

Lemma commute_sym : forall a b, commute a b -> commute b a.
Proof. intros a b H m; apply meq_sym, H. Qed.

Lemma exec_cons : forall o ops m, exec (o :: ops) m = exec ops (apply_mem m o).
Proof. reflexivity. Qed.

(** FENCE / LOCK_ALL EPOCHS: if the operations of an epoch pairwise commute, every order of application (every
    interleaving the simulator may choose) gives the same memory *)
Theorem commuting_epoch : forall l l', Permutation l l' ->
  (forall a b, In a l -> In b l -> commute a b) -> forall m, meq (exec l m) (exec l' m).
Proof.
  induction 1 as [| x l l' HP IH | x y l | l l' l'' HP1 IH1 HP2 IH2]; intros HC m.
  - apply meq_refl.
  - rewrite !exec_cons. apply IH. intros a b Ha Hb; apply HC; now right.
  - rewrite !exec_cons. apply exec_meq. apply HC; [left; reflexivity | right; left; reflexivity].
  - eapply meq_trans; [apply IH1, HC |]. apply IH2.
    intros a b Ha Hb; apply HC; eapply Permutation_in; try apply Permutation_sym; eassumption.
Qed.

(** the decidable condition is sufficient *)
Lemma opf_comm_assoc : forall o x a b, 0 <= o <= 4 -> opf o (opf o x a) b = opf o (opf o x b) a.
Proof.
  assert (AC : forall f : Z -> Z -> Z, (forall x y z, f x (f y z) = f (f x y) z) -> (forall x y, f x y = f y x) ->
               forall x a b, f (f x a) b = f (f x b) a).
  { intros f A C x a b. now rewrite <- !A, (C a b). }
  intros o x a b H. assert (o = 0 \/ o = 1 \/ o = 2 \/ o = 3 \/ o = 4) as [-> | [-> | [-> | [-> | ->]]]] by lia; cbn [opf];
    apply AC; auto using Z.add_assoc, Z.add_comm, Z.mul_assoc, Z.mul_comm, Z.max_assoc, Z.max_comm, Z.min_assoc,
      Z.min_comm, Z.lxor_comm, eq_sym, Z.lxor_assoc.
Qed.

Lemma footprint_commute a b : (forall t x, inW a t x -> inW b t x -> False) -> commute a b.
Proof.
  intros D m t x. destruct (inW_dec a t x) as [Ha | Ha]; [| destruct (inW_dec b t x) as [Hb | Hb]].
  - rewrite (apply_mem_frame _ b) by (intros Hb; exact (D t x Ha Hb)).
    apply apply_mem_depends; [| exact Ha]. intros y Hy. symmetry. apply apply_mem_frame. intros Hb. exact (D t y Hy Hb).
  - rewrite (apply_mem_frame _ a t x) by exact Ha.
    apply apply_mem_depends; [| exact Hb]. intros y Hy. apply apply_mem_frame. intros Ha'. exact (D t y Ha' Hy).
  - now rewrite !apply_mem_frame.
Qed.

Lemma disjoint_commute : forall a b, disjoint_b a b = true -> commute a b.
Proof.
  intros a b H. apply footprint_commute. unfold inW, disjoint_b in *. intros t x [-> Ha] [E Hb]. lia.
Qed.

Lemma acc_apply : forall m o, is_acc o = true -> apply_mem m o = upd_range (opf (oop o)) m (otgt o) (odisp o) (ovals o).
Proof.
  intros m o H; unfold is_acc in H; unfold apply_mem. rewrite H.
  apply orb_true_iff in H as [H | H]; apply Z.eqb_eq in H; rewrite H; reflexivity.
Qed.

Lemma same_op_acc_commute : forall a b, same_op_acc_b a b = true -> commute a b.
Proof.
  intros a b H m t x. unfold same_op_acc_b in H.
  repeat (apply andb_true_iff in H; destruct H as [H ?]).
  apply Z.eqb_eq in H2. apply Z.leb_le in H1, H0.
  rewrite !(acc_apply _ a), !(acc_apply _ b) by assumption. unfold upd_range. rewrite <- H2.
  destruct ((t =? otgt a) && (odisp a <=? x) && (x <? odisp a + zlen (ovals a)));
    destruct ((t =? otgt b) && (odisp b <=? x) && (x <? odisp b + zlen (ovals b))); try reflexivity.
  apply opf_comm_assoc; lia.
Qed.

Theorem commute_b_sound : forall a b, commute_b a b = true -> commute a b.
Proof.
  intros a b H; unfold commute_b in H. apply orb_true_iff in H as [H | H];
    [now apply disjoint_commute | now apply same_op_acc_commute].
Qed.

Lemma commute_self : forall a, commute a a.
Proof. intros a m; apply meq_refl. Qed.

Lemma all_commute_b_sound : forall l, all_commute_b l = true -> forall a b, In a l -> In b l -> commute a b.
Proof.
  induction l as [|c l IH]; intros H a b Ha Hb; [destruct Ha |].
  cbn [all_commute_b] in H. apply andb_prop in H as [H1 H2]. rewrite forallb_forall in H1.
  destruct Ha as [<- | Ha], Hb as [<- | Hb].
  - apply commute_self.
  - apply commute_b_sound, H1, Hb.
  - apply commute_sym, commute_b_sound, H1, Ha.
  - now apply IH.
Qed.

