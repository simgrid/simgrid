(** C01 proofs: address independence of the pointer-ordered containers under a monotone allocator, the leak without that
    assumption, address independence of the repaired end-of-simulation loop, coverage of the scanned sites. *)
From SGV Require Import Base.PlainLia Base.Facts Kernel.AddrOrder Gen.PtrOrderSites.
From Coq Require Import String.
Local Open Scope Z_scope.

Section SortProofs.
  Context {A : Type}.

  Lemma insert_in : forall (le : A -> A -> bool) x l y, In y (insert le x l) <-> y = x \/ In y l.
  Proof.
    intros le x l. induction l as [|z r IH]; intros y; cbn.
    - split; intros [H|H]; auto.
    - destruct (le x z); cbn; [split; intros [H|H]; auto|].
      rewrite IH. split; intros H; tauto.
  Qed.

  Lemma isort_in : forall (le : A -> A -> bool) l y, In y (isort le l) <-> In y l.
  Proof.
    intros le l. induction l as [|x r IH]; intros y; cbn; [tauto|].
    rewrite insert_in, IH. split; intros [H|H]; auto.
  Qed.

  Lemma insert_ext : forall (le1 le2 : A -> A -> bool) x l,
    (forall y, In y l -> le1 x y = le2 x y) -> insert le1 x l = insert le2 x l.
  Proof.
    intros le1 le2 x l. induction l as [|z r IH]; intros H; cbn; [reflexivity|].
    rewrite (H z) by now left. destruct (le2 x z); [reflexivity|]. f_equal. apply IH. intros y Hy. apply H. now right.
  Qed.

  Lemma isort_ext : forall (le1 le2 : A -> A -> bool) l,
    (forall x y, In x l -> In y l -> le1 x y = le2 x y) -> isort le1 l = isort le2 l.
  Proof.
    intros le1 le2 l. induction l as [|x r IH]; intros H; cbn; [reflexivity|].
    rewrite IH by (intros a b Ha Hb; apply H; now right).
    apply insert_ext. intros y Hy. apply H; [now left|]. right. now apply (isort_in le2 r y).
  Qed.
End SortProofs.

Lemma monotone_le : forall addr, alloc_monotone addr -> forall x y, addr_le addr x y = Nat.leb x y.
Proof.
  intros addr Hm x y. unfold addr_le. destruct (Nat.leb_spec x y) as [H|H].
  - apply Z.leb_le. apply Nat.le_lteq in H. destruct H as [H| ->]; [apply Z.lt_le_incl, Hm, H|apply Z.le_refl].
  - apply Z.leb_gt, Hm, H.
Qed.

(** Under an allocator that gives increasing addresses in allocation order (what a deterministic allocator yields for the
    same request sequence, whatever the ASLR slide), a pointer-ordered set iterates in allocation order. *)
Theorem iter_set_monotone : forall addr s, alloc_monotone addr -> iter_set addr s = isort Nat.leb s.
Proof. intros addr s Hm. unfold iter_set. apply isort_ext. intros x y _ _. now apply monotone_le. Qed.

Theorem iter_set_addr_indep : forall addr1 addr2 s,
  alloc_monotone addr1 -> alloc_monotone addr2 -> iter_set addr1 s = iter_set addr2 s.
Proof. intros addr1 addr2 s H1 H2. now rewrite !iter_set_monotone. Qed.

Theorem fes_order_addr_indep : forall addr1 addr2 evs,
  alloc_monotone addr1 -> alloc_monotone addr2 -> fes_order addr1 evs = fes_order addr2 evs.
Proof.
  intros addr1 addr2 evs H1 H2. unfold fes_order. apply isort_ext. intros a b _ _. unfold fes_le.
  pose proof (monotone_le addr1 H1 (snd a) (snd b)) as E1. pose proof (monotone_le addr2 H2 (snd a) (snd b)) as E2.
  unfold addr_le in E1, E2. now rewrite E1, E2.
Qed.

(** events at pairwise distinct dates are popped in date order whatever the addresses *)
Theorem fes_order_distinct_dates : forall addr1 addr2 evs,
  NoDup (map fst evs) -> fes_order addr1 evs = fes_order addr2 evs.
Proof.
  intros addr1 addr2 evs Hnd. unfold fes_order. apply isort_ext. intros a b Ha Hb. unfold fes_le.
  destruct (Z.eqb_spec (fst a) (fst b)) as [E|E]; [|now rewrite !andb_false_l].
  assert (a = b) by exact (NoDup_map_inj fst evs a b Hnd Ha Hb E).
  subst. rewrite !Z.leb_refl. reflexivity.
Qed.

(** lookups never observe the order *)
Theorem mem_iter_set : forall addr x s, mem x (iter_set addr s) = mem x s.
Proof.
  intros addr x s. unfold mem, iter_set. apply eq_true_iff_eq. rewrite !existsb_exists.
  split; intros (y & Hy & Ey); exists y; (split; [apply (isort_in (addr_le addr) s y), Hy|exact Ey]).
Qed.

(** the repaired end-of-simulation loop kills the daemons in an order that does not depend on any address *)
Theorem kill_order_fixed_addr_indep : forall addr1 addr2 actor_list daemons,
  kill_order_fixed addr1 actor_list daemons = kill_order_fixed addr2 actor_list daemons.
Proof.
  intros. unfold kill_order_fixed. apply filter_ext. intros a. now rewrite !mem_iter_set.
Qed.

(** ... whereas the pinned loop (iteration of std::set<ActorImpl*>) follows the addresses: two injective layouts of three
    daemons give different on_exit orders *)
Definition layout_up (i : nat) : Z := Z.of_nat i.
Definition layout_down (i : nat) : Z := - Z.of_nat i.
Lemma layouts_injective : injective layout_up /\ injective layout_down.
Proof. split; intros i j H; unfold layout_up, layout_down in H; lia. Qed.
Theorem kill_order_pinned_refuted : exists daemons addr1 addr2, injective addr1 /\ injective addr2 /\
  kill_order_pinned addr1 daemons <> kill_order_pinned addr2 daemons.
Proof.
  exists [1; 2; 3]%nat, layout_up, layout_down. destruct layouts_injective as [H1 H2]. repeat split; auto.
  vm_compute. discriminate.
Qed.
(** the same for simultaneous events of the future event set *)
Theorem fes_order_refuted : exists evs addr1 addr2, injective addr1 /\ injective addr2 /\
  fes_order addr1 evs <> fes_order addr2 evs.
Proof.
  exists [(5, 1%nat); (5, 2%nat)], layout_up, layout_down. destruct layouts_injective as [H1 H2]. repeat split; auto.
  vm_compute. discriminate.
Qed.

(** * the scanned sources contain no pointer-ordered container, comparator or iteration that was not reviewed *)
Theorem sites_covered : forallb site_covered scanned_sites = true.
Proof. vm_compute. reflexivity. Qed.
Theorem comparators_covered : forallb comparator_covered scanned_comparators = true.
Proof. vm_compute. reflexivity. Qed.
Theorem iterations_covered : forallb iteration_covered scanned_iterations = true.
Proof. vm_compute. reflexivity. Qed.
