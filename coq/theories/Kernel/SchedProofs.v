(** C02 proofs: the result of a sub-round, and of a whole run, does not depend on the order/interleaving in which the
    user code of the runnable actors is executed. *)
From SGV Require Import Base.PlainLia Kernel.Sched.
From Coq Require Import Permutation.

Section SchedProofs.
  Context {Local Kernel : Type}.
  Variable micro : Local -> Local.
  Variable at_simcall : Local -> bool.
  Variable handle : nat -> Kernel * list Local -> Kernel * list Local * list nat.

  Notation mstep := (mstep micro at_simcall).
  Notation user_phase := (user_phase micro at_simcall).
  Notation complete_b := (complete_b at_simcall).
  Notation admissible_b := (admissible_b micro at_simcall).

  Fixpoint iter (k : nat) (l : Local) : Local := match k with O => l | S k' => iter k' (mstep l) end.

  Lemma nth_error_app_at : forall a (f : Local -> Local) ls b,
    nth_error (app_at a f ls) b = if Nat.eqb a b then option_map f (nth_error ls b) else nth_error ls b.
  Proof.
    intros a f ls. revert a. induction ls as [|x r IH]; intros a b.
    - destruct a; cbn; destruct b; cbn; try reflexivity; destruct (Nat.eqb _ _); reflexivity.
    - destruct a as [|a]; destruct b as [|b]; cbn; try reflexivity. apply IH.
  Qed.

  Lemma nth_error_user_phase : forall pi ls b,
    nth_error (user_phase pi ls) b = option_map (iter (count_occ Nat.eq_dec pi b)) (nth_error ls b).
  Proof.
    induction pi as [|a r IH]; intros ls b.
    - cbn. destruct (nth_error ls b); reflexivity.
    - unfold Sched.user_phase in *. cbn [fold_left]. rewrite IH, nth_error_app_at. cbn [count_occ].
      destruct (Nat.eq_dec a b) as [E|E].
      + subst. rewrite Nat.eqb_refl. destruct (nth_error ls b); reflexivity.
      + apply Nat.eqb_neq in E. rewrite E. reflexivity.
  Qed.

  Lemma mstep_done : forall l, at_simcall l = true -> mstep l = l.
  Proof. intros l H. unfold Sched.mstep. now rewrite H. Qed.

  Lemma iter_done : forall k l, at_simcall l = true -> iter k l = l.
  Proof. induction k as [|k IH]; intros l H; cbn; [reflexivity|]. rewrite mstep_done by exact H. now apply IH. Qed.

  Lemma iter_add : forall j k l, iter (j + k) l = iter k (iter j l).
  Proof. induction j as [|j IH]; intros k l; cbn; [reflexivity|]. apply IH. Qed.

  Lemma iter_done_le : forall k1 k2 l, k1 <= k2 -> at_simcall (iter k1 l) = true -> iter k2 l = iter k1 l.
  Proof.
    intros k1 k2 l H H1. rewrite <- (Nat.sub_add k1 k2 H), Nat.add_comm, iter_add. now apply iter_done.
  Qed.

  Lemma iter_done_eq : forall k1 k2 l,
    at_simcall (iter k1 l) = true -> at_simcall (iter k2 l) = true -> iter k1 l = iter k2 l.
  Proof.
    intros k1 k2 l H1 H2. destruct (Nat.le_ge_cases k1 k2) as [H|H]; [symmetry|]; now apply iter_done_le.
  Qed.

  Lemma list_ext : forall (l1 l2 : list Local), (forall b, nth_error l1 b = nth_error l2 b) -> l1 = l2.
  Proof.
    induction l1 as [|x r IH]; intros l2 H.
    - destruct l2; [reflexivity|]. specialize (H 0%nat). discriminate.
    - destruct l2 as [|y r2]; [specialize (H 0%nat); discriminate|].
      pose proof (H 0%nat) as H0. cbn in H0. inv H0. f_equal. apply IH. intros b. exact (H (S b)).
  Qed.

  Lemma complete_b_spec : forall L ls, complete_b L ls = true ->
    forall a l, In a L -> nth_error ls a = Some l -> at_simcall l = true.
  Proof.
    intros L ls H a l Ha Hl. unfold Sched.complete_b in H. rewrite forallb_forall in H.
    specialize (H a Ha). now rewrite Hl in H.
  Qed.

  Lemma only_in : forall pi L b, forallb (fun a => existsb (Nat.eqb a) L) pi = true -> ~ In b L ->
    count_occ Nat.eq_dec pi b = 0%nat.
  Proof.
    intros pi L b H Hn. apply count_occ_not_In. intros Hb. rewrite forallb_forall in H.
    specialize (H b Hb). apply existsb_exists in H. destruct H as (x & Hx & E). apply Nat.eqb_eq in E. subst. auto.
  Qed.

  (** Two admissible schedules of the same sub-round leave every actor in the same local state. *)
  Theorem user_phase_confluent : forall pi1 pi2 L ls,
    admissible_b pi1 L ls = true -> admissible_b pi2 L ls = true -> user_phase pi1 ls = user_phase pi2 ls.
  Proof using micro at_simcall handle.
    intros pi1 pi2 L ls H1 H2. unfold Sched.admissible_b in H1, H2.
    apply andb_true_iff in H1. apply andb_true_iff in H2. destruct H1 as [O1 C1]. destruct H2 as [O2 C2].
    apply list_ext. intros b. rewrite !nth_error_user_phase.
    destruct (nth_error ls b) as [l|] eqn:El; [|reflexivity]. cbn. f_equal.
    destruct (in_dec Nat.eq_dec b L) as [Hin|Hnin].
    - apply iter_done_eq.
      + apply (complete_b_spec _ _ C1 b); [exact Hin|]. rewrite nth_error_user_phase, El. reflexivity.
      + apply (complete_b_spec _ _ C2 b); [exact Hin|]. rewrite nth_error_user_phase, El. reflexivity.
    - rewrite (only_in _ _ _ O1 Hnin), (only_in _ _ _ O2 Hnin). reflexivity.
  Qed.

  (** Permuting a schedule changes nothing (steps of different actors commute; in particular the order in which Parmap
      workers pick the actors is irrelevant). *)
  Theorem user_phase_perm : forall pi1 pi2 ls, Permutation pi1 pi2 -> user_phase pi1 ls = user_phase pi2 ls.
  Proof.
    intros pi1 pi2 ls Hp. apply list_ext. intros b. rewrite !nth_error_user_phase.
    rewrite (Permutation_count_occ Nat.eq_dec pi1 pi2) in Hp. now rewrite Hp.
  Qed.

  Theorem subround_sched_indep : forall pi1 pi2 L st,
    admissible_b pi1 L (snd st) = true -> admissible_b pi2 L (snd st) = true ->
    subround micro at_simcall handle pi1 L st = subround micro at_simcall handle pi2 L st.
  Proof.
    intros pi1 pi2 L st H1 H2. unfold subround. now rewrite (user_phase_confluent pi1 pi2 L (snd st) H1 H2).
  Qed.

  (** Whole runs: with any admissible schedule for every sub-round, the kernel state, every local state and the next
      run list are the same. *)
  Theorem run_sched_indep : forall Pi1 Pi2 L st, length Pi1 = length Pi2 ->
    admissible_run micro at_simcall handle Pi1 L st -> admissible_run micro at_simcall handle Pi2 L st ->
    run micro at_simcall handle Pi1 L st = run micro at_simcall handle Pi2 L st.
  Proof.
    induction Pi1 as [|p1 r1 IH]; intros Pi2 L st Hlen A1 A2; destruct Pi2 as [|p2 r2]; try discriminate.
    - reflexivity.
    - cbn [run admissible_run] in *. destruct L as [|a L']; [reflexivity|].
      destruct A1 as [B1 A1]. destruct A2 as [B2 A2].
      rewrite (subround_sched_indep p1 p2 (a :: L') st B1 B2) in *.
      destruct (subround micro at_simcall handle p2 (a :: L') st) as [st' Ln].
      apply IH; auto.
  Qed.

  (** The serial schedule is admissible as soon as [k] micro-steps bring every actor of the list to its simcall: it is
      the reference every parallel execution is equal to. *)
  Lemma count_serial : forall k L b, NoDup L -> In b L -> count_occ Nat.eq_dec (serial k L) b = k.
  Proof using handle.
    intros k L b. unfold serial. induction L as [|a r IH]; intros Hnd Hin; [destruct Hin|].
    cbn [flat_map]. rewrite count_occ_app. inv Hnd. destruct Hin as [E|Hin].
    - subst. rewrite count_occ_repeat_eq by reflexivity.
      assert (Hz : count_occ Nat.eq_dec (flat_map (fun a => repeat a k) r) b = 0%nat).
      { apply count_occ_not_In. intros Hc. apply in_flat_map in Hc. destruct Hc as (x & Hx & Hr).
        apply repeat_spec in Hr. subst. auto. }
      lia.
    - rewrite count_occ_repeat_neq by (intros E; subst; auto). rewrite IH by auto. lia.
  Qed.
End SchedProofs.

(** The kernel phase of the concrete engine model of Kernel/Ref.v (synchronisation programs) is the instance of
    [kernel_phase] whose handler is the reference step function: the schedule-independence theorems above apply to it. *)
From SGV Require Import Kernel.Ref.
Definition handle_ref (P : prog) (a : nat) (st : state * list unit) : state * list unit * list nat :=
  match actor_step P a (fst st) with Some (s', ws) => ((s', snd st), ws) | None => (st, []) end.
Lemma handle_all_is_kernel_phase : forall P l s ls next tr s' next' tr',
  handle_all P l s next tr = (s', next', tr') ->
  kernel_phase (handle_ref P) l (s, ls) next = ((s', ls), next').
Proof.
  intros P l. induction l as [|a r IH]; intros s ls next tr s' next' tr' H; cbn [handle_all kernel_phase] in *.
  - inv H. reflexivity.
  - unfold handle_ref at 1. cbn [fst snd]. destruct (actor_step P a s) as [[s1 ws]|] eqn:E.
    + eapply IH; eauto.
    + rewrite app_nil_r. eapply IH; eauto.
Qed.
