(** Proofs about Kernel/TimedComm.v (C12 on communications and I/Os).  First the life of one timed wait ([ep_run] over
    the increasing dates the clock visits), then what single functions of the small engine do (timer callback, posts,
    finish(), cancel(), solve()). *)
From SGV Require Import Base.PlainLia Kernel.TimedComm.
From SGV Require Kernel.EngineProofs.
Local Open Scope Z_scope.

Fixpoint incr (l : list Z) : Prop :=
  match l with a :: (b :: _) as r => a < b /\ incr r | _ => True end.

Lemma incr_tail : forall a l, incr (a :: l) -> incr l.
Proof. intros a [|b l] H; [exact I | exact (proj2 H)]. Qed.

Lemma incr_app : forall l1 x l2, incr (l1 ++ x :: l2) -> Forall (fun y => y < x) l1 /\ incr l2.
Proof.
  induction l1 as [|a l1 IH]; intros x l2 H; [split; [constructor | exact (incr_tail _ _ H)]|].
  destruct (IH x l2 (incr_tail _ _ H)) as [H1 H2]. split; [|exact H2]. constructor; [|exact H1].
  destruct l1 as [|b l1]; [exact (proj1 H)|]. inv H1. pose proof (proj1 H). lia.
Qed.

Definition waiting (e : episode) : Prop := e_res e = EWaiting.

Lemma ep_over_fix : forall pr oc m e, e_res e <> EWaiting -> ep_visit pr oc m e = e.
Proof. intros pr oc m e H. unfold ep_visit. destruct (e_res e); congruence. Qed.

Lemma ep_run_cons : forall pr oc m ms e, ep_run pr oc (m :: ms) e = ep_run pr oc ms (ep_visit pr oc m e).
Proof. reflexivity. Qed.

Lemma ep_run_app : forall pr oc l1 l2 e, ep_run pr oc (l1 ++ l2) e = ep_run pr oc l2 (ep_run pr oc l1 e).
Proof. intros. unfold ep_run. apply fold_left_app. Qed.

Lemma ep_run_fix : forall pr oc ms e, Forall (fun m => ep_visit pr oc m e = e) ms -> ep_run pr oc ms e = e.
Proof. induction 1 as [|m ms Hm _ IH]; [reflexivity|]. rewrite ep_run_cons, Hm. exact IH. Qed.

Lemma ep_run_over : forall pr oc ms e, e_res e <> EWaiting -> ep_run pr oc ms e = e.
Proof. intros pr oc ms e H. apply ep_run_fix, Forall_forall. intros m _. apply ep_over_fix, H. Qed.

(* Every theorem below has this shape: the visits before a visited date [x] change nothing, so the run goes on from the
   visit of [x] through the later dates ... *)
Lemma ep_run_skip : forall pr oc ms x e,
  incr ms -> In x ms -> (forall m, In m ms -> m < x -> ep_visit pr oc m e = e) ->
  exists l2, ep_run pr oc ms e = ep_run pr oc l2 (ep_visit pr oc x e) /\ incr l2 /\
             (forall y, In y l2 -> In y ms) /\ (forall y, In y ms -> x < y -> In y l2).
Proof.
  intros pr oc ms x e Hinc Hx Hidle. destruct (in_split _ _ Hx) as (l1 & l2 & ->).
  destruct (incr_app _ _ _ Hinc) as [Hb Hl2]. rewrite Forall_forall in Hb.
  exists l2. split; [|split; [exact Hl2|split]].
  - rewrite ep_run_app, (ep_run_fix pr oc l1 e); [reflexivity|]. apply Forall_forall. intros m Hm.
    apply Hidle; [apply in_or_app; left; exact Hm | exact (Hb m Hm)].
  - intros y Hy. apply in_or_app. right. right. exact Hy.
  - intros y Hy Hlt. apply in_app_or in Hy. destruct Hy as [Hy|[->|Hy]]; [specialize (Hb y Hy); lia | lia | exact Hy].
Qed.

(* ... and is over there when that visit decides. *)
Lemma ep_run_at : forall pr oc ms x e,
  incr ms -> In x ms -> (forall m, In m ms -> m < x -> ep_visit pr oc m e = e) ->
  e_res (ep_visit pr oc x e) <> EWaiting -> ep_run pr oc ms e = ep_visit pr oc x e.
Proof.
  intros pr oc ms x e Hinc Hx Hidle Hdec. destruct (ep_run_skip pr oc ms x e Hinc Hx Hidle) as (l2 & -> & _).
  apply ep_run_over, Hdec.
Qed.

(* what "cancelled" means for the activity: out of the mailbox / its action out of the heap for ever *)
Definition cancelled (e : episode) : Prop := e_cst e = CCanceled \/ e_act e = Some AFailed.

(* dates closer than the precision are merged by the engine: the statement is about dates that are either equal or
   at least the precision apart *)
Definition separated (pr tc : Z) (ms : list Z) : Prop := forall m, In m ms -> Z.abs (tc - m) < pr -> m = tc.

Lemma separated_check : forall pr tc ms,
  forallb (fun m => (pr <=? Z.abs (tc - m)) || (m =? tc)) ms = true -> separated pr tc ms.
Proof.
  intros pr tc ms H m Hm Hlt. rewrite forallb_forall in H. apply (H m), orb_true_iff in Hm.
  destruct Hm as [Hm|Hm]; [apply Z.leb_le in Hm; lia | exact (proj1 (Z.eqb_eq _ _) Hm)].
Qed.

Definition not_due (pr m tc : Z) (io : bool) : Prop := due pr m tc io = false.

Lemma due_self : forall pr tc io, 0 < pr -> due pr tc tc io = true.
Proof. intros. unfold due. destruct io; lia. Qed.
Lemma not_due_before : forall pr m tc io, m < tc -> (Z.abs (tc - m) < pr -> m = tc) -> not_due pr m tc io.
Proof. intros. unfold not_due, due. destruct io; lia. Qed.

Definition done_at (tc : Z) (e : episode) : Prop := e_res e = EDone tc /\ e_cst e = CDone tc.
Definition timed_out (oc : bool) (td : Z) (e : episode) : Prop := e_res e = ETimeout td /\ (oc = true -> cancelled e).

Lemma ep_idle_running : forall pr oc m e tc,
  waiting e -> e_act e = Some (ARun tc) -> not_due pr m tc (e_io e) ->
  (forall dl, e_dl e = Some dl -> m < dl) -> ep_visit pr oc m e = e.
Proof.
  intros pr oc m [act dl0 peer du io r st] tc Hw Ha Hd Hdl. unfold ep_visit, waiting, not_due, ep_set in *. cbn in *. subst.
  cbn [pop_astate]. rewrite Hd.
  destruct dl0 as [dl|]; [rewrite (proj2 (Z.leb_gt dl m) (Hdl dl eq_refl))|]; cbn; destruct peer; reflexivity.
Qed.

Lemma ep_idle_unmatched : forall pr oc m e,
  waiting e -> e_act e = None -> (forall tp, e_peer e = Some tp -> m < tp) ->
  (forall dl, e_dl e = Some dl -> m < dl) -> ep_visit pr oc m e = e.
Proof.
  intros pr oc m [act dl0 peer du io r st] Hw Ha Hp Hdl. unfold ep_visit, waiting, ep_set in *. cbn in *. subst.
  cbn [pop_astate timer_skips ended_result negb].
  destruct dl0 as [dl|]; [rewrite (proj2 (Z.leb_gt dl m) (Hdl dl eq_refl))|]; cbn;
    (destruct peer as [tp|]; [rewrite (proj2 (Z.leb_gt tp m) (Hp tp eq_refl))|]; reflexivity).
Qed.

(* whatever the deadline: the callback skips a finished action *)
Lemma visit_done : forall pr oc tc e, 0 < pr -> waiting e -> e_act e = Some (ARun tc) ->
  done_at tc (ep_visit pr oc tc e).
Proof.
  intros pr oc tc e Hpr Hw Ha. unfold done_at, ep_visit, waiting in *. rewrite Hw, Ha. cbn [pop_astate].
  rewrite due_self by exact Hpr. cbn [timer_skips negb].
  destruct (e_dl e); [rewrite andb_false_r|]; cbn; split; reflexivity.
Qed.

Lemma visit_timeout_running : forall pr oc td tc e,
  waiting e -> e_act e = Some (ARun tc) -> e_dl e = Some td -> not_due pr td tc (e_io e) ->
  timed_out oc td (ep_visit pr oc td e).
Proof.
  intros pr oc td tc e Hw Ha Hdl Hnd. unfold timed_out, ep_visit, waiting, cancelled, not_due in *. rewrite Hw, Ha, Hdl.
  cbn [pop_astate]. rewrite Hnd. cbn [timer_skips negb]. rewrite Z.leb_refl. cbn [andb].
  destruct oc; cbn; split; auto; discriminate.
Qed.
Lemma visit_timeout_unmatched : forall pr oc td e,
  waiting e -> e_act e = None -> e_cst e = CWaiting -> e_dl e = Some td ->
  timed_out oc td (ep_visit pr oc td e).
Proof.
  intros pr oc td e Hw Ha Hst Hdl. unfold timed_out, ep_visit, waiting, cancelled in *. rewrite Hw, Ha, Hdl.
  cbn [pop_astate timer_skips negb]. rewrite Z.leb_refl. cbn [andb]. rewrite Hst.
  destruct oc; cbn; split; auto; discriminate.
Qed.

Lemma visit_match : forall pr oc ts td e,
  waiting e -> e_act e = None -> e_peer e = Some ts -> e_dl e = Some td -> ts < td ->
  let e1 := ep_visit pr oc ts e in waiting e1 /\ e_act e1 = Some (ARun (ts + e_dur e)) /\ e_dl e1 = Some td.
Proof.
  intros pr oc ts td e Hw Ha Hp Hdl Hlt. unfold ep_visit, waiting in *. rewrite Hw, Ha, Hdl, Hp.
  cbn [pop_astate timer_skips negb ended_result]. rewrite (proj2 (Z.leb_gt td ts) Hlt), Z.leb_refl. cbn. auto.
Qed.

Lemma done_running : forall pr oc ms e tc,
  0 < pr -> incr ms -> separated pr tc ms -> waiting e -> e_act e = Some (ARun tc) -> In tc ms ->
  (forall dl, e_dl e = Some dl -> tc <= dl) ->
  done_at tc (ep_run pr oc ms e).
Proof.
  intros pr oc ms e tc Hpr Hinc Hsep Hw Ha Htc Hdl. pose proof (visit_done pr oc tc e Hpr Hw Ha) as Hv.
  rewrite (ep_run_at pr oc ms tc e Hinc Htc); [exact Hv | | rewrite (proj1 Hv); discriminate].
  intros m Hm Hlt. apply (ep_idle_running pr oc m e tc Hw Ha).
  - apply not_due_before; [exact Hlt | exact (Hsep m Hm)].
  - intros dl Hd. specialize (Hdl dl Hd). lia.
Qed.

Lemma timeout_running : forall pr oc ms e tc td,
  incr ms -> separated pr tc ms -> waiting e -> e_act e = Some (ARun tc) -> e_dl e = Some td -> In td ms -> td < tc ->
  timed_out oc td (ep_run pr oc ms e).
Proof.
  intros pr oc ms e tc td Hinc Hsep Hw Ha Hdl Htd Hlt.
  assert (Hnd : forall m, In m ms -> m <= td -> not_due pr m tc (e_io e)).
  { intros m Hm Hle. apply not_due_before; [lia | exact (Hsep m Hm)]. }
  pose proof (visit_timeout_running pr oc td tc e Hw Ha Hdl (Hnd td Htd (Z.le_refl td))) as Hv.
  rewrite (ep_run_at pr oc ms td e Hinc Htd); [exact Hv | | rewrite (proj1 Hv); discriminate].
  intros m Hm Hm'. apply (ep_idle_running pr oc m e tc Hw Ha); [apply Hnd; [exact Hm | lia]|].
  intros dl Hd. rewrite Hdl in Hd. inv Hd. exact Hm'.
Qed.

(** The activity already has its action when the wait is issued (exec, I/O, comm whose peer is there): completion date tc. *)
Theorem wait_exact_running : forall pr oc ms e tc td,
  0 < pr -> incr ms -> separated pr tc ms ->
  waiting e -> e_act e = Some (ARun tc) -> e_dl e = Some td ->
  In td ms -> (tc <= td -> In tc ms) ->
  let e' := ep_run pr oc ms e in
  (tc <= td -> e_res e' = EDone tc /\ e_cst e' = CDone tc) /\
  (td < tc -> e_res e' = ETimeout td /\ (oc = true -> cancelled e')).
Proof.
  intros pr oc ms e tc td Hpr Hinc Hsep Hw Ha Hdl Htd Htc. cbn zeta. split; intros Hcmp.
  - apply done_running; auto. intros dl Hd. rewrite Hdl in Hd. inv Hd. exact Hcmp.
  - exact (timeout_running pr oc ms e tc td Hinc Hsep Hw Ha Hdl Htd Hcmp).
Qed.

(* No action and no peer before the deadline (it posts later, at that very date - the timer fires before the sub-round of
   the peer - or never): timeout exactly at the deadline. *)
Lemma timeout_unmatched : forall pr oc ms e td,
  incr ms -> waiting e -> e_act e = None -> e_cst e = CWaiting -> e_dl e = Some td -> In td ms ->
  (forall ts, e_peer e = Some ts -> td <= ts) ->
  timed_out oc td (ep_run pr oc ms e).
Proof.
  intros pr oc ms e td Hinc Hw Ha Hst Hdl Htd Hp. pose proof (visit_timeout_unmatched pr oc td e Hw Ha Hst Hdl) as Hv.
  rewrite (ep_run_at pr oc ms td e Hinc Htd); [exact Hv | | rewrite (proj1 Hv); discriminate].
  intros m Hm Hlt. apply ep_idle_unmatched; auto.
  - intros tp Ht. specialize (Hp tp Ht). lia.
  - intros dl Hx. rewrite Hdl in Hx. inv Hx. exact Hlt.
Qed.

(** The comm is still unmatched when the wait is issued (no action): the peer posts at ts (a visited date, before or at
    the deadline or after it), the action then created completes at tc = ts + d.  The callback reads the action when the
    deadline fires, so a completion exactly at the deadline is a completion. *)
Theorem wait_exact_unmatched : forall pr oc ms e ts td,
  0 < pr -> 0 < e_dur e -> incr ms -> separated pr (ts + e_dur e) ms ->
  waiting e -> e_act e = None -> e_cst e = CWaiting -> e_peer e = Some ts -> e_dl e = Some td ->
  In td ms -> (ts <= td -> In ts ms) -> (ts + e_dur e <= td -> In (ts + e_dur e) ms) ->
  let tc := ts + e_dur e in
  let e' := ep_run pr oc ms e in
  (tc <= td -> e_res e' = EDone tc /\ e_cst e' = CDone tc) /\
  (td < tc -> e_res e' = ETimeout td /\ (oc = true -> cancelled e')).
Proof.
  intros pr oc ms e ts td Hpr Hd Hinc Hsep Hw Ha Hst Hp Hdl Htd Hts Htc. cbn zeta.
  destruct (Z_lt_le_dec ts td) as [Hlt|Hle].
  - (* the peer arrives first: the action is created at ts; the rest is the running case *)
    destruct (ep_run_skip pr oc ms ts e Hinc (Hts (Z.lt_le_incl _ _ Hlt))) as (l2 & -> & Hinc2 & Hsub & Hlater).
    { intros m Hm Hm'. apply ep_idle_unmatched; auto.
      - intros tp Ht. rewrite Hp in Ht. inv Ht. exact Hm'.
      - intros dl Hx. rewrite Hdl in Hx. inv Hx. lia. }
    destruct (visit_match pr oc ts td e Hw Ha Hp Hdl Hlt) as (Hw1 & Ha1 & Hdl1).
    apply (wait_exact_running pr oc l2 _ (ts + e_dur e) td Hpr Hinc2); auto.
    + intros m Hm. exact (Hsep m (Hsub m Hm)).
    + intros Hc. apply Hlater; [exact (Htc Hc) | lia].
  - split; intros Hcmp; [lia|]. apply timeout_unmatched; auto.
    intros tp Ht. rewrite Hp in Ht. inv Ht. exact Hle.
Qed.

Lemma get_upd_actor : forall p q f l, (forall a, a_pid (f a) = a_pid a) ->
  get_actor q (upd_actor p f l) = if p =? q then option_map f (get_actor q l) else get_actor q l.
Proof.
  intros p q f l Hf. induction l as [|b l IH]; cbn; [destruct (p =? q); reflexivity|].
  destruct (Z.eqb_spec (a_pid b) p) as [<-|Hp]; cbn.
  - rewrite Hf. destruct (a_pid b =? q); reflexivity.
  - rewrite IH. destruct (Z.eqb_spec (a_pid b) q) as [<-|Hq]; [|reflexivity].
    destruct (Z.eqb_spec p (a_pid b)); [congruence | reflexivity].
Qed.

Lemma get_upd_set_st : forall p st l a, get_actor p l = Some a ->
  get_actor p (upd_actor p (fun a => set_st a st) l) = Some (set_st a st).
Proof. intros p st l a H. rewrite get_upd_actor, Z.eqb_refl, H by reflexivity. reflexivity. Qed.

Lemma get_upd_comm_same : forall k f l x, get_comm k l = Some x -> (forall y, c_key (f y) = c_key y) ->
  get_comm k (upd_comm k f l) = Some (f x).
Proof.
  intros k f l x H Hf. induction l as [|b l IH]; cbn in *; [discriminate|].
  destruct (Z.eqb_spec (c_key b) k) as [E|E]; cbn.
  - inv H. rewrite Hf, Z.eqb_refl. reflexivity.
  - rewrite (proj2 (Z.eqb_neq _ _) E). exact (IH H).
Qed.

(** When the deadline of a wait_for is reached, the callback looks at the action the activity has NOW: finished (or
    failed) in this very solve() -> the timer does nothing and the wait goes on (it is answered by handle_ended_actions
    at the same date); anything else, including "no action yet" for an unmatched comm -> TimeoutException at that date. *)
Lemma timeout_spec : forall s p a k dl x,
  get_actor p (actors s) = Some a -> a_st a = SBlocked (BWait k (Some dl)) -> dl <= clock s ->
  get_comm k (comms s) = Some x ->
  exists a', get_actor p (actors (fire_timeout s p)) = Some a' /\ clock (fire_timeout s p) = clock s /\
    if timer_skips (c_act x) then a_st a' = SBlocked (BWait k None) /\ comms (fire_timeout s p) = comms s
    else a_st a' = SReady 1 (seq s).
Proof.
  intros s p a k dl x Hg Hst Hdl Hc. unfold fire_timeout. rewrite Hg, Hst. replace (dl <=? clock s) with true by lia. rewrite Hc.
  destruct (timer_skips (c_act x)).
  - exists (set_st a (SBlocked (BWait k None))). repeat split.
    unfold mod_actor. cbn. apply get_upd_set_st; exact Hg.
  - exists (set_st a (SReady 1 (seq s))). repeat split.
    unfold answer, bump, mod_actor, mod_comm. cbn. apply get_upd_set_st; exact Hg.
Qed.

Lemma timeout_not_before : forall s p a k dl,
  get_actor p (actors s) = Some a -> a_st a = SBlocked (BWait k (Some dl)) -> clock s < dl -> fire_timeout s p = s.
Proof. intros s p a k dl Hg Hst Hlt. unfold fire_timeout. rewrite Hg, Hst. replace (dl <=? clock s) with false by lia. reflexivity. Qed.

(** A comm posted while nobody waits on the other side has no action; the action (with its completion date) is created
    by the post that matches it. *)
Lemma put_unmatched_no_action : forall s p c d s',
  post_put s p c d = Some s' -> waiting_recv c (comms s) = None ->
  exists x, comms s' = comms s ++ [x] /\ c_id x = c /\ c_snd x = Some p /\ c_rcv x = None /\ c_st x = CWaiting /\ c_act x = None /\ c_wait x = [].
Proof.
  intros s p c d s' H Hn. unfold post_put in H. rewrite Hn in H.
  destruct ((d <? 1) || has_snd c (comms s) || has_id c (filter c_io (comms s)) || known c p (comms s)); [discriminate|].
  inv H. eexists. split; [reflexivity|]. cbn. repeat split.
Qed.

Lemma get_unmatched_no_action : forall s p c s',
  post_get s p c = Some s' -> waiting_send c (comms s) = None ->
  exists x, comms s' = comms s ++ [x] /\ c_id x = c /\ c_rcv x = Some p /\ c_snd x = None /\ c_st x = CWaiting /\ c_act x = None /\ c_wait x = [].
Proof.
  intros s p c s' H Hn. unfold post_get in H. rewrite Hn in H.
  destruct (has_rcv c (comms s) || has_id c (filter c_io (comms s)) || known c p (comms s)); [discriminate|].
  inv H. eexists. split; [reflexivity|]. cbn. repeat split.
Qed.

Lemma get_matches_creates_action : forall s p c s' x,
  post_get s p c = Some s' -> waiting_send c (comms s) = Some x -> get_comm (c_key x) (comms s) = Some x ->
  exists x', get_comm (c_key x) (comms s') = Some x' /\ c_st x' = CRunning /\ c_act x' = Some (ARun (clock s + c_dur x)) /\
             c_wait x' = c_wait x /\ clock s' = clock s.
Proof.
  intros s p c s' x H Hm Hk. unfold post_get in H. rewrite Hm in H.
  destruct (has_rcv c (comms s) || has_id c (filter c_io (comms s)) || known c p (comms s)); [discriminate|].
  inv H. eexists. split; [unfold mod_comm; cbn; apply get_upd_comm_same; [exact Hk | reflexivity] |]. cbn. repeat split.
Qed.

Lemma put_matches_creates_action : forall s p c d s' x,
  post_put s p c d = Some s' -> waiting_recv c (comms s) = Some x -> get_comm (c_key x) (comms s) = Some x ->
  exists x', get_comm (c_key x) (comms s') = Some x' /\ c_st x' = CRunning /\ c_act x' = Some (ARun (clock s + d)) /\
             c_wait x' = c_wait x /\ clock s' = clock s.
Proof.
  intros s p c d s' x H Hm Hk. unfold post_put in H. rewrite Hm in H.
  destruct ((d <? 1) || has_snd c (comms s) || has_id c (filter c_io (comms s)) || known c p (comms s)); [discriminate|].
  inv H. eexists. split; [unfold mod_comm; cbn; apply get_upd_comm_same; [exact Hk | reflexivity] |]. cbn. repeat split.
Qed.

(** finish(): every registered waiter is answered (0 for a finished action, 3 for a cancelled one) at the current date. *)
Lemma answer_fold : forall r l s q,
  In q l -> get_actor q (actors s) <> None ->
  exists a' n, get_actor q (actors (fold_left (fun s q => answer s q r) l s)) = Some a' /\ a_st a' = SReady r n.
Proof.
  (* an answer to [q] leaves it answered, later answers to anybody keep it so *)
  intros r l s q Hin Hex. set (K s := exists a' n, get_actor q (actors s) = Some a' /\ a_st a' = SReady r n).
  assert (G : forall l s, In q l /\ get_actor q (actors s) <> None \/ K s -> K (fold_left (fun s q => answer s q r) l s)).
  { clear. induction l as [|h l IH]; intros s H; [destruct H as [[[] _]|H]; exact H|]. apply IH. unfold K.
    change (actors (answer s h r)) with (upd_actor h (fun a => set_st a (SReady r (seq s))) (actors s)).
    rewrite get_upd_actor by reflexivity. destruct (Z.eqb_spec h q) as [->|Hne].
    - right. destruct H as [[_ H]|(a' & n & H & _)]; (destruct (get_actor q (actors s)) as [aq|]; [|congruence]);
        do 2 eexists; split; reflexivity.
    - destruct H as [[[E|Hin] Hex]|H]; [congruence | left; auto | right; exact H]. }
  apply G. left. auto.
Qed.

Lemma fold_answer_comms : forall r l s, comms (fold_left (fun s q => answer s q r) l s) = comms s /\
                                        clock (fold_left (fun s q => answer s q r) l s) = clock s.
Proof. intros r l. induction l as [|h l IH]; intros s; [split; reflexivity|]. cbn [fold_left]. destruct (IH (answer s h r)) as [H1 H2]. rewrite H1, H2. split; reflexivity. Qed.

Lemma end_rec_spec : forall s k x r,
  get_comm k (comms s) = Some x -> ended_result (c_act x) = Some r ->
  let s' := end_rec s k in
  clock s' = clock s /\
  (exists x', get_comm k (comms s') = Some x' /\ c_act x' = None /\ c_wait x' = [] /\
              c_st x' = if r =? 0 then CDone (clock s) else if c_io x then CCanceled else CFailed) /\
  (forall q, In q (c_wait x) -> get_actor q (actors s) <> None ->
     exists a' n, get_actor q (actors s') = Some a' /\ a_st a' = SReady r n).
Proof.
  intros s k x r Hk Hr. cbn zeta. unfold end_rec. rewrite Hk, Hr.
  set (s1 := mod_comm s k _).
  destruct (fold_answer_comms r (c_wait x) s1) as [Hc Hcl]. split; [rewrite Hcl; reflexivity|]. split.
  - rewrite Hc. eexists. split; [subst s1; unfold mod_comm; cbn; apply get_upd_comm_same; [exact Hk | reflexivity] |].
    cbn. repeat split.
  - intros q Hq Hex. apply answer_fold; [exact Hq | exact Hex].
Qed.

(** cancel() (wait_for_or_cancel after a timeout, or the end of the actor): a comm still in its mailbox is CANCELED and
    leaves it; the action of a running activity is FAILED and out of the heap: in both cases it never completes. *)
Lemma cancel_spec : forall p x,
  (c_st x = CWaiting -> c_act x = None /\ c_io x = false) -> (c_st x = CWaiting \/ c_st x = CRunning) ->
  let y := cancel_rec p x in
  (forall dt, c_act y <> Some (ARun dt)) /\ c_act y <> Some AFin \/ c_act x = Some AFin /\ c_act y = Some AFin.
Proof.
  intros p x Hw Hst. cbn zeta. unfold cancel_rec. destruct Hst as [Hs|Hs]; rewrite Hs.
  - destruct (Hw Hs) as [Ha Hio]. rewrite Hio. cbn. rewrite Ha. left. split; [intros; discriminate | discriminate].
  - destruct (c_act x) as [[dt| |]|] eqn:Ea; cbn; try (left; split; [intros; discriminate | discriminate]).
    right. split; reflexivity.
Qed.

Lemma cancel_waiting_canceled : forall p x, c_st x = CWaiting -> c_io x = false -> c_st (cancel_rec p x) = CCanceled.
Proof. intros p x Hs Hio. unfold cancel_rec. rewrite Hs, Hio. reflexivity. Qed.
Lemma cancel_running_failed : forall p x dt, c_st x = CRunning -> c_act x = Some (ARun dt) -> c_act (cancel_rec p x) = Some AFailed.
Proof. intros p x dt Hs Ha. unfold cancel_rec. rewrite Hs, Ha. reflexivity. Qed.

Lemma clock_fold : forall (A : Type) (f : state -> A -> state) l s, (forall s x, clock (f s x) = clock s) -> clock (fold_left f l s) = clock s.
Proof. intros A f l. induction l as [|h l IH]; intros s Hf; [reflexivity|]. cbn. rewrite IH by exact Hf. apply Hf. Qed.

Lemma clock_end_rec : forall s k, clock (end_rec s k) = clock s.
Proof.
  intros s k. unfold end_rec. destruct (get_comm k (comms s)) as [x|]; [|reflexivity].
  destruct (ended_result (c_act x)) as [r|]; [|reflexivity].
  rewrite (proj2 (fold_answer_comms _ _ _)). reflexivity.
Qed.
Lemma clock_end_sleep : forall s p, clock (end_sleep s p) = clock s.
Proof. intros s p. unfold end_sleep. destruct (get_actor p (actors s)) as [a|]; [|reflexivity]. destruct (a_st a) as [| | |[| |]|]; reflexivity. Qed.
Lemma clock_handle_ended : forall s, clock (handle_ended s) = clock s.
Proof.
  intros s. unfold handle_ended. rewrite clock_fold by apply clock_end_sleep.
  rewrite clock_fold by apply clock_end_rec. rewrite clock_fold by apply clock_end_rec. reflexivity.
Qed.
Lemma clock_fire_timeout : forall s p, clock (fire_timeout s p) = clock s.
Proof.
  intros s p. unfold fire_timeout. destruct (get_actor p (actors s)) as [a|]; [|reflexivity].
  destruct (a_st a) as [| | |[| |k [dl|]]|]; try reflexivity.
  destruct (dl <=? clock s); [|reflexivity]. destruct (get_comm k (comms s)) as [x|]; [|reflexivity].
  destruct (timer_skips (c_act x)); reflexivity.
Qed.

(** solve() stops at the earliest pending date: no deadline and no completion date is jumped over. *)
Lemma advance_stops_at_earliest : forall s s' d,
  advance s = Some s' -> In d (all_dates s) -> stuck s' = false -> clock s' <= d.
Proof.
  intros s s' d H Hin Hst. unfold advance in H. destruct (next_date s) as [m|] eqn:En; [|discriminate].
  (* [omin] here and in the engine model are the same function *)
  pose proof (proj1 (EngineProofs.omin_fold _ None m En) d Hin) as Hle.
  destruct (m <? clock s); injection H as <-.
  - discriminate Hst.
  - rewrite clock_handle_ended. unfold fire_timers. rewrite clock_fold by apply clock_fire_timeout. cbn. exact Hle.
Qed.

(** the dates of a waiting actor and of a running action are among the pending dates *)
Lemma deadline_is_pending : forall s a k dl, In a (actors s) -> a_st a = SBlocked (BWait k (Some dl)) -> In dl (all_dates s).
Proof.
  intros s a k dl Hin Hst. unfold all_dates. apply in_or_app. left. apply in_flat_map. exists a. split; [exact Hin|].
  unfold actor_dates. rewrite Hst. left. reflexivity.
Qed.
Lemma completion_is_pending : forall s x dt, In x (comms s) -> c_act x = Some (ARun dt) -> In dt (all_dates s).
Proof.
  intros s x dt Hin Ha. unfold all_dates. apply in_or_app. right. apply in_flat_map. exists x. split; [exact Hin|].
  unfold comm_dates. rewrite Ha. left. reflexivity.
Qed.

(** the action of a comm is popped (FINISHED) by solve() exactly when its date is within the precision of the new clock *)
Lemma comm_pop_spec : forall s m x dt, c_act x = Some (ARun dt) ->
  c_act (pop_comm s m x) = if due (prec s) m dt (c_io x) then Some AFin else Some (ARun dt).
Proof. intros s m x dt Ha. unfold pop_comm, set_act, set_comm, pop_astate. cbn. rewrite Ha. destruct (due (prec s) m dt (c_io x)); reflexivity. Qed.
