(** C07 — proofs about SGV.Kernel.Barrier (all histories, every barrier size 1 <= n < 2^32). *)
From SGV Require Import Base.PlainLia Base.Facts Kernel.Barrier.
Local Open Scope Z_scope.

Lemma zseq_length : forall len s, length (zseq s len) = len.
Proof. induction len as [|k IH]; intros s; cbn; [reflexivity | now rewrite IH]. Qed.

Lemma zseq_snoc : forall len s, zseq s (S len) = zseq s len ++ [s + Z.of_nat len].
Proof.
  induction len as [|k IH]; intros s.
  - cbn. now rewrite Z.add_0_r.
  - change (zseq s (S (S k))) with (s :: zseq (s + 1) (S k)). rewrite IH. cbn [zseq app].
    do 3 f_equal. lia.
Qed.

Lemma In_zseq_from : forall len s x, In x (zseq s len) <-> s <= x < s + Z.of_nat len.
Proof.
  induction len as [|k IH]; intros s x; cbn [zseq In].
  - split; [tauto | lia].
  - rewrite IH. lia.
Qed.

Lemma wrap_pred : forall n, 1 <= n < W32 -> (n - 1) mod W32 = n - 1.
Proof. intros n Hn. apply Z.mod_small. lia. Qed.

(** Arrival [i] belongs to group [i / n].  The invariants below name the number [k] of the current group, which keeps
    their arithmetic linear; these two lemmas turn it into the quotients of the theorems' statements. *)
Lemma group_of : forall n k i, n * k <= i < n * (k + 1) -> i / n = k /\ i mod n = i - n * k.
Proof.
  intros n k i H. split; symmetry.
  - apply Z.div_unique with (i - n * k); lia.
  - apply Z.mod_unique with k; lia.
Qed.

(* the group of arrival i is complete after n * k + l arrivals (l < n) iff it is one of the first k groups *)
Lemma group_complete : forall n k l i, 0 <= l < n -> (n * (i / n + 1) <= n * k + l <-> i < n * k).
Proof.
  intros n k l i Hl. destruct (Z.lt_ge_cases i (n * k)) as [H|H].
  - assert (i / n < k) by (apply Z.div_lt_upper_bound; lia). split; [auto | nia].
  - assert (k <= i / n) by (apply Z.div_le_lower_bound; lia). split; [nia | lia].
Qed.

Lemma in_queue_iff : forall p q, in_queue p q = true <-> In p (map fst q).
Proof. intros p q. apply existsb_eqb_In. Qed.

(** What an arrival does (BarrierImpl::acquire_async); [step] is unfolded in [step_eff] only. *)
Inductive eff (b : bar) (p : pid) : bar -> out -> Prop :=
| Reject : in_queue p (queue b) = true -> eff b p b Rejected
| Queue : in_queue p (queue b) = false -> Z.of_nat (length (queue b)) < (expected b - 1) mod W32 ->
    eff b p (mkBar (expected b) (arrived b + 1) (queue b ++ [(p, arrived b)])) Blocked
| Last : in_queue p (queue b) = false -> (expected b - 1) mod W32 <= Z.of_nat (length (queue b)) ->
    eff b p (mkBar (expected b) (arrived b + 1) []) (Release (queue b) (p, arrived b)).

Lemma step_eff : forall b p, eff b p (fst (step b p)) (snd (step b p)).
Proof.
  intros b p. unfold step. destruct (in_queue p (queue b)) eqn:Hq; [now apply Reject|].
  destruct (Z.ltb_spec (Z.of_nat (length (queue b))) ((expected b - 1) mod W32)); [now apply Queue | now apply Last].
Qed.

Lemma step_eff_eq : forall b p b' o, step b p = (b', o) -> eff b p b' o.
Proof. intros b p b' o H. pose proof (step_eff b p) as E. now rewrite H in E. Qed.

Lemma run_cons : forall b p r, run b (p :: r) = snd (step b p) :: run (fst (step b p)) r.
Proof. intros. cbn. destruct (step b p). reflexivity. Qed.

Lemma step_rejected : forall b p b', step b p = (b', Rejected) <-> in_queue p (queue b) = true /\ b' = b.
Proof.
  intros b p b'. split.
  - intros E. apply step_eff_eq in E. inversion E; subst. auto.
  - intros [Hq ->]. unfold step. now rewrite Hq.
Qed.

(** the invariant of reachable states: [k] complete groups have been released, the queue holds the arrivals since *)
Definition Inv (n k : Z) (b : bar) : Prop :=
  expected b = n /\ arrived b = n * k + Z.of_nat (length (queue b)) /\ Z.of_nat (length (queue b)) < n /\
  map snd (queue b) = zseq (n * k) (length (queue b)).

Lemma inv_init : forall n, 1 <= n < W32 -> Inv n 0 (init n).
Proof.
  intros n Hn. unfold Inv, init. cbn [expected arrived queue length map zseq]. rewrite Z.mod_small by lia. repeat split; lia.
Qed.

Lemma inv_closed : forall n k b, Inv n k b ->
  arrived b / n = k /\ arrived b mod n = Z.of_nat (length (queue b)).
Proof. intros n k b (_ & Ha & Hl & _). destruct (group_of n k (arrived b)); lia. Qed.

(* a blocked arrival joins the current group *)
Lemma blocked_group : forall n k b p b', 1 <= n < W32 -> Inv n k b -> step b p = (b', Blocked) ->
  b' = mkBar n (arrived b + 1) (queue b ++ [(p, arrived b)]) /\ Inv n k b'.
Proof.
  intros n k b p b' Hn (He & Ha & Hl & Hq) E. apply step_eff_eq in E. inversion E as [|_ Hlt|]; subst b'.
  rewrite He, (wrap_pred n Hn) in *. split; [reflexivity|].
  unfold Inv. cbn. rewrite app_length, map_app, Nat.add_1_r, zseq_snoc, Hq, Ha. cbn. repeat split; lia.
Qed.

(* a releasing arrival is the n-th of the current group; the barrier starts the next one *)
Lemma release_group : forall n k b p b' w me, 1 <= n < W32 -> Inv n k b -> step b p = (b', Release w me) ->
  arrived b + 1 = n * (k + 1) /\ map snd (w ++ [me]) = zseq (n * k) (Z.to_nat n) /\ fst me = p /\
  b' = mkBar n (arrived b + 1) [] /\ Inv n (k + 1) b'.
Proof.
  intros n k b p b' w me Hn (He & Ha & Hl & Hq) E. apply step_eff_eq in E. inversion E as [| |_ Hge]; subst.
  rewrite (wrap_pred _ Hn) in Hge. set (l := length (queue b)) in *.
  assert (Hnl : Z.to_nat (expected b) = S l) by lia.
  split; [lia|]. split; [|split; [reflexivity|]].
  - rewrite map_app, Hnl, zseq_snoc, Hq. cbn. do 2 f_equal. lia.
  - split; [reflexivity|]. unfold Inv. cbn. repeat split; lia.
Qed.

Lemma inv_step : forall n b p, 1 <= n < W32 -> (exists k, Inv n k b) -> exists k, Inv n k (fst (step b p)).
Proof.
  intros n b p Hn [k HI]. destruct (step b p) as [b' o] eqn:E. cbn [fst]. destruct o.
  - apply step_rejected in E. destruct E as [_ ->]. eauto.
  - exists k. eapply blocked_group; eassumption.
  - exists (k + 1). eapply release_group; eassumption.
Qed.

Lemma exec_inv : forall n ops, 1 <= n < W32 -> exists k, Inv n k (exec n ops).
Proof.
  intros n ops Hn. unfold exec. apply (fold_left_inv _ (fun b => exists k, Inv n k b)).
  - intros b p. now apply inv_step.
  - exists 0. now apply inv_init.
Qed.

Theorem groups : forall n ops p b' w me, 1 <= n < W32 ->
  step (exec n ops) p = (b', Release w me) ->
  let m := arrived (exec n ops) + 1 in
  m mod n = 0 /\ map snd (w ++ [me]) = zseq (m - n) (Z.to_nat n) /\ fst me = p.
Proof.
  intros n ops p b' w me Hn Hs m. destruct (exec_inv n ops Hn) as [k HI].
  destruct (release_group n k _ p b' w me Hn HI Hs) as (Hm & Hseq & Hp & _). fold m in Hm.
  split; [|split; [|assumption]].
  - destruct (group_of n (k + 1) m); lia.
  - rewrite Hseq. f_equal. lia.
Qed.

Theorem release_iff_complete : forall n ops p, 1 <= n < W32 ->
  in_queue p (queue (exec n ops)) = false ->
  ((exists w me, snd (step (exec n ops) p) = Release w me) <-> (arrived (exec n ops) + 1) mod n = 0).
Proof.
  intros n ops p Hn Hin. destruct (exec_inv n ops Hn) as [k HI].
  destruct (step (exec n ops) p) as [b' o] eqn:Hs. cbn [snd]. destruct o.
  - apply step_rejected in Hs. destruct Hs as [Hs _]. congruence.
  - destruct (blocked_group n k _ p b' Hn HI Hs) as [-> HI']. apply inv_closed in HI'. cbn in HI'.
    rewrite app_length in HI'. cbn in HI'. split; [intros (w & me & H); discriminate | lia].
  - destruct (release_group n k _ p b' woken self Hn HI Hs) as (Hm & _). rewrite Hm.
    split; [intros _ | eauto]. destruct (group_of n (k + 1) (n * (k + 1))); lia.
Qed.

(* no wait returns early, from any reachable state *)
Lemma release_exact : forall n k b p b' w me e, 1 <= n < W32 -> Inv n k b ->
  step b p = (b', Release w me) -> In e (w ++ [me]) -> arrived b + 1 = n * (snd e / n + 1).
Proof.
  intros n k b p b' w me e Hn HI Hs Hin.
  destruct (release_group n k b p b' w me Hn HI Hs) as (Hm & Hseq & _).
  apply (in_map snd) in Hin. rewrite Hseq in Hin. apply In_zseq_from in Hin.
  destruct (group_of n k (snd e)) as [-> _]; lia.
Qed.

Lemma closed_form : forall n k b, Inv n k b ->
  Z.of_nat (length (queue b)) = arrived b mod n /\ map snd (queue b) = zseq (n * (arrived b / n)) (length (queue b)).
Proof. intros n k b HI. destruct (inv_closed n k b HI) as [-> ->]. destruct HI as (_ & _ & _ & Hq). auto. Qed.

Theorem rearm : forall n ops p b' w me, 1 <= n < W32 ->
  step (exec n ops) p = (b', Release w me) -> queue b' = [] /\ arrived b' mod n = 0.
Proof.
  intros n ops p b' w me Hn Hs. destruct (exec_inv n ops Hn) as [k HI].
  destruct (release_group n k _ p b' w me Hn HI Hs) as (_ & _ & _ & -> & HI').
  split; [reflexivity|]. now destruct (inv_closed n _ _ HI').
Qed.

(** every accepted arrival is counted exactly once *)
Definition accepted (o : out) : bool := match o with Rejected => false | _ => true end.

Lemma eff_arrived : forall b p b' o, eff b p b' o -> arrived b' = arrived b + (if accepted o then 1 else 0).
Proof. destruct 1; cbn; lia. Qed.

Lemma run_arrived_gen : forall ops b,
  arrived (fold_left (fun b p => fst (step b p)) ops b) =
  arrived b + Z.of_nat (length (filter accepted (run b ops))).
Proof.
  induction ops as [|p r IH]; intros b; [cbn; lia|].
  cbn [fold_left]. rewrite run_cons, IH, (eff_arrived _ _ _ _ (step_eff b p)). cbn [filter].
  destruct (accepted (snd (step b p))); cbn [length]; lia.
Qed.

Theorem arrival_counter : forall n ops,
  arrived (exec n ops) = Z.of_nat (length (filter accepted (run (init n) ops))).
Proof. intros. unfold exec. rewrite run_arrived_gen. reflexivity. Qed.

(** nobody is released while the queue stays below the threshold; size 0: expected_actors_ - 1 wraps to 2^32 - 1 *)
Lemma no_release_gen : forall ops b,
  Z.of_nat (length (queue b)) + Z.of_nat (length ops) <= (expected b - 1) mod W32 ->
  Forall (fun o => o = Blocked \/ o = Rejected) (run b ops).
Proof.
  induction ops as [|p r IH]; intros b Hl; [constructor|]. rewrite run_cons. cbn [length] in Hl.
  destruct (step b p) as [b' o] eqn:E. apply step_eff_eq in E. cbn [fst snd].
  destruct E as [_|_ Hlt|_ Hge]; [constructor; [auto|] ..|lia]; apply IH; cbn [expected queue]; rewrite ?app_length; cbn [length]; lia.
Qed.

Definition arrival_ok (n m : Z) (arrs : list arrival) (i : Z) (a : arrival) : Prop :=
  let c := n * (i / n + 1) in
  (c <= m -> c <= a_pos a /\ exists l, nth_error arrs (Z.to_nat (c - 1)) = Some l /\ a_ret a = a_req l) /\
  (m < c -> a_pos a < 0).

Lemma judge_one_sound : forall n m arrs i a, 1 <= n -> 0 <= i ->
  (judge_one n m arrs i a = 0 <-> arrival_ok n m arrs i a).
Proof.
  intros n m arrs i a Hn Hi. unfold judge_one, arrival_ok.
  assert (Hpos : 0 < n * (i / n + 1)) by (pose proof (Z.div_pos i n Hi); nia).
  set (c := n * (i / n + 1)) in *. clearbody c.
  destruct (c <=? m) eqn:Hc.
  - destruct (a_pos a <? 0) eqn:H0.
    { split; [discriminate | intros [H _]]. destruct H as [H _]; lia. }
    destruct (a_pos a <? c) eqn:H1.
    { split; [discriminate | intros [H _]]. destruct H as [H _]; lia. }
    destruct (nth_error arrs (Z.to_nat (c - 1))) as [l|] eqn:Hnth.
    + destruct (a_ret a =? a_req l) eqn:He.
      * split; [intros _ | reflexivity]. split; [intros _ | lia]. split; [lia|]. exists l. split; [reflexivity | lia].
      * split; [discriminate | intros [H _]]. destruct H as (_ & l' & Hl' & Hr); [lia|]. inv Hl'. lia.
    + split; [discriminate | intros [H _]]. destruct H as (_ & l' & Hl' & _); [lia | discriminate].
  - destruct (a_pos a <? 0) eqn:H0.
    + split; [intros _ | reflexivity]. split; lia.
    + split; [discriminate | intros [_ H]]. lia.
Qed.

Lemma judge_from_nth : forall n m arrs l i k a, nth_error l k = Some a ->
  nth_error (judge_from n m arrs i l) k = Some (judge_one n m arrs (i + Z.of_nat k) a).
Proof.
  induction l as [|x r IH]; intros i k a Hk; destruct k; cbn in *; try discriminate.
  - inv Hk. now rewrite Z.add_0_r.
  - rewrite (IH (i + 1) k a Hk). do 2 f_equal. lia.
Qed.

Lemma judge_from_length : forall n m arrs l i, length (judge_from n m arrs i l) = length l.
Proof. induction l; intros; cbn; [reflexivity | now rewrite IHl]. Qed.

Theorem judge_sound : forall n arrs, 1 <= n ->
  (Forall (fun v => v = 0) (judge n arrs) <->
  (forall k a, nth_error arrs k = Some a -> arrival_ok n (Z.of_nat (length arrs)) arrs (Z.of_nat k) a)).
Proof.
  intros n arrs Hn. unfold judge. rewrite Forall_forall. split.
  - intros H k a Hk. apply judge_one_sound; [lia | lia |]. apply H.
    pose proof (judge_from_nth n (Z.of_nat (length arrs)) arrs arrs 0 k a Hk) as Hj.
    rewrite Z.add_0_l in Hj. eapply nth_error_In; eassumption.
  - intros H v Hv. apply In_nth_error in Hv. destruct Hv as [k Hk].
    destruct (nth_error arrs k) as [a|] eqn:Ha.
    + rewrite (judge_from_nth _ _ _ _ 0 k a Ha) in Hk. rewrite Z.add_0_l in Hk. inv Hk. apply judge_one_sound; [lia | lia |]. now apply H.
    + apply nth_error_None in Ha. assert (Hs : nth_error (judge_from n (Z.of_nat (length arrs)) arrs 0 arrs) k <> None) by congruence.
      apply nth_error_Some in Hs. rewrite judge_from_length in Hs. lia.
Qed.

(** The two-simcall protocol: every interleaving of ALock / AWait by any number of actors, any reuse. *)
Definition key (a : acq) : pid * Z := (q_pid a, q_idx a).
Definition ungranted (a : acq) : bool := negb (q_granted a).

(* the barrier is in its group k, the ungranted live acquisitions are its queue, the granted ones belong to earlier
   groups and their issuers are not blocked *)
Definition SInv (n k : Z) (s : sbar) : Prop :=
  Inv n k (s_bar s) /\
  map key (filter ungranted (s_acqs s)) = queue (s_bar s) /\
  Forall (fun a => q_granted a = true -> q_waiting a = false /\ q_idx a < n * k) (s_acqs s).

Lemma find_acq_some : forall p l a, find_acq p l = Some a -> In a l /\ q_pid a = p.
Proof. intros p l a H. apply find_some in H. destruct H as [H1 H2]. split; [assumption | lia]. Qed.

Lemma find_acq_none : forall p l a, find_acq p l = None -> In a l -> q_pid a <> p.
Proof. intros p l a H Hin. pose proof (find_none _ _ H a Hin) as Hx. cbn in Hx. lia. Qed.

(* [remove_first] and [upd_first] act on the acquisition that [find_acq] finds *)
Lemma find_acq_split : forall p l a, find_acq p l = Some a ->
  exists l1 l2, l = l1 ++ a :: l2 /\ remove_first p l = l1 ++ l2 /\ forall f, upd_first p f l = l1 ++ f a :: l2.
Proof.
  unfold find_acq. induction l as [|x r IH]; intros a Hf; [discriminate|]. cbn in *. destruct (q_pid x =? p).
  - inv Hf. exists [], r. auto.
  - destruct (IH a Hf) as (l1 & l2 & -> & Hr & Hu). exists (x :: l1), l2. cbn. rewrite Hr.
    repeat split. intros f. now rewrite Hu.
Qed.

Lemma ungranted_in_queue : forall l q a, map key (filter ungranted l) = q -> In a l -> q_granted a = false ->
  In (key a) q.
Proof.
  intros l q a Hq Hin Hg. rewrite <- Hq. apply in_map. apply filter_In. split; [assumption|].
  unfold ungranted. now rewrite Hg.
Qed.

Lemma grant_all_granted : forall q l, (forall a, In a l -> q_granted a = false -> in_queue (q_pid a) q = true) ->
  filter ungranted (grant_acqs q l) = [].
Proof.
  intros q l. induction l as [|a r IH]; intros H; [reflexivity|].
  assert (Hr : forall x, In x r -> q_granted x = false -> in_queue (q_pid x) q = true)
    by (intros x Hx; apply H; now right).
  cbn [grant_acqs]. destruct (in_queue (q_pid a) q) eqn:Hq.
  - destruct (q_waiting a); [now apply IH|]. cbn [filter]. unfold ungranted at 1. cbn. now apply IH.
  - cbn [filter]. unfold ungranted at 1. destruct (q_granted a) eqn:Hg; cbn [negb]; [now apply IH|].
    rewrite (H a (or_introl eq_refl) Hg) in Hq. discriminate.
Qed.

Lemma grant_forall : forall q l B B',
  Forall (fun a => q_granted a = true -> q_waiting a = false /\ q_idx a < B) l ->
  (forall a, In a l -> q_granted a = false -> q_idx a < B') -> B <= B' ->
  Forall (fun a => q_granted a = true -> q_waiting a = false /\ q_idx a < B') (grant_acqs q l).
Proof.
  intros q l B B' H. induction H as [|a r Ha Hr IH]; intros Hu HB; cbn [grant_acqs]; [constructor|].
  assert (IH' : Forall (fun a => q_granted a = true -> q_waiting a = false /\ q_idx a < B') (grant_acqs q r))
    by (apply IH; [intros x Hx; apply Hu; now right | assumption]).
  destruct (in_queue (q_pid a) q).
  - destruct (q_waiting a) eqn:Hw; [assumption|]. constructor; [|assumption].
    intros _. cbn [set_granted q_waiting q_idx]. split; [assumption|].
    destruct (q_granted a) eqn:Hg.
    + destruct (Ha eq_refl). lia.
    + apply Hu; [now left | assumption].
  - constructor; [|assumption]. intros Hg. destruct (Ha Hg). split; [assumption | lia].
Qed.

(* an actor that may issue ALock is not in the queue: the one-simcall [step] does not reject it *)
Lemma lock_not_in_queue : forall n k s p, SInv n k s -> find_acq p (s_acqs s) = None ->
  in_queue p (queue (s_bar s)) = false.
Proof.
  intros n k s p (_ & Hq & _) Hf. destruct (in_queue p (queue (s_bar s))) eqn:Hin; [|reflexivity].
  apply in_queue_iff in Hin. rewrite <- Hq, map_map in Hin. apply in_map_iff in Hin. destruct Hin as (a & Hp & Ha).
  apply filter_In in Ha. exfalso. exact (find_acq_none p _ a Hf (proj1 Ha) Hp).
Qed.

(** one accepted ALock IS one step of the one-simcall protocol on the barrier component *)
Inductive lock_eff (s : sbar) (p : pid) : sbar -> sout -> Prop :=
| LockQueued b' : step (s_bar s) p = (b', Blocked) ->
    lock_eff s p (mkS b' (s_acqs s ++ [mkAcq p (arrived (s_bar s)) false false])) SQueued
| LockGrant b' : step (s_bar s) p = (b', Release (queue (s_bar s)) (p, arrived (s_bar s))) ->
    lock_eff s p (mkS b' (grant_acqs (queue (s_bar s)) (s_acqs s) ++ [mkAcq p (arrived (s_bar s)) true false]))
      (SGrant (filter (is_waiting (s_acqs s)) (queue (s_bar s)))
              (filter (fun e => negb (is_waiting (s_acqs s) e)) (queue (s_bar s))) (p, arrived (s_bar s))).

Lemma sstep_lock : forall n k s p s' x, SInv n k s -> find_acq p (s_acqs s) = None ->
  sstep s (ALock p) = (s', x) -> lock_eff s p s' x.
Proof.
  intros n k s p s' x HI Hf. pose proof (lock_not_in_queue n k s p HI Hf) as Hin. unfold sstep. rewrite Hf.
  destruct (Z.of_nat (length (queue (s_bar s))) <? (expected (s_bar s) - 1) mod W32) eqn:Hc; intros H; inv H;
    constructor; unfold step; now rewrite Hin, Hc.
Qed.

Lemma sstep_lock_rejected : forall s p a, find_acq p (s_acqs s) = Some a -> sstep s (ALock p) = (s, SRejected).
Proof. intros s p a Hf. unfold sstep. now rewrite Hf. Qed.

Lemma sstep_wait_bar : forall s p, s_bar (fst (sstep s (AWait p))) = s_bar s.
Proof.
  intros s p. unfold sstep. destruct (find_acq p (s_acqs s)) as [a|]; [|reflexivity].
  destruct (q_waiting a); [reflexivity|]. destruct (q_granted a); reflexivity.
Qed.

Lemma sinv_init : forall n, 1 <= n < W32 -> SInv n 0 (sinit n).
Proof. intros n Hn. split; [now apply inv_init|]. split; [reflexivity | constructor]. Qed.

Lemma queue_idx_bounds : forall n k b e, Inv n k b -> In e (queue b) -> n * k <= snd e < arrived b.
Proof.
  intros n k b e (_ & Ha & _ & Hq) He. apply (in_map snd) in He. rewrite Hq in He. apply In_zseq_from in He. lia.
Qed.

Lemma sinv_step : forall n s o, 1 <= n < W32 -> (exists k, SInv n k s) -> exists k, SInv n k (fst (sstep s o)).
Proof.
  intros n s o Hn [k HI]. pose proof HI as (Hb & Hq & Hg). destruct o as [p|p].
  - destruct (find_acq p (s_acqs s)) as [a|] eqn:Hf; [rewrite (sstep_lock_rejected s p a Hf); eauto|].
    destruct (sstep s (ALock p)) as [s' x] eqn:E. cbn [fst]. apply (sstep_lock n k s p s' x HI Hf) in E.
    destruct E as [b' E|b' E].
    + destruct (blocked_group n k _ p b' Hn Hb E) as [-> Hb']. exists k. split; [exact Hb'|]. cbn. split.
      * rewrite filter_app, map_app, Hq. reflexivity.
      * apply Forall_app. split; [exact Hg|]. repeat constructor. discriminate.
    + destruct (release_group n k _ p b' _ _ Hn Hb E) as (Hm & _ & _ & -> & Hb'). exists (k + 1).
      split; [exact Hb'|]. cbn. split.
      * rewrite filter_app, grant_all_granted; [reflexivity|].
        intros a Ha Hga. apply in_queue_iff. apply (in_map fst _ (key a)). eapply ungranted_in_queue; eassumption.
      * apply Forall_app. split.
        -- apply grant_forall with (B := n * k); [exact Hg | | lia].
           intros a Ha Hga. pose proof (ungranted_in_queue _ _ a Hq Ha Hga) as Hin.
           apply (queue_idx_bounds n k _ _ Hb) in Hin. cbn in Hin. lia.
        -- repeat constructor. cbn. lia.
  - exists k. unfold sstep. destruct (find_acq p (s_acqs s)) as [a|] eqn:Hf; [|exact HI].
    destruct (q_waiting a) eqn:Hw; [exact HI|].
    destruct (find_acq_split p _ a Hf) as (l1 & l2 & Hl & Hr & Hu). rewrite Hl, filter_app in Hq. cbn [filter] in Hq.
    rewrite Hl in Hg. apply Forall_app in Hg. destruct Hg as [Hg1 Hg2]. inversion Hg2 as [|? ? Hga Hg3]; subst.
    unfold ungranted at 2 in Hq.
    destruct (q_granted a) eqn:Hgr; cbn [fst]; (split; [exact Hb|]); cbn [s_bar s_acqs negb] in *; split.
    + rewrite Hr, filter_app. exact Hq.
    + rewrite Hr. apply Forall_app. auto.
    + rewrite Hu, filter_app. cbn [filter]. unfold ungranted at 2. cbn [set_waiting q_granted]. rewrite Hgr.
      rewrite map_app in *. exact Hq.
    + rewrite Hu. apply Forall_app. split; [assumption|]. constructor; [|assumption]. cbn. congruence.
Qed.

Theorem split_inv : forall n ops, 1 <= n < W32 -> exists k, SInv n k (sexec n ops).
Proof.
  intros n ops Hn. unfold sexec. apply (fold_left_inv _ (fun s => exists k, SInv n k s)).
  - intros s o. now apply sinv_step.
  - exists 0. now apply sinv_init.
Qed.

(* a live acquisition is granted exactly when the n arrivals of its group happened *)
Lemma granted_iff_complete : forall n k s a, 1 <= n < W32 -> SInv n k s -> In a (s_acqs s) ->
  (q_granted a = true <-> n * (q_idx a / n + 1) <= arrived (s_bar s)).
Proof.
  intros n k s a Hn (Hb & Hq & Hg) Ha. pose proof Hb as (_ & -> & Hl & _). rewrite group_complete by lia.
  destruct (q_granted a) eqn:Hga.
  - rewrite Forall_forall in Hg. destruct (Hg a Ha Hga) as [_ Hi]. tauto.
  - apply (ungranted_in_queue _ _ a Hq Ha) in Hga. apply (queue_idx_bounds n k _ _ Hb) in Hga. cbn in Hga.
    split; [discriminate | lia].
Qed.

(** a wait returns only when the n arrivals of its group happened *)
Theorem split_no_early_return : forall n ops o s' x e, 1 <= n < W32 ->
  sstep (sexec n ops) o = (s', x) -> In e (returned x) -> n * (snd e / n + 1) <= arrived (s_bar s').
Proof.
  intros n ops o s' x e Hn Hs He. destruct (split_inv n ops Hn) as [k HI]. set (s := sexec n ops) in *.
  destruct o as [p|p].
  - destruct (find_acq p (s_acqs s)) as [a|] eqn:Hf.
    { rewrite (sstep_lock_rejected s p a Hf) in Hs. inv Hs. destruct He. }
    apply (sstep_lock n k s p s' x HI Hf) in Hs. destruct Hs as [b' E|b' E]; [destruct He|]. cbn in He |- *.
    destruct HI as (Hinv & _). apply filter_In in He.
    rewrite <- (release_exact n k _ p b' _ _ e Hn Hinv E) by (apply in_or_app; tauto).
    destruct (release_group n k _ p b' _ _ Hn Hinv E) as (_ & _ & _ & -> & _). cbn. lia.
  - unfold sstep in Hs. destruct (find_acq p (s_acqs s)) as [a|] eqn:Hf; [|inv Hs; destruct He].
    destruct (q_waiting a); [inv Hs; destruct He|].
    destruct (q_granted a) eqn:Hg; inv Hs; cbn [returned] in He; [|destruct He].
    destruct He as [<-|[]]. cbn [snd s_bar].
    apply (granted_iff_complete n k s a Hn HI); [|assumption]. apply (find_acq_some p _ a Hf).
Qed.

(** a wait on a live acquisition returns at once iff its group is complete, blocks iff it is not *)
Theorem split_wait_iff_complete : forall n ops p a, 1 <= n < W32 ->
  let s := sexec n ops in
  find_acq p (s_acqs s) = Some a -> q_waiting a = false ->
  (n * (q_idx a / n + 1) <= arrived (s_bar s) -> snd (sstep s (AWait p)) = SReturns (p, q_idx a)) /\
  (arrived (s_bar s) < n * (q_idx a / n + 1) -> snd (sstep s (AWait p)) = SBlocks).
Proof.
  intros n ops p a Hn s Hf Hw. destruct (split_inv n ops Hn) as [k HI]. fold s in HI.
  pose proof (granted_iff_complete n k s a Hn HI (proj1 (find_acq_some p _ a Hf))) as Hg.
  unfold sstep. rewrite Hf, Hw. destruct (q_granted a); cbn [snd]; split; intros H; try reflexivity.
  - destruct Hg as [Hg _]. specialize (Hg eq_refl). lia.
  - destruct Hg as [_ Hg]. specialize (Hg H). discriminate.
Qed.

(** nobody stays blocked once its group is complete: the blocked waiters are in the queue (their group is the
    current, incomplete one) *)
Theorem split_blocked_incomplete : forall n ops a, 1 <= n < W32 ->
  let s := sexec n ops in
  In a (s_acqs s) -> q_waiting a = true ->
  q_granted a = false /\ In (q_pid a, q_idx a) (queue (s_bar s)) /\ arrived (s_bar s) < n * (q_idx a / n + 1).
Proof.
  intros n ops a Hn s Ha Hw. destruct (split_inv n ops Hn) as [k HI]. fold s in HI.
  pose proof (granted_iff_complete n k s a Hn HI Ha) as Hg. destruct HI as (_ & Hq & Hf).
  rewrite Forall_forall in Hf. specialize (Hf a Ha).
  destruct (q_granted a) eqn:Hga.
  - destruct (Hf eq_refl) as [H _]. congruence.
  - split; [reflexivity|]. split; [exact (ungranted_in_queue _ _ a Hq Ha Hga)|].
    apply Z.nle_gt. intros Hc. apply Hg in Hc. discriminate.
Qed.

Theorem split_grant : forall n ops p s' w mk me, 1 <= n < W32 ->
  let s := sexec n ops in
  sstep s (ALock p) = (s', SGrant w mk me) ->
  step (s_bar s) p = (s_bar s', Release (queue (s_bar s)) me) /\
  (forall e, In e (queue (s_bar s)) <-> In e w \/ In e mk) /\
  (forall e, In e w <-> In e (queue (s_bar s)) /\ is_waiting (s_acqs s) e = true) /\
  queue (s_bar s') = [] /\ filter ungranted (s_acqs s') = [] /\ arrived (s_bar s') mod n = 0.
Proof.
  intros n ops p s' w mk me Hn s Hs. destruct (split_inv n ops Hn) as [k HI]. fold s in HI.
  destruct (find_acq p (s_acqs s)) as [a|] eqn:Hf; [rewrite (sstep_lock_rejected s p a Hf) in Hs; discriminate|].
  destruct (sinv_step n s (ALock p) Hn (ex_intro _ k HI)) as (k' & HI' & Hq' & _). rewrite Hs in HI', Hq'. cbn [fst] in HI', Hq'.
  apply (sstep_lock n k s p _ _ HI Hf) in Hs. inversion Hs as [|b' E]; subst. cbn [s_bar] in *.
  destruct HI as (Hinv & _). destruct (release_group n k _ p b' _ _ Hn Hinv E) as (_ & _ & _ & Hb' & _).
  split; [assumption|]. split; [|split].
  - intros e. rewrite !filter_In. destruct (is_waiting (s_acqs s) e); cbn [negb]; intuition congruence.
  - intros e. rewrite filter_In. tauto.
  - assert (Hq0 : queue b' = []) by now rewrite Hb'. split; [assumption|]. split.
    + rewrite Hq0 in Hq'. now apply map_eq_nil in Hq'.
    + apply inv_closed in HI'. rewrite Hq0 in HI'. apply HI'.
Qed.

(** refinement: the barrier component of the split protocol after any interleaving is the state of the one-simcall
    protocol after the accepted ALocks (in their order), none of which it rejects, and it forms the same groups *)
Lemma split_refines_gen : forall n ops s, 1 <= n < W32 -> (exists k, SInv n k s) ->
  s_bar (fold_left (fun s o => fst (sstep s o)) ops s) =
    fold_left (fun b p => fst (step b p)) (map fst (locks s ops)) (s_bar s) /\
  run (s_bar s) (map fst (locks s ops)) = map snd (locks s ops).
Proof.
  intros n ops. induction ops as [|o r IH]; intros s Hn HI; [split; reflexivity|].
  pose proof (sinv_step n s o Hn HI) as HI'. destruct HI as [k HI]. cbn [fold_left locks].
  destruct o as [p|p].
  - destruct (find_acq p (s_acqs s)) as [a|] eqn:Hf.
    + rewrite (sstep_lock_rejected s p a Hf) in *. cbn [fst] in *. apply IH; assumption.
    + destruct (sstep s (ALock p)) as [s1 x] eqn:Hs. cbn [fst] in HI' |- *.
      destruct (IH s1 Hn HI') as [IH1 IH2].
      apply (sstep_lock n k s p _ _ HI Hf) in Hs. destruct Hs as [b' E|b' E];
        cbn [map fst snd fold_left proj_out]; rewrite run_cons, E; cbn [fst snd s_bar] in *; rewrite IH2; auto.
  - pose proof (sstep_wait_bar s p) as Hb. destruct (sstep s (AWait p)) as [s1 x]. cbn [fst] in *.
    destruct (IH s1 Hn HI') as [IH1 IH2]. rewrite Hb in IH1, IH2. split; assumption.
Qed.

Lemma locks_accepted : forall ops s, Forall (fun o => accepted o = true) (map snd (locks s ops)).
Proof.
  induction ops as [|o r IH]; intros s; cbn [locks map]; [constructor|].
  destruct (sstep s o) as [s1 x]. destruct o as [p|p]; [|apply IH].
  destruct x; cbn [map snd]; try apply IH; (constructor; [reflexivity | apply IH]).
Qed.

Theorem split_refines : forall n ops, 1 <= n < W32 ->
  let lk := locks (sinit n) ops in
  s_bar (sexec n ops) = exec n (map fst lk) /\
  run (init n) (map fst lk) = map snd lk /\
  Forall (fun o => accepted o = true) (map snd lk).
Proof.
  intros n ops Hn lk. destruct (split_refines_gen n ops (sinit n) Hn (ex_intro _ 0 (sinv_init n Hn))) as [H1 H2].
  split; [exact H1|]. split; [exact H2 | apply locks_accepted].
Qed.

(** arrivals are numbered in ALock order: [arrived] counts the accepted ALocks *)
Theorem split_arrival_counter : forall n ops, 1 <= n < W32 ->
  arrived (s_bar (sexec n ops)) = Z.of_nat (length (locks (sinit n) ops)).
Proof.
  intros n ops Hn. destruct (split_refines n ops Hn) as (H1 & H2 & H3).
  rewrite H1, arrival_counter, H2, filter_all, map_length by assumption. reflexivity.
Qed.
