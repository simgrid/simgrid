(** C08 — proofs about the mailbox model (SGV.Kernel.Mailbox). *)
From SGV Require Import Base.PlainLia Kernel.Mailbox Base.Facts.
From Coq Require Import Permutation.
Local Open Scope Z_scope.

Lemma matches_ent_kind : forall ty me e, matches_ent ty me e = true -> fst e = ty.
Proof.
  intros ty me [k c] H. unfold matches_ent in H. cbn [fst snd] in *.
  destruct k, ty; cbn in H; try discriminate; reflexivity.
Qed.

Lemma find_remove_hit : forall ty me l1 c l2,
  Forall (fun e => matches_ent ty me e = false) l1 -> matches_ent ty me (ty, c) = true ->
  find_remove ty me (l1 ++ (ty, c) :: l2) = Some (c, l1 ++ l2).
Proof.
  induction 1 as [|e l1 E _ IH]; intros M; cbn [app find_remove]; [rewrite M|rewrite E, IH by exact M]; reflexivity.
Qed.
Lemma find_remove_miss : forall ty me q, Forall (fun e => matches_ent ty me e = false) q -> find_remove ty me q = None.
Proof. induction 1 as [|e q E _ IH]; cbn [find_remove]; [|rewrite E, IH]; reflexivity. Qed.

Lemma find_remove_cases : forall ty me q,
  (exists l1 c l2, q = l1 ++ (ty, c) :: l2 /\ Forall (fun e => matches_ent ty me e = false) l1 /\
                   matches_ent ty me (ty, c) = true /\ find_remove ty me q = Some (c, l1 ++ l2)) \/
  (Forall (fun e => matches_ent ty me e = false) q /\ find_remove ty me q = None).
Proof.
  intros ty me q. destruct (first_split (matches_ent ty me) q) as [N|(l1 & [k c] & l2 & -> & N & M)].
  - right. split; [exact N|apply find_remove_miss; exact N].
  - left. pose proof (matches_ent_kind _ _ _ M) as K. cbn in K. subst k.
    exists l1, c, l2. auto using find_remove_hit.
Qed.

Lemma matches_send : forall r s, matches_ent true r (true, s) = compat s r.
Proof. intros. unfold matches_ent, compat. cbn. reflexivity. Qed.
Lemma matches_recv : forall r s, matches_ent false s (false, r) = compat s r.
Proof. intros. unfold matches_ent, compat. cbn. apply andb_comm. Qed.
Lemma matches_other : forall ty me c, matches_ent ty me (negb ty, c) = false.
Proof. intros. unfold matches_ent. cbn. destruct ty; reflexivity. Qed.

Definition pend (ty : bool) (l : list qent) : list comm := map snd (filter (fun e => Bool.eqb (fst e) ty) l).
Definition only (ty k : bool) (c : comm) : list comm := if Bool.eqb k ty then [c] else [].

Lemma pend_cons : forall ty k c l, pend ty ((k, c) :: l) = only ty k c ++ pend ty l.
Proof. intros. unfold pend, only. cbn. destruct (Bool.eqb k ty); reflexivity. Qed.
Lemma pending_pend : forall ty m, pending ty m = pend ty (mq m ++ mdone m).
Proof. reflexivity. Qed.
Lemma in_pending : forall ty c m, In c (pending ty m) <-> In (ty, c) (mq m ++ mdone m).
Proof.
  intros. unfold pending. rewrite in_map_iff. split.
  - intros ([k c0] & E & I). cbn in E. subst c0. apply filter_In in I. destruct I as [I K]. cbn in K.
    apply Bool.eqb_prop in K. subst. exact I.
  - intros I. exists (ty, c). split; auto. apply filter_In. split; auto. cbn. apply Bool.eqb_reflx.
Qed.

Lemma pend_perm : forall ty l l', Permutation l l' -> Permutation (pend ty l) (pend ty l').
Proof.
  induction 1 as [|[k c] l l' _ IH|[k c] [k' c'] l|l l' l'' _ IH1 _ IH2]; rewrite ?pend_cons.
  - reflexivity.
  - apply Permutation_app_head, IH.
  - apply Permutation_app_swap_app.
  - exact (Permutation_trans IH1 IH2).
Qed.

Lemma matches_of_app : forall a b, matches_of (a ++ b) = matches_of a ++ matches_of b.
Proof. induction a as [|[s r|c f] a IH]; intros; cbn; rewrite ?IH; reflexivity. Qed.

(** * isend and irecv are one function
    A request [me] of kind [ty] looks for a partner of the other kind in one of the two queues ([src]: false =
    comm_queue_, true = done_comm_queue_); it takes the first one that matches, or else waits in queue [dst]. *)
Definition getq (d : bool) (m : mbox) : list qent := if d then mdone m else mq m.
Definition setq (d : bool) (m : mbox) (l : list qent) : mbox :=
  if d then mkMbox (mq m) l (mperm m) else mkMbox l (mdone m) (mperm m).
Definition match_ev (ty : bool) (me c : comm) : event := if ty then EMatch me c else EMatch c me.

Definition request (ty : bool) (me : comm) (src dst : bool) (m : mbox) : mbox * list event :=
  match find_remove (negb ty) me (getq src m) with
  | Some (c, l) => (setq src m l, [match_ev ty me c])
  | None => (setq dst m (getq dst m ++ [(ty, me)]), [])
  end.

Lemma isend_request : forall m s, isend m s = request true s false (is_some (mperm m)) m.
Proof.
  intros. unfold isend, request. destruct (is_some (mperm m)); reflexivity.
Qed.
Lemma irecv_request : forall m r, irecv m r = request false r (is_some (mperm m) && negb (is_nil (mdone m))) false m.
Proof.
  intros. unfold irecv, request. destruct (is_some (mperm m) && negb (is_nil (mdone m))); reflexivity.
Qed.

Lemma match_ev_compat : forall ty me c s r,
  matches_ent (negb ty) me (negb ty, c) = true -> In (s, r) (matches_of [match_ev ty me c]) -> compat s r = true.
Proof.
  intros ty me c s r M I. destruct ty; cbn in M, I; destruct I as [I|[]]; inv I;
    [rewrite <- matches_recv|rewrite <- matches_send]; exact M.
Qed.

Lemma getq_in : forall d m e, In e (getq d m) -> In e (mq m ++ mdone m).
Proof. intros d m e I. apply in_or_app. destruct d; auto. Qed.

Lemma content_take : forall d m l1 e l2, getq d m = l1 ++ e :: l2 ->
  Permutation (mq m ++ mdone m) (e :: mq (setq d m (l1 ++ l2)) ++ mdone (setq d m (l1 ++ l2))).
Proof.
  intros d m l1 e l2 E. destruct d; cbn [getq setq mq mdone] in *; rewrite E; [rewrite !app_assoc|rewrite <- !app_assoc];
    symmetry; apply Permutation_middle.
Qed.
Lemma content_push : forall d m e,
  Permutation (mq (setq d m (getq d m ++ [e])) ++ mdone (setq d m (getq d m ++ [e]))) (e :: mq m ++ mdone m).
Proof.
  intros d m e. destruct d; cbn [getq setq mq mdone]; [rewrite app_assoc|rewrite <- app_assoc]; symmetry;
    [apply Permutation_cons_append|apply Permutation_middle].
Qed.

(** * exactly once: conservation of requests, as multisets *)
Lemma pending_take : forall ty d m l1 k c l2, getq d m = l1 ++ (k, c) :: l2 ->
  Permutation (pending ty m) (only ty k c ++ pending ty (setq d m (l1 ++ l2))).
Proof. intros ty d m l1 k c l2 E. rewrite !pending_pend, <- pend_cons. apply pend_perm, content_take, E. Qed.
Lemma pending_push : forall ty d m k c,
  Permutation (pending ty (setq d m (getq d m ++ [(k, c)]))) (only ty k c ++ pending ty m).
Proof. intros ty d m k c. rewrite !pending_pend, <- pend_cons. apply pend_perm, content_push. Qed.

Definition side (ty : bool) : comm * comm -> comm := if ty then fst else snd.
Definition reqs1 (ty : bool) (o : op) : list comm :=
  match o with OSend c => only ty true c | ORecv c => only ty false c | _ => [] end.
Definition reqs_of (ty : bool) (ops : list op) : list comm := if ty then sends_of ops else recvs_of ops.

Lemma request_conserves : forall ty' ty me src dst m,
  Permutation (pending ty' m ++ only ty' ty me)
              (map (side ty') (matches_of (snd (request ty me src dst m))) ++ pending ty' (fst (request ty me src dst m))).
Proof.
  intros. unfold request.
  destruct (find_remove_cases (negb ty) me (getq src m)) as [(l1 & c & l2 & E & _ & _ & ->)|[_ ->]]; cbn [fst snd].
  - rewrite (pending_take ty' _ _ _ _ _ _ E). destruct ty, ty'; cbn; rewrite ?app_nil_r;
      auto using Permutation_sym, Permutation_cons_append.
  - cbn [matches_of map app]. rewrite pending_push. apply Permutation_app_comm.
Qed.

Lemma step_conserves : forall ty m o,
  Permutation (pending ty m ++ reqs1 ty o)
              (map (side ty) (matches_of (snd (step m o))) ++ pending ty (fst (step m o))).
Proof.
  intros ty m o. destruct o as [s|r|p|c]; cbn [step reqs1].
  - rewrite isend_request. apply request_conserves.
  - rewrite irecv_request. apply request_conserves.
  - rewrite app_nil_r. reflexivity.
  - rewrite app_nil_r. reflexivity.
Qed.

Lemma reqs_of_cons : forall ty o t, reqs_of ty (o :: t) = reqs1 ty o ++ reqs_of ty t.
Proof. destruct ty, o; reflexivity. Qed.

Lemma run_cons : forall m o t, run m (o :: t) =
  (fst (run (fst (step m o)) t), snd (step m o) ++ snd (run (fst (step m o)) t)).
Proof. intros. cbn [run]. destruct (step m o) as [m1 ev]. cbn [fst snd]. destruct (run m1 t). reflexivity. Qed.

Lemma run_conserves : forall ty ops m,
  Permutation (pending ty m ++ reqs_of ty ops)
              (map (side ty) (matches_of (snd (run m ops))) ++ pending ty (fst (run m ops))).
Proof.
  induction ops as [|o t IH]; intros m.
  - destruct ty; cbn; rewrite app_nil_r; reflexivity.
  - rewrite run_cons. cbn [fst snd]. rewrite reqs_of_cons, matches_of_app, map_app.
    rewrite app_assoc, (step_conserves ty m o), <- !app_assoc, IH. reflexivity.
Qed.

Lemma step_pairs_compat : forall m o s r, In (s, r) (matches_of (snd (step m o))) -> compat s r = true.
Proof.
  assert (R : forall ty me src dst m s r, In (s, r) (matches_of (snd (request ty me src dst m))) -> compat s r = true).
  { intros ty me src dst m s r. unfold request.
    destruct (find_remove_cases (negb ty) me (getq src m)) as [(l1 & c & l2 & _ & _ & M & ->)|[_ ->]]; cbn [snd];
      [apply match_ev_compat; exact M|intros []]. }
  intros m o s r. destruct o as [s0|r0|p|c]; cbn [step]; rewrite ?isend_request, ?irecv_request; try apply R; intros [].
Qed.

Lemma run_pairs_compat : forall ops m s r, In (s, r) (matches_of (snd (run m ops))) -> compat s r = true.
Proof.
  induction ops as [|o t IH]; intros m s r I.
  - destruct I.
  - rewrite run_cons in I. cbn [snd] in I. rewrite matches_of_app in I. apply in_app_or in I. destruct I as [I|I].
    + eapply step_pairs_compat; exact I.
    + eapply IH; exact I.
Qed.

Theorem exactly_once : forall ops,
  let res := run mbox_init ops in
  Permutation (sends_of ops) (map fst (matches_of (snd res)) ++ pending_sends (fst res)) /\
  Permutation (recvs_of ops) (map snd (matches_of (snd res)) ++ pending_recvs (fst res)) /\
  (forall s r, In (s, r) (matches_of (snd res)) ->
     In s (sends_of ops) /\ In r (recvs_of ops) /\ compat s r = true).
Proof.
  intros ops res. pose proof (run_conserves true ops mbox_init : Permutation (sends_of ops) _) as PS.
  pose proof (run_conserves false ops mbox_init : Permutation (recvs_of ops) _) as PR. fold res in PS, PR.
  split; [exact PS|]. split; [exact PR|]. intros s r I. repeat split.
  - eapply Permutation_in; [apply Permutation_sym; exact PS|]. apply in_or_app. left. apply (in_map fst _ _ I).
  - eapply Permutation_in; [apply Permutation_sym; exact PR|]. apply in_or_app. left. apply (in_map snd _ _ I).
  - eapply run_pairs_compat. exact I.
Qed.

(* with distinct issue numbers nothing is delivered twice and no receive is served twice *)
Theorem no_duplicate_delivery : forall ops,
  NoDup (map cid (sends_of ops)) -> NoDup (map cid (recvs_of ops)) ->
  let ms := matches_of (snd (run mbox_init ops)) in
  NoDup (map cid (map fst ms)) /\ NoDup (map cid (map snd ms)).
Proof.
  intros ops NS NR ms. destruct (exactly_once ops) as (PS & PR & _). fold ms in PS, PR.
  assert (K : forall l a b : list comm, NoDup (map cid l) -> Permutation l (a ++ b) -> NoDup (map cid a)).
  { intros l a b N P. apply (Permutation_map cid) in P. rewrite map_app in P. eapply nodup_app_l, Permutation_NoDup; eassumption. }
  split; [exact (K _ _ _ NS PS)|exact (K _ _ _ NR PR)].
Qed.

(** * the invariant behind "oldest accepted first" *)
Fixpoint sorted (l : list qent) : Prop :=
  match l with
  | [] => True
  | a :: t => Forall (fun b => cid (snd a) < cid (snd b)) t /\ sorted t
  end.
Definition bounded (n : Z) (l : list qent) : Prop := Forall (fun e => cid (snd e) < n) l.

Lemma sorted_after : forall l1 a l2, sorted (l1 ++ a :: l2) -> Forall (fun b => cid (snd a) < cid (snd b)) l2.
Proof.
  induction l1 as [|x l1 IH]; intros a l2 H; cbn in H; destruct H as [H1 H2]; [exact H1|]. eapply IH; exact H2.
Qed.
Lemma sorted_remove : forall l1 a l2, sorted (l1 ++ a :: l2) -> sorted (l1 ++ l2).
Proof.
  induction l1 as [|x l1 IH]; intros a l2 H; cbn in H; destruct H as [H1 H2]; cbn; [exact H2|].
  split; [|eapply IH; exact H2]. apply Forall_app in H1. destruct H1 as [A B]. inversion B; subst.
  apply Forall_app. split; assumption.
Qed.
Lemma sorted_snoc : forall l a, sorted l -> Forall (fun b => cid (snd b) < cid (snd a)) l -> sorted (l ++ [a]).
Proof.
  induction l as [|x l IH]; intros a S F; cbn; [split; [constructor|exact I]|].
  destruct S as [S1 S2]. inversion F; subst. split; [|apply IH; assumption].
  apply Forall_app. split; [exact S1|]. constructor; [assumption|constructor].
Qed.
Lemma bounded_mono : forall n n' l, bounded n l -> n <= n' -> bounded n' l.
Proof. intros n n' l B L. unfold bounded in *. eapply Forall_impl; [|exact B]. cbn. intros; lia. Qed.
Lemma bounded_remove : forall n l1 a l2, bounded n (l1 ++ a :: l2) -> bounded n (l1 ++ l2).
Proof.
  unfold bounded. intros n l1 a l2 H. apply Forall_app in H. destruct H as [A B]. inversion B; subst.
  apply Forall_app; split; assumption.
Qed.
Lemma bounded_snoc : forall n l k c, bounded n l -> sorted l -> n <= cid c ->
  bounded (cid c + 1) (l ++ [(k, c)]) /\ sorted (l ++ [(k, c)]).
Proof.
  intros n l k c B S L. split.
  - unfold bounded in *. apply Forall_app. split; [|constructor; [cbn; lia|constructor]].
    eapply Forall_impl; [|exact B]. cbn. intros; lia.
  - apply sorted_snoc; [exact S|]. unfold bounded in B. eapply Forall_impl; [|exact B]. cbn. intros; lia.
Qed.

Definition mode_ok (m : mbox) : Prop :=
  match mperm m with
  | Some _ => forall e, In e (mq m) -> fst e = false
  | None => mdone m = []
  end.
Definition no_missed (m : mbox) : Prop :=
  forall s r, In (true, s) (mq m ++ mdone m) -> In (false, r) (mq m ++ mdone m) -> compat s r = false.

Record Inv (m : mbox) (n : Z) : Prop := {
  inv_sq : sorted (mq m);
  inv_sd : sorted (mdone m);
  inv_bq : bounded n (mq m);
  inv_bd : bounded n (mdone m);
  inv_done_sends : forall e, In e (mdone m) -> fst e = true;
  inv_mode : mode_ok m;
  inv_nm : no_missed m
}.

Lemma inv_init : Inv mbox_init 0.
Proof. constructor; cbn; try constructor; try reflexivity; intros; try contradiction. intros s r []. Qed.

Lemma inv_mono : forall m n n', Inv m n -> n <= n' -> Inv m n'.
Proof. intros m n n' [] L. constructor; eauto using bounded_mono. Qed.

Lemma inv_take : forall m n d l1 e l2, Inv m n -> getq d m = l1 ++ e :: l2 -> Inv (setq d m (l1 ++ l2)) n.
Proof.
  intros m n d l1 e l2 [Sq Sd Bq Bd Ds Mo Nm] E.
  assert (Nm' : no_missed (setq d m (l1 ++ l2))) by 
    (intros s r H1 H2; apply Nm; eapply Permutation_in; try (symmetry; eapply content_take, E); right; assumption).
  pose proof (incl_elt e l1 l2) as Sub.
  unfold mode_ok in Mo. destruct d; cbn [getq setq] in *; rewrite E in *; constructor; try unfold mode_ok;
    cbn [mq mdone mperm]; eauto using sorted_remove, bounded_remove.
  - destruct (mperm m); [exact Mo|]. destruct l1; discriminate.
  - destruct (mperm m); eauto.
Qed.

(* a newcomer may wait in [comm_queue_], or, if it is a send to a permanent receiver, in [done_comm_queue_], provided
   it matches nothing that is queued *)
Lemma inv_push : forall m n (d : bool) ty me, Inv m n -> n <= cid me ->
  (if d then ty = true /\ mperm m <> None else mperm m <> None -> ty = false) ->
  (forall c, In (negb ty, c) (mq m ++ mdone m) -> matches_ent (negb ty) me (negb ty, c) = false) ->
  Inv (setq d m (getq d m ++ [(ty, me)])) (cid me + 1).
Proof.
  intros m n d ty me [Sq Sd Bq Bd Ds Mo Nm] W D H.
  assert (Nm' : no_missed (setq d m (getq d m ++ [(ty, me)]))).
  { intros s r H1 H2. apply (Permutation_in _ (content_push _ _ _)) in H1, H2. destruct H1 as [H1|H1], H2 as [H2|H2].
    - congruence.
    - inv H1. rewrite <- matches_recv. apply (H _ H2).
    - inv H2. rewrite <- matches_send. apply (H _ H1).
    - apply Nm; assumption. }
  assert (L : n <= cid me + 1) by lia. unfold mode_ok in Mo.
  destruct (bounded_snoc n (getq d m) ty me) as [B' S']; [destruct d; assumption..|].
  destruct d; cbn [getq setq] in *; constructor; try unfold mode_ok; cbn [mq mdone mperm];
    try assumption; try (eapply bounded_mono; eassumption).
  - destruct D as [-> _]. intros e I. apply in_app_or in I. destruct I as [I|[<-|[]]]; auto.
  - destruct (mperm m); [exact Mo|]. destruct D as [_ []]. reflexivity.
  - destruct (mperm m); [|exact Mo]. rewrite D by discriminate.
    intros e I. apply in_app_or in I. destruct I as [I|[<-|[]]]; auto.
Qed.

(* where the pending sends are: in the queue that irecv searches *)
Lemma sends_where : forall m n s, Inv m n ->
  In (true, s) (mq m ++ mdone m) -> In (true, s) (getq (is_some (mperm m) && negb (is_nil (mdone m))) m).
Proof.
  intros m n s I H. pose proof (inv_mode _ _ I) as M. unfold mode_ok in M.
  destruct (mperm m) as [p|]; cbn [is_some andb].
  - destruct (mdone m) as [|d dd] eqn:D; cbn [is_nil negb getq].
    + rewrite app_nil_r in H. exact H.
    + rewrite D. apply in_app_or in H. destruct H as [H|H]; [|exact H]. apply M in H. discriminate.
  - cbn [getq]. rewrite M, app_nil_r in H. exact H.
Qed.

(* a receive obtains the first match in a sorted queue that holds all pending sends: the oldest compatible one *)
Lemma irecv_oldest : forall m n r, Inv m n -> recv_outcome m r (snd (irecv m r)).
Proof.
  intros m n r I. rewrite irecv_request. unfold request, recv_outcome, pending_sends. cbn [negb].
  set (src := is_some (mperm m) && negb (is_nil (mdone m))).
  assert (S : sorted (getq src m)) by (destruct src; apply I).
  destruct (find_remove_cases true r (getq src m)) as [(l1 & s & l2 & E & N & M & ->)|[N ->]]; cbn [snd].
  - left. exists s. rewrite matches_send in M. rewrite E in S. apply sorted_after in S.
    split; [reflexivity|]. split; [apply in_pending, (getq_in src); rewrite E; apply in_elt|]. split; [exact M|].
    intros s' H C. apply in_pending, (sends_where _ _ _ I) in H. fold src in H. rewrite E in H.
    rewrite Forall_forall in N, S. apply in_app_or in H. destruct H as [H|[H|H]].
    + apply N in H. rewrite matches_send in H. congruence.
    + inv H. lia.
    + apply S in H. cbn in H. lia.
  - right. split; [reflexivity|]. intros s' H. apply in_pending, (sends_where _ _ _ I) in H.
    rewrite Forall_forall in N. apply N in H. rewrite matches_send in H. exact H.
Qed.

Definition nxt1 (n : Z) (o : op) : Z :=
  match o with OSend c | ORecv c | OProbe c => cid c + 1 | OSetRecv _ => n end.
Definition wf1 (n : Z) (o : op) : Prop :=
  match o with OSend c | ORecv c | OProbe c => n <= cid c | OSetRecv _ => True end.

Lemma inv_request : forall m n ty me src (dst : bool), Inv m n -> n <= cid me ->
  (if dst then ty = true /\ mperm m <> None else mperm m <> None -> ty = false) ->
  (forall c, In (negb ty, c) (mq m ++ mdone m) -> In (negb ty, c) (getq src m)) ->
  Inv (fst (request ty me src dst m)) (cid me + 1).
Proof.
  intros m n ty me src dst I W D S. unfold request.
  destruct (find_remove_cases (negb ty) me (getq src m)) as [(l1 & c & l2 & E & _ & _ & ->)|[N ->]]; cbn [fst].
  - apply inv_mono with n; [eapply inv_take; eassumption|lia].
  - apply inv_push with n; try assumption. intros c H. rewrite Forall_forall in N. apply N, S, H.
Qed.

Lemma step_inv : forall m n o, Inv m n -> wf1 n o -> guard m o = true -> Inv (fst (step m o)) (nxt1 n o).
Proof.
  intros m n o I W G. destruct o as [s|r|p|c]; cbn [step wf1 nxt1 guard] in *.
  - (* isend: the receives are all in comm_queue_ *)
    rewrite isend_request. apply inv_request with n; try assumption.
    + destruct (mperm m); cbn; [split; [reflexivity|discriminate]|intros []; reflexivity].
    + intros c H. apply in_app_or in H. destruct H as [H|H]; [exact H|]. apply (inv_done_sends _ _ I) in H. discriminate.
  - rewrite irecv_request. apply inv_request with n; try assumption; [reflexivity|].
    intros c. apply sends_where with n. exact I.
  - (* set_receiver, no send pending *)
    destruct I as [Sq Sd Bq Bd Ds Mo Nm]. cbn [fst].
    assert (NoS : forall s, ~ In (true, s) (mq m ++ mdone m)).
    { intros s H. apply in_pending in H. fold (pending_sends m) in H. destruct (pending_sends m); [destruct H|discriminate]. }
    constructor; cbn [mq mdone mperm]; try assumption.
    unfold mode_ok. cbn [mperm mq mdone]. destruct p.
    + intros [k c] H. destruct k; [|reflexivity]. exfalso. eapply NoS. apply in_or_app. left. exact H.
    + destruct (mdone m) as [|[k c] dd] eqn:D; [reflexivity|]. exfalso.
      assert (k = true) by (apply (Ds (k, c)); left; reflexivity). subst k.
      eapply NoS. apply in_or_app. right. left. reflexivity.
  - apply inv_mono with n; [exact I|lia].
Qed.

Fixpoint nxt (n : Z) (ops : list op) : Z := match ops with [] => n | o :: t => nxt (nxt1 n o) t end.

Lemma wf_cons : forall n o t, wf n (o :: t) <-> wf1 n o /\ wf (nxt1 n o) t.
Proof. destruct o; cbn; tauto. Qed.
Lemma wf_app : forall a n b, wf n (a ++ b) <-> wf n a /\ wf (nxt n a) b.
Proof.
  induction a as [|o a IH]; intros n b; cbn [app nxt]; [cbn; tauto|]. rewrite !wf_cons, IH. tauto.
Qed.
Lemma nxt1_ge : forall n o, wf1 n o -> n <= nxt1 n o.
Proof. destruct o; cbn; lia. Qed.
Lemma wf_in_sends : forall ops n s, wf n ops -> In s (sends_of ops) -> n <= cid s.
Proof.
  induction ops as [|o t IH]; intros n s W I; [destruct I|]. apply wf_cons in W. destruct W as [W1 Wt].
  pose proof (nxt1_ge _ _ W1). destruct o; cbn in I; try destruct I as [<-|I]; try exact W1;
    specialize (IH _ _ Wt I); lia.
Qed.

Lemma run_fst_app : forall a m b, fst (run m (a ++ b)) = fst (run (fst (run m a)) b).
Proof. induction a as [|o a IH]; intros m b; [reflexivity|]. cbn [app]. rewrite !run_cons. cbn [fst]. apply IH. Qed.
Lemma side_app : forall a m b,
  no_pending_send_at_set_receiver m (a ++ b) =
  no_pending_send_at_set_receiver m a && no_pending_send_at_set_receiver (fst (run m a)) b.
Proof.
  induction a as [|o a IH]; intros m b; [reflexivity|]. cbn [app no_pending_send_at_set_receiver].
  rewrite IH, run_cons. cbn [fst]. rewrite andb_assoc. reflexivity.
Qed.

Lemma run_inv : forall ops m n, Inv m n -> wf n ops -> no_pending_send_at_set_receiver m ops = true ->
  Inv (fst (run m ops)) (nxt n ops).
Proof.
  induction ops as [|o t IH]; intros m n I W S; [exact I|]. apply wf_cons in W. destruct W as [W1 Wt].
  cbn [no_pending_send_at_set_receiver] in S. apply andb_prop in S. destruct S as [G St].
  rewrite run_cons. cbn [fst nxt]. apply IH; [apply step_inv; assumption|exact Wt|exact St].
Qed.

Theorem oldest_accepted : forall ops r,
  wf 0 ops -> no_pending_send_at_set_receiver mbox_init ops = true ->
  let m := fst (run mbox_init ops) in recv_outcome m r (snd (step m (ORecv r))).
Proof. intros ops r W S m. eapply irecv_oldest, run_inv; [apply inv_init|exact W|exact S]. Qed.

(* what follows the receive in the history plays no role *)
Theorem oldest_accepted_partial : forall pre r post,
  wf 0 (pre ++ ORecv r :: post) ->
  no_pending_send_at_set_receiver mbox_init (pre ++ ORecv r :: post) = true ->
  let m := fst (run mbox_init pre) in recv_outcome m r (snd (step m (ORecv r))).
Proof.
  intros pre r post W S. apply wf_app in W. rewrite side_app in S. apply andb_prop in S.
  apply oldest_accepted; [apply W|apply S].
Qed.

Theorem no_missed_match_partial : forall ops,
  wf 0 ops -> no_pending_send_at_set_receiver mbox_init ops = true ->
  let m := fst (run mbox_init ops) in
  forall s r, In s (pending_sends m) -> In r (pending_recvs m) -> compat s r = false.
Proof.
  intros ops W S m s r Hs Hr. pose proof (run_inv ops _ _ inv_init W S) as I. fold m in I.
  apply (inv_nm _ _ I); [apply in_pending in Hs|apply in_pending in Hr]; assumption.
Qed.

Lemma equiv_compat : forall s1 s2 r, sender_equiv s1 s2 -> compat s1 r = compat s2 r.
Proof.
  intros s1 s2 r (A & B & C & D). unfold compat. rewrite D. f_equal. unfold accepts. destruct (cfilter r); congruence.
Qed.

Lemma inv_pending_bound : forall m n s, Inv m n -> In s (pending_sends m) -> cid s < n.
Proof.
  intros m n s I H. apply in_pending in H.
  assert (B : bounded n (mq m ++ mdone m)) by (apply Forall_app; split; apply I).
  unfold bounded in B. rewrite Forall_forall in B. apply (B _ H).
Qed.

Lemma paired_was_live : forall ty m o p, In p (matches_of (snd (step m o))) -> In (side ty p) (pending ty m ++ reqs1 ty o).
Proof.
  intros ty m o p H. eapply Permutation_in; [apply Permutation_sym, step_conserves|].
  apply in_or_app. left. apply in_map, H.
Qed.

(* no step pairs a send while an older one that no filter can tell from it is pending *)
Lemma step_match_no_older_equiv : forall m n o s1 s2 r2, Inv m n ->
  In (s2, r2) (matches_of (snd (step m o))) -> In s1 (pending_sends m) -> sender_equiv s1 s2 -> cid s1 < cid s2 -> False.
Proof.
  intros m n o s1 s2 r2 I H P Q L.
  assert (C : compat s1 r2 = true) by (rewrite (equiv_compat _ _ _ Q); eapply step_pairs_compat; exact H).
  destruct o as [s|r|p|c]; cbn [step] in H; try contradiction.
  - (* isend: r2 was queued, and would have been taken by s1 *)
    apply (paired_was_live false m (OSend s)) in H. cbn in H. rewrite app_nil_r in H. apply in_pending in P, H.
    rewrite (inv_nm _ _ I _ _ P H) in C. discriminate.
  - (* irecv takes the oldest send it accepts *)
    destruct (irecv_oldest m n r I) as [(s & E & _ & _ & O)|[E _]]; rewrite E in H; [|destruct H].
    destruct H as [H|[]]. inv H. specialize (O _ P C). lia.
Qed.

Lemma live_step : forall m o t s, In s (pending_sends m) \/ In s (sends_of (o :: t)) ->
  (exists r, In (s, r) (matches_of (snd (step m o)))) \/ In s (pending_sends (fst (step m o))) \/ In s (sends_of t).
Proof.
  intros m o t s H. rewrite (reqs_of_cons true), in_app_iff in H.
  assert (H' : In s (pending_sends m ++ reqs1 true o) \/ In s (sends_of t)) by (rewrite in_app_iff; tauto).
  destruct H' as [H'|H']; [|auto]. eapply Permutation_in in H'; [|apply (step_conserves true)].
  apply in_app_or in H'. destruct H' as [H'|H']; [left|auto].
  apply in_map_iff in H'. destruct H' as ([a b] & <- & H'). exists b. exact H'.
Qed.

Lemma no_overtake : forall m n o t s1 s2 r2, Inv m n -> wf n (o :: t) ->
  In (s2, r2) (matches_of (snd (step m o))) -> In s1 (pending_sends m) \/ In s1 (sends_of (o :: t)) ->
  sender_equiv s1 s2 -> cid s1 < cid s2 -> False.
Proof.
  intros m n o t s1 s2 r2 I W H [L|L] Q C; [eapply step_match_no_older_equiv; eassumption|].
  (* s1 is not yet issued: its number is above that of everything issued so far *)
  pose proof (wf_in_sends _ _ _ W L) as B. apply (paired_was_live true) in H. cbn [side fst] in H.
  apply in_app_or in H. destruct H as [H|H].
  - pose proof (inv_pending_bound _ _ _ I H). lia.
  - destruct o; cbn in H; try contradiction. destruct H as [<-|[]]. destruct L as [<-|L]; [lia|].
    destruct W as [_ W]. pose proof (wf_in_sends _ _ _ W L). lia.
Qed.

Lemma app_eq_elt : forall {A} (a b l1 l2 : list A) x, a ++ b = l1 ++ x :: l2 ->
  In x a \/ exists l1', l1 = a ++ l1' /\ b = l1' ++ x :: l2.
Proof.
  induction a as [|y a IH]; intros b l1 l2 x E; [right; exists l1; auto|]. destruct l1 as [|z l1]; inv E; [left; left; reflexivity|].
  destruct (IH _ _ _ _ H1) as [H|(l1' & -> & ->)]; [left; right; exact H|right; exists l1'; auto].
Qed.

Lemma fifo_gen : forall ops m n, Inv m n -> wf n ops -> no_pending_send_at_set_receiver m ops = true ->
  forall s1 s2, (In s1 (pending_sends m) \/ In s1 (sends_of ops)) -> sender_equiv s1 s2 -> cid s1 < cid s2 ->
  forall l1 r2 l2, matches_of (snd (run m ops)) = l1 ++ (s2, r2) :: l2 -> exists r1, In (s1, r1) l1.
Proof.
  induction ops as [|o t IH]; intros m n I W S s1 s2 L Q C l1 r2 l2 E; [destruct l1; discriminate|].
  rewrite run_cons in E. cbn [snd] in E. rewrite matches_of_app in E.
  destruct (app_eq_elt _ _ _ _ _ E) as [H|(l1' & -> & E')]; [exfalso; eapply no_overtake; eassumption|].
  destruct (live_step _ _ _ _ L) as [[r1 H]|L']; [exists r1; apply in_or_app; left; exact H|].
  apply wf_cons in W. destruct W as [W1 Wt]. cbn [no_pending_send_at_set_receiver] in S.
  apply andb_prop in S. destruct S as [G St].
  destruct (IH _ _ (step_inv _ _ _ I W1 G) Wt St s1 s2 L' Q C _ _ _ E') as [r1 H]. exists r1. apply in_or_app. right. exact H.
Qed.

(* ordinary mailboxes (set_receiver never called) satisfy the side condition *)
Fixpoint no_set_receiver (ops : list op) : bool :=
  match ops with [] => true | OSetRecv _ :: _ => false | _ :: t => no_set_receiver t end.
Lemma no_set_receiver_side : forall ops m, no_set_receiver ops = true -> no_pending_send_at_set_receiver m ops = true.
Proof.
  induction ops as [|o t IH]; intros m H; [reflexivity|]. cbn [no_pending_send_at_set_receiver].
  destruct o; cbn in H; try discriminate; cbn [guard andb]; apply IH; exact H.
Qed.

Theorem iprobe_pure : forall m c, fst (step m (OProbe c)) = m.
Proof. reflexivity. Qed.
Lemma find_only_find_remove : forall ty me q,
  find_only ty me q = match find_remove ty me q with Some (c, _) => Some c | None => None end.
Proof.
  induction q as [|e q IH]; [reflexivity|]. cbn. destruct (matches_ent ty me e); [reflexivity|]. rewrite IH.
  destruct (find_remove ty me q) as [[c r]|]; reflexivity.
Qed.

(** * the pinned code violates the full statements: set_receiver while a send is queued *)
Definition cx_s1 := mkComm 1 0 (-1) 0 FAll 1 1000.
Definition cx_s2 := mkComm 2 0 (-1) 0 FAll 2 1000.
Definition cx_r3 := mkComm 3 1 (-1) 0 FAll 0 0.
Definition cx_r4 := mkComm 4 1 (-1) 0 FAll 0 0.
Definition cx_ops := [OSend cx_s1; OSetRecv (Some 1); OSend cx_s2; ORecv cx_r3; ORecv cx_r4].

(* a receive that accepts only tag 7 is left waiting although a send with tag 7 is queued *)
Definition cy_s1 := mkComm 1 0 0 7 FAll 1 1000.
Definition cy_s2 := mkComm 2 0 0 8 FAll 2 1000.
Definition cy_r3 := mkComm 3 1 1 0 (FTag 7) 0 0.
Definition cy_ops := [OSend cy_s1; OSetRecv (Some 1); OSend cy_s2; ORecv cy_r3].

(** * soundness of the oracle that judges implementation logs *)
Lemma nodup_z_sound : forall l, nodup_z l = true -> NoDup l.
Proof.
  induction l as [|x l IH]; intros H; [constructor|]. cbn in H. apply andb_prop in H. destruct H as [H1 H2].
  constructor; [|apply IH; exact H2]. intro I. apply negb_true_iff in H1.
  assert (existsb (Z.eqb x) l = true); [|congruence]. apply existsb_exists. exists x. split; [exact I|apply Z.eqb_refl].
Qed.
Lemma pairs_of_some : forall ops dels ps, pairs_of ops dels = Some ps ->
  forall d, In d dels -> exists s r, find_send ops (dpayload d) = Some s /\ find_recv ops (drecv d) = Some r /\ In (s, r) ps.
Proof.
  induction dels as [|d0 t IH]; intros ps H d I; [destruct I|]. cbn [pairs_of] in H.
  destruct (find_send ops (dpayload d0)) as [s|] eqn:Fs; [|discriminate].
  destruct (find_recv ops (drecv d0)) as [r|] eqn:Fr; [|discriminate].
  destruct (pairs_of ops t) as [ps'|] eqn:P; [|discriminate]. inv H. destruct I as [<-|I].
  - exists s, r. repeat split; auto. left. reflexivity.
  - destruct (IH _ eq_refl _ I) as (s' & r' & A & B & C). exists s', r'. repeat split; auto. right. exact C.
Qed.

Definition Spec_once (ops : list op) (dels : list delivery) : Prop :=
  NoDup (map drecv dels) /\ NoDup (map dpayload dels) /\
  forall d, In d dels -> exists s r,
    In s (sends_of ops) /\ In r (recvs_of ops) /\ cpayload s = dpayload d /\ csize s = dsize d /\
    cid r = drecv d /\ compat s r = true /\
    (forall s', In s' (sends_of ops) -> cpayload s' = dpayload d -> s' = s).

Theorem oracle_once_sound : forall ops dels, log_once ops dels = true -> Spec_once ops dels.
Proof.
  intros ops dels H. unfold log_once in H.
  destruct (pairs_of ops dels) as [ps|] eqn:P; [|rewrite andb_false_r in H; discriminate].
  repeat (apply andb_prop in H; destruct H as [H ?]).
  apply andb_prop in H0. destruct H0 as [Fsz Fc]. rename H into N1, H2 into N3, H1 into N4.
  split; [apply nodup_z_sound; exact N3|]. split; [apply nodup_z_sound; exact N4|].
  intros d I. destruct (pairs_of_some _ _ _ P d I) as (s & r & Fs & Fr & Ip). exists s, r.
  rewrite forallb_forall in Fsz, Fc. specialize (Fsz _ I). specialize (Fc _ Ip). cbn in Fc. rewrite Fs in Fsz.
  apply find_some in Fs, Fr. destruct Fs as [Is Es], Fr as [Ir Er]. apply Z.eqb_eq in Es, Er, Fsz.
  repeat split; auto.
  intros s' Is' Es'. eapply NoDup_map_inj; [apply nodup_z_sound; exact N1|exact Is'|exact Is|congruence].
Qed.

Definition Spec_oldest (ops : list op) (dels : list delivery) : Prop :=
  exists ps, pairs_of ops dels = Some ps /\
  forall p, In p ps -> forall s', In s' (sends_of ops) -> cid s' < cid (fst p) -> compat s' (snd p) = true ->
  exists p', In p' ps /\ cid (fst p') = cid s' /\ mtime p' < mtime p.

Theorem oracle_oldest_sound : forall ops dels, log_oldest ops dels = true -> Spec_oldest ops dels.
Proof.
  intros ops dels H. unfold log_oldest in H. destruct (pairs_of ops dels) as [ps|] eqn:P; [|discriminate].
  exists ps. split; [exact P|]. intros p Ip s' Is' L C. rewrite forallb_forall in H. specialize (H _ Ip).
  rewrite forallb_forall in H. specialize (H _ Is'). apply orb_prop in H. destruct H as [H|H].
  - apply negb_true_iff in H. apply andb_false_iff in H. destruct H as [H|H]; [apply Z.ltb_ge in H; lia|congruence].
  - apply existsb_exists in H. destruct H as (p' & Ip' & H). apply andb_prop in H. exists p'.
    split; [exact Ip'|]. split; [apply Z.eqb_eq, H|apply Z.ltb_lt, H].
Qed.

Definition Spec_no_missed (ops : list op) (dels : list delivery) : Prop :=
  exists ps, pairs_of ops dels = Some ps /\
  forall s r, In s (sends_of ops) -> In r (recvs_of ops) -> compat s r = true ->
    (exists p, In p ps /\ cid (fst p) = cid s) \/ (exists p, In p ps /\ cid (snd p) = cid r).

Theorem oracle_no_missed_sound : forall ops dels, log_no_missed ops dels = true -> Spec_no_missed ops dels.
Proof.
  intros ops dels H. unfold log_no_missed in H. destruct (pairs_of ops dels) as [ps|] eqn:P; [|discriminate].
  exists ps. split; [exact P|]. intros s r Is Ir C. rewrite forallb_forall in H. specialize (H _ Is).
  apply orb_prop in H. destruct H as [H|H].
  - left. apply existsb_exists in H. destruct H as (p & Ip & E). exists p. split; [exact Ip|apply Z.eqb_eq, E].
  - rewrite forallb_forall in H. specialize (H _ Ir). apply orb_prop in H. destruct H as [H|H].
    + right. apply existsb_exists in H. destruct H as (p & Ip & E). exists p. split; [exact Ip|apply Z.eqb_eq, E].
    + rewrite C in H. discriminate.
Qed.
