(** C04 — proofs about SGV.Kernel.Mutex: every history of lock/try_lock/unlock calls, any number of actors. *)
From SGV Require Import Base.PlainLia Base.Facts Kernel.Mutex.
Local Open Scope Z_scope.

(** What a call does, one constructor per path through MutexImpl.cpp: [eff fx m o m' x] when call [o] in state [m] may
    lead to [m'] with answer [x].  Everything below reasons by cases on this relation; [step] itself is unfolded in
    [step_eff] only. *)
Inductive eff (fx : bool) (m : mutex) : op -> mutex -> out -> Prop :=
| Reject o : in_queue (issuer_of o) (queue m) = true -> eff fx m o m Rejected
| Undef p : recursive m = false -> owner m = Some p -> eff fx m (Lock p) m Undefined
| LockAgain p : recursive m = true -> owner m = Some p ->
    eff fx m (Lock p) (mkMutex (recursive m) (Some p) (depth m + 1) (queue m) (upd (held m) p (held m p + 1))) Acquired
| LockFree p : owner m = None ->
    eff fx m (Lock p) (mkMutex (recursive m) (Some p) 1 (queue m) (upd (held m) p (held m p + 1))) Acquired
| LockWait p o : owner m = Some o -> o <> p ->
    eff fx m (Lock p) (mkMutex (recursive m) (Some o) (depth m) (queue m ++ [mkAcq p 1]) (held m)) Blocked
| TryAgain p : recursive m = true -> owner m = Some p ->
    eff fx m (TryLock p) (mkMutex (recursive m) (Some p) (depth m + 1) (queue m) (upd (held m) p (held m p + 1))) TryOk
| TryFree p : owner m = None ->
    eff fx m (TryLock p)
      (mkMutex (recursive m) (Some p) (if fx then 1 else depth m) (queue m) (upd (held m) p (held m p + 1))) TryOk
| TryBusy p o : owner m = Some o -> o <> p \/ recursive m = false -> eff fx m (TryLock p) m TryFail
| UnlockOther p : owner m <> Some p -> eff fx m (Unlock p) m Error
| UnlockInner p : recursive m = true -> owner m = Some p -> 1 < depth m ->
    eff fx m (Unlock p) (mkMutex (recursive m) (Some p) (depth m - 1) (queue m) (upd (held m) p (held m p - 1)))
      (Released None)
| UnlockGive p a r : owner m = Some p -> (recursive m = true -> depth m <= 1) -> queue m = a :: r ->
    let h := upd (held m) p (held m p - 1) in
    eff fx m (Unlock p) (mkMutex (recursive m) (Some (a_issuer a)) (a_depth a) r (upd h (a_issuer a) (h (a_issuer a) + 1)))
      (Released (Some (a_issuer a)))
| UnlockFree p : owner m = Some p -> (recursive m = true -> depth m <= 1) -> queue m = [] ->
    eff fx m (Unlock p)
      (mkMutex (recursive m) None (if recursive m then depth m - 1 else depth m) [] (upd (held m) p (held m p - 1)))
      (Released None).

Lemma bump_none : forall p q, in_queue p q = false -> bump p q = None.
Proof.
  induction q as [|a r IH]; cbn; [reflexivity|]. intros H. apply orb_false_iff in H. destruct H as [H1 H2].
  rewrite H1, (IH H2). reflexivity.
Qed.

Lemma is_owner_spec : forall m p, is_owner m p = true <-> owner m = Some p.
Proof.
  intros m p. unfold is_owner. destruct (owner m) as [o|]; [|split; discriminate].
  rewrite Z.eqb_eq. split; [intros ->; reflexivity | intros H; inv H; reflexivity].
Qed.

Lemma step_eff : forall fx m o, eff fx m o (fst (step fx m o)) (snd (step fx m o)).
Proof.
  intros fx m o. unfold step. destruct (in_queue (issuer_of o) (queue m)) eqn:Hq; [now apply Reject|].
  destruct m as [rc ow d q h], o as [p|p|p]; cbn in Hq |- *.
  - unfold lock_code, is_owner; cbn. destruct rc, ow as [o|]; cbn; try now apply LockFree.
    + destruct (Z.eqb_spec o p) as [->|Hne]; [now apply LockAgain|]. rewrite (bump_none p q Hq). now apply LockWait.
    + destruct (Z.eqb_spec o p) as [->|Hne]; [now apply Undef | now apply LockWait].
  - unfold try_code, is_owner; cbn. destruct ow as [o|]; cbn; [|now apply TryFree].
    destruct (Z.eqb_spec o p) as [->|Hne]; [destruct rc|]; cbn.
    + now apply TryAgain.
    + apply TryBusy with p; auto.
    + apply TryBusy with o; auto.
  - unfold unlock_code, is_owner; cbn. destruct ow as [o|]; cbn; [|now apply UnlockOther].
    destruct (Z.eqb_spec o p) as [->|Hne]; cbn; [|apply UnlockOther; cbn; congruence].
    destruct rc; cbn; [destruct (Z.ltb_spec 0 (d - 1)) as [Hd|Hd]|].
    + apply UnlockInner; cbn; auto; lia.
    + destruct q as [|a r]; [apply UnlockFree | apply UnlockGive]; cbn; auto; lia.
    + destruct q as [|a r]; [apply UnlockFree | apply UnlockGive]; cbn; auto; discriminate.
Qed.

(** the invariant of reachable states (repaired code): the ghost counter is a function of owner and depth *)
Definition expected (m : mutex) (q : pid) : Z :=
  match owner m with Some o => if q =? o then (if recursive m then depth m else 1) else 0 | None => 0 end.

Definition Inv (m : mutex) : Prop :=
  (forall q, held m q = expected m q) /\
  (owner m = None -> queue m = []) /\
  (recursive m = true -> owner m <> None -> 1 <= depth m) /\
  Forall (fun a => a_depth a = 1) (queue m).

Lemma inv_init : forall rec, Inv (init rec).
Proof. intros rec. unfold Inv, init, expected. cbn. repeat split; auto; congruence. Qed.

(* the depth counter moves by k under the same owner *)
Lemma inv_count : forall m p k, Inv m -> recursive m = true -> owner m = Some p -> 1 <= depth m + k ->
  Inv (mkMutex (recursive m) (Some p) (depth m + k) (queue m) (upd (held m) p (held m p + k))).
Proof.
  intros m p k (Ha & Hb & Hc & Hd) Hr Ho Hk. unfold Inv, expected in *. cbn. rewrite Ho, Hr in *.
  repeat split; auto. intros q. unfold upd. rewrite !Ha, Z.eqb_refl. destruct (q =? p); reflexivity.
Qed.

Lemma inv_take : forall m p, Inv m -> owner m = None ->
  Inv (mkMutex (recursive m) (Some p) 1 (queue m) (upd (held m) p (held m p + 1))).
Proof.
  intros m p (Ha & Hb & Hc & Hd) Ho. unfold Inv, expected in *. cbn. rewrite Ho in *.
  repeat split; auto; [|lia]. intros q. unfold upd. rewrite !Ha. destruct (q =? p), (recursive m); reflexivity.
Qed.

Lemma owner_depth : forall m p, Inv m -> recursive m = true -> owner m = Some p -> 1 <= depth m.
Proof. intros m p (_ & _ & Hc & _) Hr Ho. apply Hc; congruence. Qed.

(* at its outermost unlock the owner holds the mutex once, and nobody else holds it *)
Lemma last_unlock : forall m p, Inv m -> owner m = Some p -> (recursive m = true -> depth m <= 1) ->
  forall q, upd (held m) p (held m p - 1) q = 0.
Proof.
  intros m p HI Ho Hd q. pose proof (owner_depth m p HI) as Hc. destruct HI as (Ha & _).
  unfold upd, expected in *. rewrite !Ha, Ho, Z.eqb_refl.
  destruct (q =? p); [|reflexivity]. destruct (recursive m); [|reflexivity].
  specialize (Hc eq_refl Ho). specialize (Hd eq_refl). lia.
Qed.

Lemma inv_eff : forall m o m' x, eff true m o m' x -> Inv m -> Inv m'.
Proof.
  intros m o m' x E HI.
  destruct E as [ | |p Hr Ho|p Ho|p o Ho Hne|p Hr Ho|p Ho| | |p Hr Ho Hdp|p a r Ho Hdp Hq h|p Ho Hdp Hq]; try exact HI.
  1,4: apply inv_count; auto; pose proof (owner_depth m p HI Hr Ho); lia.      (* LockAgain, TryAgain *)
  1,3: now apply inv_take.                                                     (* LockFree, TryFree *)
  - (* LockWait *) destruct HI as (Ha & Hb & Hc & Hd). unfold Inv, expected in *. cbn. rewrite Ho in *.
    repeat split; auto; [discriminate|]. apply Forall_app. split; [assumption | repeat constructor].
  - (* UnlockInner *) apply (inv_count m p (-1)); auto. lia.
  - (* UnlockGive *) pose proof (last_unlock m p HI Ho Hdp) as Hh. destruct HI as (_ & _ & _ & Hd).
    rewrite Hq in Hd. inversion Hd as [|? ? Hda Hdr]; subst.
    unfold Inv, expected. cbn. repeat split; auto; [|discriminate | lia].
    intros q. unfold upd at 1. fold h. rewrite !Hh, Hda. destruct (q =? a_issuer a), (recursive m); reflexivity.
  - (* UnlockFree *) pose proof (last_unlock m p HI Ho Hdp) as Hh. unfold Inv, expected. cbn. repeat split; auto. congruence.
Qed.

Lemma step_eff_eq : forall fx m o m' x, step fx m o = (m', x) -> eff fx m o m' x.
Proof. intros fx m o m' x H. pose proof (step_eff fx m o) as E. now rewrite H in E. Qed.

Lemma exec_inv : forall rec ops, Inv (exec true rec ops).
Proof.
  intros rec ops. apply (fold_left_inv _ Inv); [|apply inv_init]. intros m o. apply inv_eff with o (snd (step true m o)), step_eff.
Qed.

Lemma eff_recursive : forall fx m o m' x, eff fx m o m' x -> recursive m' = recursive m.
Proof. destruct 1; reflexivity. Qed.

Lemma upd_flip : forall f p v q, upd f p v q = if p =? q then v else f q.
Proof. intros. unfold upd. now rewrite Z.eqb_sym. Qed.

(** the ghost counter is the trace quantity: acquisitions obtained minus unlocks done *)
Lemma eff_held : forall fx m o m' x q, eff fx m o m' x ->
  held m' q = held m q + gets q (o, x) - gives q (o, x).
Proof.
  intros fx m o m' x q E. destruct E; [destruct o|..]; cbn; try subst h; rewrite ?upd_flip; try lia.
  6: destruct (Z.eqb_spec (a_issuer a) q) as [->|].
  all: destruct (Z.eqb_spec p q) as [->|]; lia.
Qed.

(** FIFO: the lockers that had to wait are served in the order of their requests *)
Lemma eff_fifo : forall fx m o m' x, eff fx m o m' x ->
  map a_issuer (queue m) ++ blocked_of (o, x) = granted_of (o, x) ++ map a_issuer (queue m').
Proof.
  intros fx m o m' x E. destruct E as [[]| | | | | | | | | |p a r _ _ Hq|p _ _ Hq]; cbn;
    rewrite ?Hq, ?map_app, ?app_nil_r; reflexivity.
Qed.

Lemma exec_from_cons : forall fx m o r, exec_from fx m (o :: r) = exec_from fx (fst (step fx m o)) r.
Proof. reflexivity. Qed.

Lemma run_cons : forall fx m o r,
  run fx m (o :: r) = (o, snd (step fx m o)) :: run fx (fst (step fx m o)) r.
Proof. intros. cbn. destruct (step fx m o). reflexivity. Qed.

Lemma held_counts_gen : forall fx ops m p,
  held (exec_from fx m ops) p = held m p + total (gets p) (run fx m ops) - total (gives p) (run fx m ops).
Proof.
  intros fx. induction ops as [|o r IH]; intros m p; [cbn; lia|].
  rewrite exec_from_cons, run_cons, IH, (eff_held _ _ _ _ _ p (step_eff fx m o)). cbn [total]. lia.
Qed.

Lemma fifo_gen : forall fx ops m,
  map a_issuer (queue m) ++ blocked_seq (run fx m ops) =
  granted_seq (run fx m ops) ++ map a_issuer (queue (exec_from fx m ops)).
Proof.
  intros fx. induction ops as [|o r IH]; intros m; [apply app_nil_r|].
  rewrite exec_from_cons, run_cons. unfold blocked_seq, granted_seq in *. cbn [flat_map].
  rewrite app_assoc, (eff_fifo _ _ _ _ _ (step_eff fx m o)), <- !app_assoc, IH. reflexivity.
Qed.

(* the ghost counter of p is positive exactly when p owns the mutex, and is 1 then unless the mutex is recursive *)
Lemma held_cases : forall m p, Inv m ->
  (owner m = Some p /\ 1 <= held m p /\ (recursive m = false -> held m p = 1)) \/ (owner m <> Some p /\ held m p = 0).
Proof.
  intros m p HI. pose proof (owner_depth m p HI) as Hc. destruct HI as (Ha & _). rewrite Ha. unfold expected.
  destruct (owner m) as [o|]; [|right; split; [discriminate | reflexivity]].
  destruct (Z.eqb_spec p o) as [->|Hne]; [left | right; split; [congruence | reflexivity]].
  split; [reflexivity|]. destruct (recursive m); [specialize (Hc eq_refl eq_refl)|]; split; (lia || discriminate).
Qed.

(** exclusion, ownership = outstanding acquisitions *)
Theorem owner_iff_held : forall rec ops p,
  let m := exec true rec ops in (owner m = Some p <-> 0 < held m p).
Proof.
  intros rec ops p m. destruct (held_cases m p (exec_inv rec ops)) as [(E & H & _)|[E H]].
  - split; [lia | intros _; exact E].
  - rewrite H. split; [intros; contradiction | lia].
Qed.

Theorem exclusion : forall rec ops p q,
  let m := exec true rec ops in 0 < held m p -> 0 < held m q -> p = q.
Proof.
  intros rec ops p q m Hp Hq. apply (owner_iff_held rec ops p) in Hp. apply (owner_iff_held rec ops q) in Hq.
  fold m in Hp, Hq. congruence.
Qed.

Lemma exec_recursive : forall fx rec ops, recursive (exec fx rec ops) = rec.
Proof.
  intros fx rec ops. unfold exec, exec_from. apply (fold_left_inv _ (fun s => recursive s = rec)); [|reflexivity].
  intros s o <-. exact (eff_recursive _ _ _ _ _ (step_eff fx s o)).
Qed.

Theorem held_bounds : forall rec ops p,
  let m := exec true rec ops in 0 <= held m p /\ (rec = false -> held m p <= 1).
Proof.
  intros rec ops p m. rewrite <- (exec_recursive true rec ops). fold m.
  destruct (held_cases m p (exec_inv rec ops)) as [(_ & H & H1)|[_ H]]; [|lia].
  split; [lia|]. intros R. rewrite (H1 R). lia.
Qed.

Theorem held_counts : forall fx rec ops p,
  held (exec fx rec ops) p = total (gets p) (run fx (init rec) ops) - total (gives p) (run fx (init rec) ops).
Proof. intros. unfold exec. rewrite held_counts_gen. cbn. lia. Qed.

(** recursion: p owns the mutex exactly while it has obtained it more often than it has unlocked it *)
Theorem recursive_depth : forall rec ops p,
  let tr := run true (init rec) ops in
  (owner (exec true rec ops) = Some p <-> total (gives p) tr < total (gets p) tr).
Proof.
  intros rec ops p tr. rewrite (owner_iff_held rec ops p). rewrite held_counts. fold tr. lia.
Qed.

(** One call on an arbitrary state.  [inversion] of [eff] leaves the constructors for that call; [Reject] contradicts
    the hypothesis that the issuer is not queued. *)

(** only the owner can release *)
Theorem only_owner_unlocks : forall fx m p, in_queue p (queue m) = false ->
  (owner m <> Some p -> step fx m (Unlock p) = (m, Error)) /\
  (owner m = Some p -> exists m' w, step fx m (Unlock p) = (m', Released w)).
Proof.
  intros fx m p Hq. destruct (step fx m (Unlock p)) as [m' x] eqn:E. apply step_eff_eq in E.
  inversion E; subst; cbn in *; split; intros; eauto; congruence.
Qed.

(** try_lock never blocks and succeeds iff free, or held by the caller on a recursive mutex *)
Theorem trylock : forall fx m p, in_queue p (queue m) = false ->
  let r := step fx m (TryLock p) in
  (snd r = TryOk \/ snd r = TryFail) /\ queue (fst r) = queue m /\
  (snd r = TryOk <-> owner m = None \/ (owner m = Some p /\ recursive m = true)) /\
  (snd r = TryOk -> owner (fst r) = Some p) /\ (snd r = TryFail -> fst r = m).
Proof.
  intros fx m p Hq. cbv zeta. destruct (step fx m (TryLock p)) as [m' x] eqn:E. apply step_eff_eq in E.
  inversion E as [| | | | |? Hr Ho|? Ho|? o Ho Hb| | | |]; subst; cbn in *; [congruence|..];
    repeat split; auto; try discriminate.
  intros [H|[H1 H2]]; destruct Hb; congruence.
Qed.

Theorem handoff : forall fx m p m' q, step fx m (Unlock p) = (m', Released (Some q)) ->
  exists a r, queue m = a :: r /\ a_issuer a = q /\ queue m' = r /\ owner m' = Some q.
Proof.
  intros fx m p m' q E. apply step_eff_eq in E.
  inversion E as [| | | | | | | | | |? a r _ _ Hq|]; subst. exists a, r. cbn. auto.
Qed.

(** a call is rejected only when its issuer is blocked in this mutex *)
Theorem rejected_iff_blocked : forall fx m o m',
  step fx m o = (m', Rejected) <-> in_queue (issuer_of o) (queue m) = true /\ m' = m.
Proof.
  intros fx m o m'. split.
  - intros E. apply step_eff_eq in E. inversion E; subst. auto.
  - intros [Hq ->]. unfold step. now rewrite Hq.
Qed.

(** what the code does outside the domain (owner re-locks a non-recursive mutex): the call returns, a stale acquisition
    stays queued, and the next unlock hands the mutex back to the same actor *)
Lemma relock_nonrecursive_code :
  let m1 := fst (lock_code (init false) 1) in
  let r := lock_code m1 1 in
  snd r = Acquired /\ map a_issuer (queue (fst r)) = [1] /\ owner (fst (unlock_code (fst r) 1)) = Some 1.
Proof. vm_compute. repeat split; reflexivity. Qed.

(** lock() returns at once iff the mutex is free or (recursive and) already held by the caller; otherwise the caller is
    appended to the queue and nothing else changes *)
Theorem lock_outcome : forall fx m p, in_queue p (queue m) = false -> undefined_region m (Lock p) = false ->
  let r := step fx m (Lock p) in
  (snd r = Acquired <-> owner m = None \/ owner m = Some p) /\
  (snd r = Blocked <-> exists o, owner m = Some o /\ o <> p) /\
  (snd r = Acquired \/ snd r = Blocked) /\
  (snd r = Acquired -> owner (fst r) = Some p /\ queue (fst r) = queue m) /\
  (snd r = Blocked -> map a_issuer (queue (fst r)) = map a_issuer (queue m) ++ [p] /\ owner (fst r) = owner m /\ depth (fst r) = depth m).
Proof.
  intros fx m p Hq Hu. cbv zeta. destruct (step fx m (Lock p)) as [m' x] eqn:E. apply step_eff_eq in E.
  inversion E as [|? Hr Ho|? Hr Ho|? Ho|? o Ho Hne| | | | | | |]; subst; cbn in *.
  - congruence.
  - apply is_owner_spec in Ho. rewrite Hr, Ho in Hu. discriminate.
  - (* LockAgain *) rewrite Ho. repeat split; auto; try discriminate. intros (o & Ho' & Hne). congruence.
  - (* LockFree *) rewrite Ho. repeat split; auto; try discriminate. intros (o & Ho' & _). discriminate.
  - (* LockWait *) rewrite Ho, map_app. repeat split; auto; try discriminate; [intros [H|H]; congruence | exists o; auto].
Qed.
