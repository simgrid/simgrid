(** Proofs about the reference semantics: the explorer is sound and complete, replayed schedules and the engine model's
    run are reference executions, deadlocks are exactly the terminal states with an unfinished actor. *)
From SGV Require Import Base.PlainLia Base.Facts Kernel.Ref.
Local Open Scope Z_scope.

(* A closed option is evaluated once, together with what is claimed of its content: with the witness left open,
   [vm_compute] would have to read back the normal form of every function applied to it. *)
Lemma opt_ex {A} (o : option A) (Q : A -> Prop) :
  match o with Some x => Q x | None => False end -> exists x, o = Some x /\ Q x.
Proof. destruct o; [eauto | contradiction]. Qed.

Section DfsProofs.
  Context {St : Type} (eq_dec : forall x y : St, {x = y} + {x <> y}) (next : St -> list St).

  Inductive reach (x : St) : St -> Prop :=
  | reach_refl : reach x x
  | reach_step : forall y z, reach x y -> In z (next y) -> reach x z.

  Definition closed_inv (stack visited : list St) : Prop :=
    forall v, In v visited -> forall y, In y (next v) -> In y visited \/ In y stack.

  Lemma dfs_inv : forall I : list St -> list St -> Prop,
    (forall s rest visited, I (s :: rest) visited ->
       if in_dec eq_dec s visited then I rest visited else I (next s ++ rest) (s :: visited)) ->
    forall fuel stack visited V, dfs eq_dec next fuel stack visited = Some V -> I stack visited -> I [] V.
  Proof.
    intros I Hstep. induction fuel as [|f IH]; intros stack visited V Hd H; cbn [dfs] in Hd; [discriminate|].
    destruct stack as [|s rest]; [inv Hd; exact H|].
    apply Hstep in H. destruct (in_dec eq_dec s visited); exact (IH _ _ _ Hd H).
  Qed.

  Theorem dfs_correct : forall fuel x0 V, dfs eq_dec next fuel [x0] [] = Some V -> forall x, reach x0 x <-> In x V.
  Proof.
    intros fuel x0 V Hd x. split.
    - (* [x0] has been seen and the invariant holds; a round only adds to what has been seen ([Hm]) *)
      assert (H : (In x0 V \/ In x0 []) /\ closed_inv [] V).
      { refine (dfs_inv (fun st vis => (In x0 vis \/ In x0 st) /\ closed_inv st vis) _ _ _ _ _ Hd _).
        - intros s rest visited [H0 Hinv]. destruct (in_dec eq_dec s visited) as [Hin|_].
          + assert (Hm : forall y, In y visited \/ In y (s :: rest) -> In y visited \/ In y rest)
              by (intros y [H|[<-|H]]; auto).
            split; [exact (Hm _ H0) | intros v Hv y Hy; exact (Hm y (Hinv v Hv y Hy))].
          + assert (Hm : forall y, In y visited \/ In y (s :: rest) -> In y (s :: visited) \/ In y (next s ++ rest))
              by (intros y [H|[<-|H]]; [left; now right | left; now left | right; apply in_or_app; now right]).
            split; [exact (Hm _ H0)|].
            intros v [<-|Hv] y Hy; [right; apply in_or_app; now left | exact (Hm y (Hinv v Hv y Hy))].
        - split; [right; now left | intros v []]. }
      destruct H as [[H0|[]] Hinv]. induction 1 as [|y z Hr IHr Hz]; [exact H0|].
      destruct (Hinv y IHr z Hz) as [H|[]]. exact H.
    - (* everything seen is reachable *)
      intros Hx. refine (dfs_inv (fun st vis => forall y, In y vis \/ In y st -> reach x0 y) _ _ _ _ _ Hd _ x (or_introl Hx)).
      + intros s rest visited H. destruct (in_dec eq_dec s visited) as [Hin|_].
        * intros y [Hy|Hy]; apply H; [now left | right; now right].
        * intros y [[<-|Hy]|Hy]; [apply H; right; now left | apply H; now left|].
          apply in_app_or in Hy as [Hy|Hy]; [|apply H; right; now right].
          apply (reach_step x0 s); [apply H; right; now left | exact Hy].
      + intros y [[]|[<-|[]]]. apply reach_refl.
  Qed.
End DfsProofs.

(** a step of the reference: an actor executes its next operation, or the timer of a blocked actor fires
    ([actor_step]); or, in the timed reading, the clock jumps to the earliest armed timer when nothing else can happen *)
Definition Ref_step (P : prog) (s s' : state) : Prop :=
  (exists a ws, actor_step P a s = Some (s', ws)) \/ tick P s = Some s'.

Inductive reachable (P : prog) : state -> Prop :=
| reachable_init : reachable P (init P)
| reachable_step : forall s s', reachable P s -> Ref_step P s s' -> reachable P s'.

Definition terminal (P : prog) (s : state) : Prop := forall s', ~ Ref_step P s s'.
Definition reachable_terminal (P : prog) (s : state) : Prop := reachable P s /\ terminal P s.

Definition unfinished (P : prog) (s : state) (a : nat) : Prop :=
  exists ac ops, nth_error (st_a s) a = Some ac /\ nth_error (p_code P) a = Some ops /\ (a_pc ac < length ops)%nat.

Lemma actor_step_some : forall P a s r, actor_step P a s = Some r -> st_crash s = false /\ unfinished P s a.
Proof.
  intros P a s r E. unfold actor_step in E. destruct (st_crash s); [discriminate|].
  destruct (nth_error (st_a s) a) as [ac|] eqn:Ea; [|discriminate].
  destruct (nth_error (p_code P) a) as [ops|] eqn:Ep; [|discriminate].
  destruct (nth_error ops (a_pc ac)) eqn:Eo; [|discriminate].
  split; [reflexivity|]. exists ac, ops. repeat split; auto. apply nth_error_Some. congruence.
Qed.

Lemma unfinished_in_seq : forall P s a, unfinished P s a -> In a (seq 0 (length (p_code P))).
Proof. intros P s a (ac & ops & _ & Hp & _). apply in_seq. split; [lia|]. cbn. apply nth_error_Some. congruence. Qed.

Lemma succs_spec : forall P s s', In s' (succs P s) <-> Ref_step P s s'.
Proof.
  intros P s s'. unfold succs, Ref_step. rewrite in_app_iff, in_flat_map. split.
  - intros [(a & _ & Hin)|Hin].
    + destruct (actor_step P a s) as [[s1 ws]|] eqn:E; [|destruct Hin].
      destruct Hin as [Hin|[]]. subst. left. eauto.
    + destruct (tick P s) as [s1|]; [|destruct Hin]. destruct Hin as [Hin|[]]. subst. now right.
  - intros [(a & ws & E)|E].
    + left. exists a. split; [exact (unfinished_in_seq P s a (proj2 (actor_step_some _ _ _ _ E))) | rewrite E; now left].
    + right. rewrite E. now left.
Qed.

Lemma reach_reachable : forall P s, reach (succs P) (init P) s <-> reachable P s.
Proof.
  intros P s. split; induction 1.
  - constructor.
  - econstructor; eauto. now apply succs_spec.
  - constructor.
  - econstructor; eauto. now apply succs_spec.
Qed.

Lemma is_terminal_spec : forall P s, is_terminal P s = true <-> terminal P s.
Proof.
  intros P s. unfold is_terminal, terminal. split.
  - intros H s' Hs. apply succs_spec in Hs. destruct (succs P s); [destruct Hs | discriminate].
  - intros H. destruct (succs P s) as [|x l] eqn:E; [reflexivity|].
    exfalso. apply (H x). apply succs_spec. rewrite E. now left.
Qed.

Theorem explore_all_correct : forall fuel P V, explore_all fuel P = Some V -> forall s, reachable P s <-> In s V.
Proof.
  intros fuel P V H s. rewrite <- reach_reachable. unfold explore_all in H. eapply dfs_correct; eauto.
Qed.

Theorem explore_correct : forall fuel P T, explore fuel P = Some T -> forall s, reachable_terminal P s <-> In s T.
Proof.
  intros fuel P T H s. unfold explore in H. destruct (explore_all fuel P) as [V|] eqn:E; [|discriminate].
  inv H. rewrite filter_In, is_terminal_spec. unfold reachable_terminal.
  rewrite (explore_all_correct _ _ _ E). tauto.
Qed.

Lemma rm_notin : forall a q, ~ In a q -> rm a q = q.
Proof.
  intros a q H. apply filter_all, Forall_forall. intros x Hx. apply negb_true_iff, Nat.eqb_neq. intros ->. exact (H Hx).
Qed.

Theorem rm_exact : forall a q1 q2, ~ In a q1 -> ~ In a q2 -> rm a (q1 ++ a :: q2) = q1 ++ q2.
Proof.
  intros a q1 q2 H1 H2. unfold rm. rewrite filter_app. cbn [filter]. rewrite Nat.eqb_refl. cbn [negb].
  f_equal; [exact (rm_notin a q1 H1) | exact (rm_notin a q2 H2)].
Qed.

Lemma upd_nth_same : forall {A} n (x d : A) l, (n < length l)%nat -> nth n (upd n x l) d = x.
Proof.
  intros A n x d l. revert n. induction l as [|y r IH]; intros n H; cbn in H; [lia|].
  destruct n; cbn; [reflexivity | apply IH; lia].
Qed.

(** the step "the timer of [a], queued on semaphore [i], fires": [a] answers 1 (timed out), the queue of [i] loses
    exactly [a] and keeps the order of the other waiters, the value is unchanged *)
Theorem fire_acquire_keeps_order : forall a i d s q1 q2, (i < length (st_s s))%nat ->
  s_q (nth i (st_s s) dS) = q1 ++ a :: q2 -> ~ In a q1 -> ~ In a q2 ->
  let '(s', ws) := fire a (AcquireT i d) s in
  nth i (st_s s') dS = mkS (s_val (nth i (st_s s) dS)) (q1 ++ q2) /\ ws = [a].
Proof.
  intros a i d s q1 q2 Hi Hq H1 H2. cbn [fire]. split; [|reflexivity].
  unfold complete, set_a, set_s. cbn [st_s]. rewrite upd_nth_same by exact Hi.
  rewrite Hq, rm_exact by assumption. reflexivity.
Qed.

(** A reference deadlock: the run did not crash, some actor still has operations to execute, and every such actor is
    blocked in the wait queue of a synchronisation object without any timer armed (a sleeping actor or a timed
    acquisition will be released by its timer: never a deadlock). *)
Definition Ref_deadlock (P : prog) (s : state) : Prop :=
  st_crash s = false /\ (exists a, unfinished P s a) /\
  forall a ac, unfinished P s a -> nth_error (st_a s) a = Some ac -> a_blk ac = true /\ a_due ac = None.

Lemma actor_step_unfinished : forall P a s ac, st_crash s = false -> unfinished P s a -> nth_error (st_a s) a = Some ac ->
  exists o, actor_step P a s =
    if a_blk ac then match a_due ac with Some t => if due_ok P s t then Some (fire a o s) else None | None => None end
    else Some (exec (p_timed P) a o s).
Proof.
  intros P a s ac Hc (ac' & ops & Ha' & Hp & Hlt) Ha. rewrite Ha in Ha'. inv Ha'. unfold actor_step. rewrite Hc, Ha, Hp.
  destruct (nth_error ops (a_pc ac')) as [o|] eqn:Eo; [eauto|]. apply nth_error_None in Eo. lia.
Qed.

Lemma unfinished_b_spec : forall P s a, unfinished_b P s a = true <-> unfinished P s a.
Proof.
  intros P s a. unfold unfinished_b, unfinished.
  destruct (nth_error (st_a s) a) as [ac|]; [|split; [discriminate | intros (? & ? & ? & _); discriminate]].
  destruct (nth_error (p_code P) a) as [ops|]; [|split; [discriminate | intros (? & ? & _ & ? & _); discriminate]].
  rewrite Nat.ltb_lt. split.
  - intros H. exists ac, ops. auto.
  - intros (ac' & ops' & H1 & H2 & H3). inv H1. inv H2. exact H3.
Qed.

Lemma quiescent_spec : forall P s, quiescent P s = true <-> forall a, actor_step P a s = None.
Proof.
  intros P s. unfold quiescent. rewrite forallb_forall. split.
  - intros H a. destruct (actor_step P a s) as [r|] eqn:E; [|reflexivity].
    specialize (H a (unfinished_in_seq P s a (proj2 (actor_step_some _ _ _ _ E)))). rewrite E in H. discriminate.
  - intros H a _. now rewrite H.
Qed.

Lemma due_of_some : forall P s a t, due_of P s a = Some t <->
  exists ac, nth_error (st_a s) a = Some ac /\ unfinished P s a /\ a_blk ac = true /\ a_due ac = Some t.
Proof.
  intros P s a t. unfold due_of. destruct (nth_error (st_a s) a) as [ac|]; [|split; [|intros (? & ? & _)]; discriminate].
  split.
  - intros H. destruct (unfinished_b P s a) eqn:Eu; [|discriminate]. destruct (a_blk ac) eqn:Eb; [|discriminate].
    apply unfinished_b_spec in Eu. eauto.
  - intros (ac' & E & Hu & Hb & Hd). inv E. apply unfinished_b_spec in Hu. rewrite Hu, Hb. exact Hd.
Qed.

Lemma dues_in : forall P s t, In t (dues P s) <-> exists a, due_of P s a = Some t.
Proof.
  intros P s t. unfold dues. rewrite in_flat_map. split.
  - intros (a & _ & Hin). exists a. destruct (due_of P s a) as [t'|]; [destruct Hin as [->|[]]; reflexivity | destruct Hin].
  - intros (a & H). exists a. split; [|rewrite H; now left].
    apply due_of_some in H as (ac & _ & Hu & _). exact (unfinished_in_seq P s a Hu).
Qed.

Lemma dues_nil : forall P s, dues P s = [] <-> forall a, due_of P s a = None.
Proof.
  intros P s. split.
  - intros H a. destruct (due_of P s a) as [t|] eqn:E; [|reflexivity].
    assert (Hin : In t (dues P s)) by (apply dues_in; eauto). rewrite H in Hin. destruct Hin.
  - intros H. destruct (dues P s) as [|t r] eqn:E; [reflexivity|].
    destruct (proj1 (dues_in P s t)) as (a & Ha); [rewrite E; now left|]. rewrite H in Ha. discriminate.
Qed.

Lemma tick_some : forall P s, (exists s', tick P s = Some s') <->
  st_crash s = false /\ p_timed P = true /\ (forall a, actor_step P a s = None) /\ exists a t, due_of P s a = Some t.
Proof.
  intros P s. unfold tick. split.
  - intros (s' & H).
    destruct (st_crash s); [discriminate|]. destruct (p_timed P); [|discriminate].
    destruct (quiescent P s) eqn:Eq; [|discriminate]. cbn in H.
    repeat split; auto; [now apply quiescent_spec|].
    destruct (dues P s) as [|t r] eqn:Ed; [discriminate|].
    destruct (proj1 (dues_in P s t)) as (a & Ha); [rewrite Ed; now left | eauto].
  - intros (Hc & Ht & Hq & a & t & Hd).
    rewrite Hc, Ht. apply quiescent_spec in Hq. rewrite Hq. cbn.
    destruct (dues P s) as [|t' r] eqn:Ed; [|eauto]. rewrite (proj1 (dues_nil P s) Ed) in Hd. discriminate.
Qed.

Theorem deadlock_iff : forall P s, st_crash s = false ->
  ((terminal P s /\ exists a, unfinished P s a) <-> Ref_deadlock P s).
Proof.
  intros P s Hc. split.
  - intros (Ht & Hu). split; [exact Hc|]. split; [exact Hu|].
    assert (Hq : forall a, actor_step P a s = None).
    { intros a. destruct (actor_step P a s) as [[s' ws]|] eqn:E; [|reflexivity].
      exfalso. apply (Ht s'). left. exists a, ws. exact E. }
    intros a ac Ha Hac. destruct (actor_step_unfinished P a s ac Hc Ha Hac) as (o & E). rewrite Hq in E.
    destruct (a_blk ac) eqn:Eb; [|discriminate]. split; [reflexivity|].
    destruct (a_due ac) as [t|] eqn:Ed; [|reflexivity]. destruct (due_ok P s t) eqn:Eok; [discriminate|].
    (* an armed timer that may not fire yet: timed reading, and then the clock can tick *)
    exfalso.
    assert (Htm : p_timed P = true).
    { unfold due_ok in Eok. destruct (p_timed P); [reflexivity | discriminate]. }
    pose proof (proj2 (due_of_some P s a t) (ex_intro _ ac (conj Hac (conj Ha (conj Eb Ed))))) as Hd.
    destruct (proj2 (tick_some P s)) as (s' & Hs'); [repeat split; eauto|].
    apply (Ht s'). now right.
  - intros (_ & Hu & Hb). split; [|exact Hu].
    intros s' [(a & ws & E)|E].
    + destruct (actor_step_some _ _ _ _ E) as (_ & Ha). pose proof Ha as (ac & _ & Hac & _).
      destruct (actor_step_unfinished P a s ac Hc Ha Hac) as (o & E').
      destruct (Hb a ac Ha Hac) as (Hub & Hud). rewrite E, Hub, Hud in E'. discriminate.
    + destruct (proj1 (tick_some P s)) as (_ & _ & _ & a & t & Hd); [eauto|].
      apply due_of_some in Hd as (ac & Hac & Ha & _ & Hd). destruct (Hb a ac Ha Hac) as (_ & Hud). congruence.
Qed.

Theorem deadlock_b_spec : forall P s, deadlock_b P s = true <-> Ref_deadlock P s.
Proof.
  intros P s. unfold deadlock_b. rewrite !andb_true_iff, negb_true_iff, is_terminal_spec, existsb_exists.
  split.
  - intros ((Hc & Ht) & (a & _ & Hu)). apply deadlock_iff; auto. split; auto. exists a. now apply unfinished_b_spec.
  - intros H. pose proof H as (Hc & _). apply deadlock_iff in H; auto. destruct H as (Ht & a & Hu).
    repeat split; auto. exists a. split; [exact (unfinished_in_seq P s a Hu) | now apply unfinished_b_spec].
Qed.

Theorem replay_reachable : forall P sched s s', reachable P s -> replay P sched s = Some s' -> reachable P s'.
Proof.
  intros P sched. induction sched as [|a r IH]; intros s s' Hr H; cbn [replay] in H.
  - inv H. exact Hr.
  - destruct (step_or_tick P a s) as [[s1 ws]|] eqn:E; [|discriminate].
    apply (IH s1 s'); [|exact H]. unfold step_or_tick in E.
    destruct (actor_step P a s) as [r0|] eqn:E1.
    + inv E. apply (reachable_step P s s1 Hr). left. exists a, ws. exact E1.
    + destruct (tick P s) as [s0|] eqn:E2; [|discriminate].
      apply (reachable_step P s0 s1); [|left; exists a, ws; exact E].
      apply (reachable_step P s s0 Hr). now right.
Qed.

Lemma handle_all_replay : forall P l s next tr s' next' tr',
  handle_all P l s next tr = (s', next', tr') ->
  exists sch, tr' = tr ++ sch /\ replay P sch s = Some s'.
Proof.
  intros P l. induction l as [|a r IH]; intros s next tr s' next' tr' H; cbn [handle_all] in H.
  - inv H. exists []. rewrite app_nil_r. auto.
  - destruct (actor_step P a s) as [[s1 ws]|] eqn:E.
    + destruct (IH _ _ _ _ _ _ H) as (sch & H1 & H2). exists (a :: sch). split.
      * rewrite H1, <- app_assoc. reflexivity.
      * cbn [replay]. unfold step_or_tick. rewrite E. exact H2.
    + eauto.
Qed.

Lemma replay_app : forall P a b s s1 s2, replay P a s = Some s1 -> replay P b s1 = Some s2 -> replay P (a ++ b) s = Some s2.
Proof.
  intros P a. induction a as [|x r IH]; intros b s s1 s2 H1 H2; cbn [replay app] in *.
  - inv H1. exact H2.
  - destruct (step_or_tick P x s) as [[s' ws]|]; [|discriminate]. eauto.
Qed.

Lemma sched_run_replay : forall fuel P l s tr s' tr',
  sched_run fuel P l s tr = Some (s', tr') -> exists sch, tr' = tr ++ sch /\ replay P sch s = Some s'.
Proof.
  induction fuel as [|f IH]; intros P l s tr s' tr' H; cbn [sched_run] in H; [discriminate|].
  destruct l as [|a r].
  - inv H. exists []. rewrite app_nil_r. auto.
  - destruct (handle_all P (a :: r) s [] tr) as [[s1 next] tr1] eqn:E.
    destruct (handle_all_replay _ _ _ _ _ _ _ _ E) as (sch1 & H1 & H2).
    destruct (IH _ _ _ _ _ _ H) as (sch2 & H3 & H4).
    exists (sch1 ++ sch2). split.
    + rewrite H3, H1, app_assoc. reflexivity.
    + eapply replay_app; eauto.
Qed.

(** the engine model's run is the replay of its own trace, ends in a reachable terminal state *)
Theorem engine_run_refines : forall fuel P s tr, engine_run fuel P = Some (s, tr) ->
  replay P tr (init P) = Some s /\ reachable_terminal P s.
Proof.
  intros fuel P s tr H. unfold engine_run in H.
  destruct (sched_run fuel P (seq 0 (length (p_code P))) (init P) []) as [[s1 tr1]|] eqn:E; [|discriminate].
  destruct (is_terminal P s1) eqn:Et; [|discriminate]. inv H.
  destruct (sched_run_replay _ _ _ _ _ _ _ E) as (sch & H1 & H2). cbn in H1. subst.
  split; [exact H2|]. split.
  - eapply replay_reachable; eauto. constructor.
  - now apply is_terminal_spec.
Qed.

(** a program whose reference semantics has no reachable deadlock: no execution (replayed schedule, engine model) ends
    in a state that [deadlock_b] flags *)
Theorem no_deadlock_never_reported : forall P sched s,
  (forall t, reachable P t -> ~ Ref_deadlock P t) ->
  replay P sched (init P) = Some s -> deadlock_b P s = false.
Proof.
  intros P sched s Hno Hr. destruct (deadlock_b P s) eqn:E; [|reflexivity].
  exfalso. apply (Hno s).
  - eapply replay_reachable; eauto. constructor.
  - now apply deadlock_b_spec.
Qed.
