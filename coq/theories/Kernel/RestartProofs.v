(** Proofs about SGV.Kernel.Restart (auto-restart after host reboot and on_exit lists), for every history of kernel events. *)
From SGV Require Import Base.PlainLia Base.Facts Kernel.Restart.
Local Open Scope Z_scope.

(* a living actor points to the vector its own constructor allocated (named by its pid); a dead one to nothing *)
Definition owns (a : actor) := a_list a = if a_alive a then Some (a_pid a) else None.
Definition wf (s : kstate) :=
  Forall (fun a => a_pid a < next_pid s /\ owns a) (actors s) /\ NoDup (map a_pid (actors s)).
Definition told (s : kstate) :=
  (forall a, In a (actors s) ->
     exits (a_pid a) (log s) = if a_alive a then [] else map (fun c => (c, a_end a)) (lookup (a_pid a) (heap s)))
  /\ (forall p, next_pid s <= p -> exits p (log s) = []).
Definition inv (s : kstate) := wf s /\ told s.
Definition core (a : actor) := (a_pid a, a_alive a, a_list a, a_end a).

Lemma find_map_upd {A} (key : A -> Z) k (f : A -> A) l : (forall x, key (f x) = key x) ->
  find (fun x => key x =? k) (map (fun x => if key x =? k then f x else x) l) = option_map f (find (fun x => key x =? k) l).
Proof.
  intros Hf. induction l as [|x l IH]; cbn; [reflexivity|].
  destruct (key x =? k) eqn:E; [rewrite Hf, E; reflexivity|rewrite E; exact IH].
Qed.

Lemma get_actor_upd p f l :
  (forall a, a_pid (f a) = a_pid a) -> get_actor p (upd_actor p f l) = option_map f (get_actor p l).
Proof. exact (find_map_upd a_pid p f l). Qed.

Lemma get_host_upd h f l :
  (forall x, h_id (f x) = h_id x) -> get_host h (upd_host h f l) = option_map f (get_host h l).
Proof. exact (find_map_upd h_id h f l). Qed.

Lemma exits_app p l1 l2 : exits p (l1 ++ l2) = exits p l1 ++ exits p l2.
Proof.
  induction l1 as [|e l1 IH]; [reflexivity|].
  destruct e as [? ? ? ?|q c d|? ?]; cbn; try apply IH.
  destruct (q =? p); cbn; now rewrite IH.
Qed.

Lemma exits_cbs p q d cbs :
  exits p (map (fun c => EExit q c d) cbs) = if q =? p then map (fun c => (c, d)) cbs else [].
Proof.
  induction cbs as [|c r IH]; cbn; [now destruct (q =? p)|].
  rewrite IH. now destruct (q =? p).
Qed.

Lemma lookup_store k k' v h : lookup k (store k' v h) = if k' =? k then v else lookup k h.
Proof. reflexivity. Qed.
Lemma lookup_store_other k k' v h : k' <> k -> lookup k (store k' v h) = lookup k h.
Proof. intros H. rewrite lookup_store. apply Z.eqb_neq in H. rewrite H. reflexivity. Qed.

Lemma get_actor_some p l a : get_actor p l = Some a -> In a l /\ a_pid a = p.
Proof. intros H. apply find_some in H. destruct H as [H1 H2]. split; [assumption|apply Z.eqb_eq, H2]. Qed.

Lemma in_upd a' p f l : In a' (upd_actor p f l) -> exists a, In a l /\ a' = if a_pid a =? p then f a else a.
Proof. unfold upd_actor. intros H. apply in_map_iff in H. destruct H as [a [E H]]. exists a. auto. Qed.

Lemma map_upd {B} (g : actor -> B) p f l : (forall a, g (f a) = g a) -> map g (upd_actor p f l) = map g l.
Proof. intros Hf. unfold upd_actor. rewrite map_map. apply map_ext. intros a. destruct (a_pid a =? p); auto. Qed.

Lemma core_back l l' a' : map core l' = map core l -> In a' l' -> exists a, In a l /\ core a = core a'.
Proof.
  intros E H. apply (in_map core) in H. rewrite E in H. apply in_map_iff in H. destruct H as [a [E1 H]]. eauto.
Qed.

Lemma wf_actor s a : wf s -> In a (actors s) -> a_pid a < next_pid s /\ owns a.
Proof. intros [Hf _]. rewrite Forall_forall in Hf. apply Hf. Qed.

(* the invariant only reads pid, alive, list and end of the actors, the next pid, the heap and the log *)
Lemma inv_ext s s' :
  next_pid s' = next_pid s -> heap s' = heap s -> log s' = log s -> map core (actors s') = map core (actors s) ->
  inv s -> inv s'.
Proof.
  intros En Eh El Ec [W [Ht1 Ht2]]. split; split.
  - apply Forall_forall. intros a' Ha'. destruct (core_back _ _ _ Ec Ha') as [a [Ha Eco]].
    injection Eco as E1 E2 E3 _. unfold owns. rewrite En, <- E1, <- E2, <- E3. exact (wf_actor s a W Ha).
  - replace (map a_pid (actors s')) with (map (fun c => fst (fst (fst c))) (map core (actors s'))) by apply map_map.
    rewrite Ec, map_map. apply W.
  - intros a' Ha'. destruct (core_back _ _ _ Ec Ha') as [a [Ha Eco]]. injection Eco as E1 E2 _ E4.
    rewrite El, Eh, <- E1, <- E2, <- E4. exact (Ht1 a Ha).
  - intros p Hp. rewrite El. apply Ht2. rewrite <- En. exact Hp.
Qed.

Lemma kend_inv s p : inv s -> inv (kend s p).
Proof.
  intros Hi. unfold kend. destruct (get_actor p (actors s)) as [a0|] eqn:Eg; [|exact Hi].
  destruct (a_alive a0) eqn:Eal; [|exact Hi].
  destruct (get_actor_some _ _ _ Eg) as [Hin0 Ep0]. destruct Hi as [W [Ht1 Ht2]].
  destruct (wf_actor s a0 W Hin0) as [Hlt0 Hown0]. unfold owns in Hown0. rewrite Eal, Ep0 in Hown0. rewrite Ep0 in Hlt0.
  (* the log grows by the callbacks of p, which concern p alone *)
  assert (Hex : forall q, exits q (log (kend s p)) =
                          (if p =? q then map (fun c => (c, now s)) (lookup p (heap s)) else []) ++ exits q (log s)).
  { intros q. unfold kend. rewrite Eg, Eal, Hown0. cbn [log exits]. rewrite exits_app, exits_cbs. reflexivity. }
  unfold kend in Hex. rewrite Eg, Eal in Hex. split; split; cbn [actors next_pid heap].
  - apply Forall_forall. intros a' Ha'. destruct (in_upd _ _ _ _ Ha') as [a [Ha ->]].
    destruct (wf_actor s a W Ha) as [Hl Ho]. destruct (a_pid a =? p); split; auto. reflexivity.
  - rewrite map_upd; [apply W|reflexivity].
  - intros a' Ha'. destruct (in_upd _ _ _ _ Ha') as [a [Ha ->]]. specialize (Ht1 a Ha).
    destruct (Z.eqb_spec (a_pid a) p) as [Epp|Epp].
    + assert (a = a0) by (apply (NoDup_map_inj a_pid (actors s)); try apply W; auto; congruence). subst a.
      cbn [dead_at a_pid a_alive a_end]. rewrite Hex, Ht1, Eal, Ep0, Z.eqb_refl. apply app_nil_r.
    + rewrite Hex, (proj2 (Z.eqb_neq p (a_pid a))) by auto. exact Ht1.
  - intros q Hq. rewrite Hex, (proj2 (Z.eqb_neq p q)) by lia. apply Ht2, Hq.
Qed.

Lemma create_plain_inv s h code : inv s -> inv (create_plain s h code).
Proof.
  intros [W [Ht1 Ht2]]. assert (Hlt : forall a, In a (actors s) -> a_pid a < next_pid s) by (intros a Ha; apply (wf_actor s a W Ha)).
  assert (Hf' : Forall (fun a => a_pid a < next_pid s + 1 /\ owns a) (actors s)).
  { apply Forall_forall. intros a Ha. destruct (wf_actor s a W Ha). split; [lia|assumption]. }
  assert (Ht2' : forall p, next_pid s + 1 <= p -> exits p (log s) = []) by (intros p Hp; apply Ht2; lia).
  unfold create_plain. destruct (host_is_on h s); split; split; cbn [actors next_pid log heap exits]; try assumption; try apply W.
  - apply Forall_app. split; [exact Hf'|]. constructor; [|constructor]. split; [cbn; lia|reflexivity].
  - rewrite map_app. apply NoDup_snoc; [apply W|].
    intros Hin. apply in_map_iff in Hin. destruct Hin as [a [E Ha]]. apply Hlt in Ha. cbn in E. lia.
  - intros a Ha. apply in_app_or in Ha. destruct Ha as [Ha|[<-|[]]].
    + rewrite lookup_store_other by (apply Hlt in Ha; lia). exact (Ht1 a Ha).
    + apply Ht2, Z.le_refl.
Qed.

Lemma set_kill_inv s p t : inv s -> inv (set_kill s p t).
Proof.
  intros Hi. unfold set_kill. destruct (t <=? now s); [exact Hi|].
  eapply inv_ext; [..|exact Hi]; try reflexivity. apply map_upd. reflexivity.
Qed.

Lemma set_auto_inv s p b : inv s -> inv (set_actors s (upd_actor p (with_auto b) (actors s))).
Proof. intros Hi. eapply inv_ext; [..|exact Hi]; try reflexivity. apply map_upd. reflexivity. Qed.

Lemma set_hosts_inv s l : inv s -> inv (set_hosts s l).
Proof. intros Hi. eapply inv_ext; [..|exact Hi]; reflexivity. Qed.

(* writing into the vector of a living actor changes nothing about the dead *)
Lemma store_alive_inv s p v a0 :
  inv s -> In a0 (actors s) -> a_pid a0 = p -> a_alive a0 = true -> inv (set_heap s (store p v (heap s))).
Proof.
  intros [W [Ht1 Ht2]] Hin0 Ep0 Eal. split; split; cbn [actors next_pid log heap set_heap]; try apply W; auto.
  intros a Ha. rewrite (Ht1 a Ha). destruct (a_alive a) eqn:Ea; [reflexivity|].
  rewrite lookup_store_other; [reflexivity|]. intros E.
  assert (a = a0) by (apply (NoDup_map_inj a_pid (actors s)); try apply W; auto; congruence). congruence.
Qed.

Lemma create_plain_new s h code :
  host_is_on h s = true ->
  In (mkA (next_pid s) h code true (Some (next_pid s)) false 0 0) (actors (create_plain s h code)) /\
  next_pid (create_plain s h code) = next_pid s + 1.
Proof. intros E. unfold create_plain. rewrite E. cbn. split; [|reflexivity]. apply in_or_app. right. now left. Qed.

(* ActorImpl::create(ProcessArg* ) on a running host, stage by stage: the new actor with its copy of the recorded
   vector, then its kill time, then its auto_restart flag *)
Lemma create_arg_stages (P Q : kstate -> Prop) s g :
  let p := next_pid s in let s1 := create_plain s (g_host g) (g_code g) in
  host_is_on (g_host g) s = true ->
  P (match g_list g with Some o => set_heap s1 (store p (lookup o (heap s1)) (heap s1)) | None => s1 end) ->
  (forall s2 t, P s2 -> P (set_kill s2 p t)) ->
  (forall s3, P s3 -> Q (if g_auto g then set_actors s3 (upd_actor p (with_auto true) (actors s3)) else s3)) ->
  Q (create_arg false s g).
Proof.
  intros p s1 Eon H2 Hk Ha. unfold create_arg. rewrite Eon. fold p s1. apply Ha. destruct (g_kill g >=? 0); auto.
Qed.

Lemma create_arg_inv s g : inv s -> inv (create_arg false s g).
Proof.
  intros Hi. pose proof (create_plain_inv s (g_host g) (g_code g) Hi) as H1.
  destruct (host_is_on (g_host g) s) eqn:Eon; [|unfold create_arg; rewrite Eon; exact H1].
  apply (create_arg_stages inv inv); [exact Eon| |intros; now apply set_kill_inv|].
  - destruct (g_list g) as [o|]; [|exact H1].
    eapply store_alive_inv; [exact H1|apply (create_plain_new _ _ _ Eon)|reflexivity|reflexivity].
  - intros s3 H3. destruct (g_auto g); [now apply set_auto_inv|exact H3].
Qed.

Lemma owner_of_list s p a addr :
  inv s -> get_actor p (actors s) = Some a -> a_list a = Some addr -> In a (actors s) /\ a_pid a = p /\ a_alive a = true /\ addr = p.
Proof.
  intros [W _] Eg El. destruct (get_actor_some _ _ _ Eg) as [Hin Ep].
  destruct (wf_actor s a W Hin) as [_ Ho]. unfold owns in Ho. rewrite El, Ep in Ho.
  destruct (a_alive a); [|discriminate]. injection Ho as Ho. auto.
Qed.

Lemma kstep_inv s e : inv s -> inv (kstep false s e).
Proof.
  intros Hi. destruct e as [t|h code|h code auto kill|p tag|p t|p|p|h|h]; cbn [kstep].
  - eapply inv_ext; [..|exact Hi]; reflexivity.
  - now apply create_plain_inv.
  - apply create_arg_inv. now apply set_hosts_inv.
  - destruct (get_actor p (actors s)) as [a|] eqn:Eg; [|exact Hi].
    destruct (a_list a) as [addr|] eqn:El; [|exact Hi].
    destruct (owner_of_list _ _ _ _ Hi Eg El) as [Hin [Ep [Eal ->]]].
    eapply store_alive_inv; eauto.
  - destruct (get_actor p (actors s)) as [a|]; [|exact Hi]. destruct (a_alive a); [|exact Hi]. now apply set_kill_inv.
  - destruct (get_actor p (actors s)) as [a|]; [|exact Hi]. destruct (a_alive a && negb (a_auto a)); [|exact Hi].
    apply set_hosts_inv. now apply set_auto_inv.
  - now apply kend_inv.
  - destruct (host_is_on h s); [|exact Hi]. apply set_hosts_inv, (fold_left_inv _ inv), set_hosts_inv, Hi. intros; now apply kend_inv.
  - destruct (get_host h (hosts s)) as [x|]; [|exact Hi]. destruct (h_on x); [exact Hi|].
    apply (fold_left_inv _ inv), set_hosts_inv, Hi. intros; now apply create_arg_inv.
Qed.

Lemma kinit_inv nh : inv (kinit nh).
Proof. split; split; cbn; [constructor|constructor|intros a []|reflexivity]. Qed.

Definition reachable (s : kstate) := exists nh evs, s = krun false (kinit nh) evs.

Lemma reachable_inv s : reachable s -> inv s.
Proof. intros [nh [evs ->]]. apply (fold_left_inv _ inv), kinit_inv. intros; now apply kstep_inv. Qed.

Lemma reachable_step s e : reachable s -> reachable (kstep false s e).
Proof.
  intros [nh [evs ->]]. exists nh, (evs ++ [e]). unfold krun. rewrite fold_left_app. reflexivity.
Qed.

(** what every history tells: the callbacks of an actor run only at its end, all at the date of the end, each once, the
    most recently registered first; nothing about actors that are alive or were never created *)
Lemma restart_exits s a :
  reachable s -> In a (actors s) ->
  rev (exits (a_pid a) (log s)) =
    if a_alive a then [] else map (fun c => (c, a_end a)) (rev (lookup (a_pid a) (heap s))).
Proof.
  intros Hr Ha. destruct (reachable_inv _ Hr) as [_ [Ht1 _]]. rewrite (Ht1 a Ha).
  destruct (a_alive a); [reflexivity|]. now rewrite map_rev.
Qed.

Lemma restart_no_exit_of_unborn s p : reachable s -> next_pid s <= p -> exits p (log s) = [].
Proof. intros Hr Hp. destruct (reachable_inv _ Hr) as [_ [_ Ht2]]. now apply Ht2. Qed.

Lemma restart_no_sharing s :
  reachable s ->
  NoDup (map a_pid (actors s)) /\
  forall a, In a (actors s) -> a_list a = if a_alive a then Some (a_pid a) else None.
Proof.
  intros Hr. destruct (reachable_inv _ Hr) as [W _]. split; [apply W|]. intros a Ha. apply (wf_actor s a W Ha).
Qed.

(** frame: the vector of an existing actor changes only by a registration on that very actor while it lives *)
Definition alive_in (s : kstate) (p : Z) := match get_actor p (actors s) with Some a => a_alive a | None => false end.

Lemma kend_heap s p : heap (kend s p) = heap s /\ next_pid (kend s p) = next_pid s.
Proof. unfold kend. destruct (get_actor p (actors s)) as [a|]; [|auto]. destruct (a_alive a); auto. Qed.

Lemma set_kill_heap s p t : heap (set_kill s p t) = heap s /\ next_pid (set_kill s p t) = next_pid s.
Proof. unfold set_kill. destruct (t <=? now s); auto. Qed.

Lemma create_plain_heap s h code p :
  p < next_pid s -> lookup p (heap (create_plain s h code)) = lookup p (heap s) /\ next_pid s <= next_pid (create_plain s h code).
Proof.
  intros Hp. unfold create_plain. destruct (host_is_on h s); cbn [heap next_pid]; [|split; [reflexivity|lia]].
  rewrite lookup_store_other by lia. split; [reflexivity|lia].
Qed.

Lemma create_arg_heap s g p :
  p < next_pid s -> lookup p (heap (create_arg false s g)) = lookup p (heap s) /\ next_pid s <= next_pid (create_arg false s g).
Proof.
  intros Hp. pose proof (create_plain_heap s (g_host g) (g_code g) p Hp) as H1.
  destruct (host_is_on (g_host g) s) eqn:Eon; [|unfold create_arg; rewrite Eon; exact H1].
  set (P := fun s' => lookup p (heap s') = lookup p (heap s) /\ next_pid s <= next_pid s').
  apply (create_arg_stages P P); unfold P; [exact Eon| | |].
  - destruct (g_list g) as [o|]; [|exact H1]. cbn [heap set_heap next_pid]. rewrite lookup_store_other by lia. exact H1.
  - intros s2 t H2. destruct (set_kill_heap s2 (next_pid s) t) as [-> ->]. exact H2.
  - intros s3 H3. destruct (g_auto g); exact H3.
Qed.

Lemma fold_create_arg_heap gs p : forall s,
  p < next_pid s -> lookup p (heap (fold_left (create_arg false) gs s)) = lookup p (heap s).
Proof.
  induction gs as [|g gs IH]; cbn; intros s Hp; [reflexivity|].
  destruct (create_arg_heap s g p Hp) as [E1 E2]. rewrite IH; [exact E1|lia].
Qed.

Lemma restart_private s e p :
  reachable s -> p < next_pid s ->
  lookup p (heap (kstep false s e)) =
    match e with
    | KOnExit q tag => if (q =? p) && alive_in s p then lookup p (heap s) ++ [tag] else lookup p (heap s)
    | _ => lookup p (heap s)
    end.
Proof.
  intros Hr Hp. pose proof (reachable_inv _ Hr) as Hi.
  destruct e as [t|h code|h code auto kill|q tag|q t|q|q|h|h]; cbn [kstep].
  - reflexivity.
  - now destruct (create_plain_heap s h code p Hp).
  - match goal with |- lookup p (heap (create_arg false ?s' ?g)) = _ => destruct (create_arg_heap s' g p Hp) as [E _]; exact E end.
  - unfold alive_in. destruct (Z.eqb_spec q p) as [->|Hqp]; cbn [andb].
    + destruct (get_actor p (actors s)) as [a|] eqn:Eg; [|reflexivity]. destruct (a_list a) as [addr|] eqn:El.
      * destruct (owner_of_list _ _ _ _ Hi Eg El) as [_ [_ [Eal ->]]]. rewrite Eal. cbn [heap set_heap].
        rewrite lookup_store, Z.eqb_refl. reflexivity.
      * destruct (get_actor_some _ _ _ Eg) as [Hin _]. destruct (wf_actor s a (proj1 Hi) Hin) as [_ Ho]. unfold owns in Ho.
        rewrite El in Ho. destruct (a_alive a); [discriminate|reflexivity].
    + destruct (get_actor q (actors s)) as [a|] eqn:Eg; [|reflexivity]. destruct (a_list a) as [addr|] eqn:El; [|reflexivity].
      destruct (owner_of_list _ _ _ _ Hi Eg El) as [_ [_ [_ ->]]]. cbn [heap set_heap]. apply lookup_store_other, Hqp.
  - destruct (get_actor q (actors s)) as [a|]; [|reflexivity]. destruct (a_alive a); [|reflexivity].
    now destruct (set_kill_heap s q t) as [-> _].
  - destruct (get_actor q (actors s)) as [a|]; [|reflexivity]. destruct (a_alive a && negb (a_auto a)); reflexivity.
  - now destruct (kend_heap s q) as [-> _].
  - destruct (host_is_on h s); [|reflexivity]. cbn [heap set_hosts].
    apply (fold_left_inv _ (fun s' => lookup p (heap s') = lookup p (heap s))); [|reflexivity].
    intros s' x H. rewrite (proj1 (kend_heap s' x)). exact H.
  - destruct (get_host h (hosts s)) as [x|]; [|reflexivity]. destruct (h_on x); [reflexivity|].
    rewrite fold_create_arg_heap; [reflexivity|exact Hp].
Qed.

Lemma get_actor_new p l n : Forall (fun a => a_pid a < p) l -> a_pid n = p -> get_actor p (l ++ [n]) = Some n.
Proof.
  intros Hf En. unfold get_actor. induction l as [|x l IH]; cbn.
  - rewrite En, Z.eqb_refl. reflexivity.
  - inversion Hf as [|? ? Hx Hl]; subst. rewrite (proj2 (Z.eqb_neq _ _)) by lia. now apply IH.
Qed.

(** a re-created actor starts with a copy of the recorded vector (empty when the record has none), in a vector of its own *)
Lemma restart_recreate s g :
  reachable s -> host_is_on (g_host g) s = true -> (forall o, g_list g = Some o -> o < next_pid s) ->
  let s' := create_arg false s g in
  lookup (next_pid s) (heap s') = match g_list g with Some o => lookup o (heap s) | None => [] end /\
  exists a, get_actor (next_pid s) (actors s') = Some a /\ a_alive a = true /\ a_list a = Some (next_pid s) /\
            a_code a = g_code g /\ a_host a = g_host g /\ (g_auto g = true -> a_auto a = true).
Proof.
  intros Hr Eon Ho. destruct (reachable_inv _ Hr) as [W _]. cbn zeta. set (p := next_pid s).
  set (v := match g_list g with Some o => lookup o (heap s) | None => [] end).
  (* the new actor, whatever its kill time and auto_restart flag *)
  set (P := fun (b : bool) s' => lookup p (heap s') = v /\
              exists a, get_actor p (actors s') = Some a /\ a_alive a = true /\ a_list a = Some p /\
                        a_code a = g_code g /\ a_host a = g_host g /\ (b = true -> a_auto a = true)).
  apply (create_arg_stages (P false) (P (g_auto g))); [exact Eon| | |]; fold p.
  - unfold create_plain. rewrite Eon. fold p. split.
    + unfold v. destruct (g_list g) as [o|]; cbn [heap set_heap]; rewrite !lookup_store, Z.eqb_refl; [|reflexivity].
      rewrite (proj2 (Z.eqb_neq p o)) by (specialize (Ho o eq_refl); lia). reflexivity.
    + exists (mkA p (g_host g) (g_code g) true (Some p) false 0 0). split; [|cbn; auto 6; repeat split; auto; discriminate].
      replace (actors _) with (actors s ++ [mkA p (g_host g) (g_code g) true (Some p) false 0 0]) by (destruct (g_list g); reflexivity).
      apply get_actor_new; [|reflexivity]. apply Forall_forall. intros a Ha. apply (wf_actor s a W Ha).
  - intros s2 t [H2 (a & Ea & Hal & Hli & Hco & Hho & Hau)]. unfold set_kill. destruct (t <=? now s2); [split; [exact H2|exists a; repeat split; assumption]|].
    split; [exact H2|]. cbn [actors set_actors]. rewrite get_actor_upd, Ea by reflexivity. exists (with_kill t a). cbn. auto 6.
  - intros s3 [H3 (a & Ea & Hal & Hli & Hco & Hho & _)]. destruct (g_auto g); [|split; [exact H3|exists a; repeat split; auto; discriminate]].
    split; [exact H3|]. cbn [actors set_actors]. rewrite get_actor_upd, Ea by reflexivity. exists (with_auto true a). cbn. auto 6.
Qed.

(** set_auto_restart records the code, host and kill time of the caller and SHARES its vector (as ProcessArg(host, actor)) *)
Lemma restart_record s p a x :
  reachable s -> get_actor p (actors s) = Some a -> a_alive a = true -> a_auto a = false ->
  get_host (a_host a) (hosts s) = Some x ->
  get_host (a_host a) (hosts (kstep false s (KSetAuto p))) =
    Some (mkH (h_id x) (h_on x) (h_boot x ++ [mkG (a_code a) (a_host a) true (Some p) (a_kill a)])).
Proof.
  intros Hr Eg Eal Eau Eh. cbn [kstep]. rewrite Eg, Eal, Eau. cbn [andb negb hosts set_hosts].
  rewrite get_host_upd by reflexivity. rewrite Eh. cbn [option_map].
  destruct (get_actor_some _ _ _ Eg) as [Hin Ep]. destruct (restart_no_sharing s Hr) as [_ Ho].
  rewrite (Ho a Hin), Eal, Ep. reflexivity.
Qed.
