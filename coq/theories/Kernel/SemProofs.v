(** C05 — proofs about SGV.Kernel.Sem: every history of acquire / acquire_timeout / release calls and timer events. *)
From SGV Require Import Base.PlainLia Base.Facts Kernel.Sem.
Local Open Scope Z_scope.

Lemma in_queue_iff : forall p q, in_queue p q = true <-> In p (map fst q).
Proof. intros p q. apply existsb_eqb_In. Qed.

Lemma has_timer_in : forall p q, has_timer p q = true -> In p (map fst q).
Proof.
  intros p q H. apply existsb_exists in H. destruct H as (e & He & H). apply andb_true_iff in H.
  destruct H as [H _]. apply Z.eqb_eq in H. subst p. now apply in_map.
Qed.

Lemma remove_first_map : forall p q, map fst (remove_first p q) = remove_pid p (map fst q).
Proof.
  induction q as [|e r IH]; cbn; [reflexivity|]. destruct (fst e =? p); [reflexivity|]. cbn. now rewrite IH.
Qed.

Lemma remove_pid_incl : forall p l x, In x (remove_pid p l) -> In x l.
Proof.
  induction l as [|y r IH]; cbn; [tauto|]. intros x. destruct (y =? p); [auto|]. cbn. intros [H|H]; auto.
Qed.

Lemma remove_pid_nodup : forall p l, NoDup l -> NoDup (remove_pid p l) /\ ~ In p (remove_pid p l).
Proof.
  induction l as [|y r IH]; cbn; intros H; [split; [constructor | tauto]|]. inv H.
  destruct (Z.eqb_spec y p) as [->|Hne]; [auto|]. destruct (IH H3) as [IH1 IH2]. split.
  - constructor; [|assumption]. intros Hin. apply remove_pid_incl in Hin. contradiction.
  - cbn. tauto.
Qed.

(** the invariant of reachable states; [c] is the initial capacity *)
Definition Inv (c : Z) (s : sem) : Prop :=
  value s = c + releases s - grants s /\ 0 <= value s /\ (queue s <> [] -> value s = 0) /\
  NoDup (map fst (queue s)).

Lemma inv_init : forall c, 0 <= c -> Inv c (init c).
Proof. intros c Hc. unfold Inv, init. cbn. repeat split; try lia; [intros H; now contradiction H | constructor]. Qed.

Lemma inv_acquire : forall fx c s p tm, Inv c s -> in_queue p (queue s) = false ->
  Inv c (fst (acquire_code fx s p tm)).
Proof.
  intros fx c s p tm (Hv & H0 & Hq & Hn) Hin. unfold acquire_code. destruct (Z.ltb_spec 0 (value s)) as [Hpos|Hpos]; unfold Inv; cbn.
  - (* a token is free, so nobody waits *) repeat split; try lia; [|assumption]. intros Hne. apply Hq in Hne. lia.
  - repeat split; try lia. rewrite map_app. cbn [map fst]. apply NoDup_snoc; [assumption|].
    intros H. apply in_queue_iff in H. congruence.
Qed.

Lemma inv_step : forall fx c s o, Inv c s -> Inv c (fst (step fx s o)).
Proof.
  intros fx c s o HI. unfold step. destruct o as [p|p t|p|p].
  1-3: destruct (in_queue p (queue s)) eqn:Hin; [exact HI|].
  1-2: now apply inv_acquire.
  - destruct HI as (Hv & H0 & Hq & Hn). unfold release_code. destruct (queue s) as [|e r] eqn:Hqs; unfold Inv; cbn.
    + repeat split; try lia; [congruence | constructor].
    + assert (value s = 0) by (apply Hq; discriminate). inv Hn. repeat split; try lia; assumption.
  - destruct HI as (Hv & H0 & Hq & Hn). unfold fire_code. destruct (has_timer p (queue s)); [|repeat split; assumption].
    unfold Inv. cbn. repeat split; try lia.
    + intros Hne. apply Hq. intros He. rewrite He in Hne. now apply Hne.
    + rewrite remove_first_map. exact (proj1 (remove_pid_nodup p _ Hn)).
Qed.

Lemma exec_inv : forall fx c ops, 0 <= c -> Inv c (exec fx c ops).
Proof. intros fx c ops Hc. exact (fold_left_inv _ (Inv c) (fun s o => inv_step fx c s o) ops _ (inv_init c Hc)). Qed.

Lemma exec_from_cons : forall fx s o r, exec_from fx s (o :: r) = exec_from fx (fst (step fx s o)) r.
Proof. reflexivity. Qed.

Lemma run_cons : forall fx s o r, run fx s (o :: r) = (o, snd (step fx s o)) :: run fx (fst (step fx s o)) r.
Proof. intros. cbn. destruct (step fx s o). reflexivity. Qed.

(** the ghost counters are trace quantities *)
Lemma step_counts : forall fx s o,
  grants (fst (step fx s o)) = grants s + granted (o, snd (step fx s o)) /\
  releases (fst (step fx s o)) = releases s + released (o, snd (step fx s o)).
Proof.
  intros fx s o. unfold step. destruct o as [p|p t|p|p].
  1-3: destruct (in_queue p (queue s)); [cbn; lia|].
  1-2: unfold acquire_code; destruct (0 <? value s); cbn; lia.
  - unfold release_code. destruct (queue s); cbn; lia.
  - unfold fire_code. destruct (has_timer p (queue s)); cbn; lia.
Qed.

Lemma counts_gen : forall fx ops s,
  grants (exec_from fx s ops) = grants s + total granted (run fx s ops) /\
  releases (exec_from fx s ops) = releases s + total released (run fx s ops).
Proof.
  intros fx. induction ops as [|o r IH]; intros s; [cbn; lia|].
  rewrite exec_from_cons, run_cons. destruct (IH (fst (step fx s o))) as [-> ->].
  destruct (step_counts fx s o) as [-> ->]. cbn [total]. lia.
Qed.

Theorem conservation : forall fx c ops, 0 <= c ->
  let s := exec fx c ops in let tr := run fx (init c) ops in
  value s = c + total released tr - total granted tr /\ 0 <= value s /\
  total granted tr <= c + total released tr /\
  (queue s = [] \/ (value s = 0 /\ total granted tr = c + total released tr)).
Proof.
  intros fx c ops Hc s tr. destruct (exec_inv fx c ops Hc) as (Hv & H0 & Hq & _). fold s in Hv, H0, Hq.
  destruct (counts_gen fx ops (init c)) as [Hg Hr]. cbn [init grants releases] in Hg, Hr.
  fold (exec fx c ops) in Hg, Hr. fold s in Hg, Hr. fold tr in Hg, Hr.
  repeat split; try lia.
  destruct (queue s) eqn:Hqs; [left; reflexivity | right]. assert (value s = 0) by (apply Hq; congruence). lia.
Qed.

(** FIFO: the queue is, in request order, the blocked requests that were neither served nor timed out; a release serves
    its head *)
Lemma step_waiting : forall fx s o,
  map fst (queue (fst (step fx s o))) = waiting_step (map fst (queue s)) (o, snd (step fx s o)).
Proof.
  intros fx s o. unfold step. destruct o as [p|p t|p|p].
  1-3: destruct (in_queue p (queue s)); [reflexivity|].
  1-2: unfold acquire_code; destruct (0 <? value s); cbn; [reflexivity | apply map_app].
  - unfold release_code. destruct (queue s) as [|e r]; cbn; [reflexivity | now rewrite Z.eqb_refl].
  - unfold fire_code. destruct (has_timer p (queue s)); cbn; [apply remove_first_map | reflexivity].
Qed.

Lemma fifo_gen : forall fx ops s,
  map fst (queue (exec_from fx s ops)) = fold_left waiting_step (run fx s ops) (map fst (queue s)).
Proof.
  intros fx. induction ops as [|o r IH]; intros s; [reflexivity|].
  rewrite exec_from_cons, run_cons, IH, step_waiting. reflexivity.
Qed.

Theorem release_serves_head : forall fx s p s' q, step fx s (Release p) = (s', Released (Some q)) ->
  exists tm r, queue s = (q, tm) :: r /\ queue s' = r /\ value s' = value s.
Proof.
  intros fx s p s' q. unfold step. destruct (in_queue p (queue s)); [discriminate|]. unfold release_code.
  destruct (queue s) as [|[q0 tm] r]; [discriminate|]. intros H. inv H. exists tm, r. cbn. auto.
Qed.

Theorem release_without_waiter : forall fx s p s', step fx s (Release p) = (s', Released None) ->
  queue s = [] /\ value s' = value s + 1.
Proof.
  intros fx s p s'. unfold step. destruct (in_queue p (queue s)); [discriminate|]. unfold release_code.
  destruct (queue s); [|discriminate]. intros H. inv H. cbn. auto.
Qed.

Theorem timeout_iff_timer : forall fx s p,
  (has_timer p (queue s) = true -> snd (step fx s (Fire p)) = TimedOut) /\
  (has_timer p (queue s) = false -> step fx s (Fire p) = (s, NoTimer)).
Proof. intros fx s p. unfold step, fire_code. destruct (has_timer p (queue s)); split; intros; try discriminate; reflexivity. Qed.

Theorem timeout_consumes_nothing : forall fx s p s', step fx s (Fire p) = (s', TimedOut) ->
  value s' = value s /\ grants s' = grants s /\ releases s' = releases s /\
  queue s' = remove_first p (queue s) /\ has_timer p (queue s) = true.
Proof.
  intros fx s p s'. unfold step, fire_code. destruct (has_timer p (queue s)); [|discriminate].
  intros H. inv H. cbn. auto.
Qed.

(* a waiter that was served can no longer time out: finish() dropped its timer *)
Theorem granted_never_times_out : forall fx c ops p s' q, 0 <= c ->
  step fx (exec fx c ops) (Release p) = (s', Released (Some q)) -> step fx s' (Fire q) = (s', NoTimer).
Proof.
  intros fx c ops p s' q Hc Hs. destruct (exec_inv fx c ops Hc) as (_ & _ & _ & Hn).
  destruct (release_serves_head fx _ p s' q Hs) as (tm & r & Hq & Hq' & _).
  apply timeout_iff_timer. destruct (has_timer q (queue s')) eqn:Ht; [|reflexivity].
  apply has_timer_in in Ht. rewrite Hq' in Ht. rewrite Hq in Hn. cbn in Hn. inv Hn. contradiction.
Qed.

(* a waiter that timed out is gone: a later release does not serve it *)
Theorem timed_out_is_gone : forall fx c ops p s', 0 <= c ->
  step fx (exec fx c ops) (Fire p) = (s', TimedOut) -> in_queue p (queue s') = false.
Proof.
  intros fx c ops p s' Hc Hs. destruct (exec_inv fx c ops Hc) as (_ & _ & _ & Hn).
  destruct (timeout_consumes_nothing fx _ p s' Hs) as (_ & _ & _ & -> & _).
  destruct (in_queue p _) eqn:Hin; [|reflexivity]. apply in_queue_iff in Hin. rewrite remove_first_map in Hin.
  destruct (proj2 (remove_pid_nodup p _ Hn) Hin).
Qed.

(* when does wait_for arm a timeout: repaired code, every t >= 0 *)
Theorem armed_iff_nonnegative : forall s p t, in_queue p (queue s) = false -> value s <= 0 ->
  snd (step true s (AcquireTimeout p t)) = Blocked (0 <=? t) /\
  (0 <= t -> snd (step true (fst (step true s (AcquireTimeout p t))) (Fire p)) = TimedOut).
Proof.
  intros s p t Hin Hv.
  assert (Hpos : (0 <? value s) = false) by lia.
  assert (Hst : step true s (AcquireTimeout p t) =
                (mkSem (value s) (queue s ++ [(p, 0 <=? t)]) (grants s) (releases s), Blocked (0 <=? t))).
  { unfold step. rewrite Hin. unfold acquire_code. rewrite Hpos. reflexivity. }
  rewrite Hst. cbn [fst snd]. split; [reflexivity|].
  intros Ht. apply timeout_iff_timer. cbn [queue]. unfold has_timer. rewrite existsb_app. cbn.
  rewrite Z.eqb_refl. assert (H0 : (0 <=? t) = true) by lia. rewrite H0. cbn. apply orb_true_r.
Qed.

Theorem acquire_when_token : forall fx s p tm, in_queue p (queue s) = false -> 0 < value s ->
  step fx s (match tm with Some t => AcquireTimeout p t | None => Acquire p end) =
  (mkSem (value s - 1) (queue s) (grants s + 1) (releases s), Acquired).
Proof.
  intros fx s p tm Hin Hv. assert (Hpos : (0 <? value s) = true) by lia.
  destruct tm; unfold step; rewrite Hin; unfold acquire_code; rewrite Hpos; reflexivity.
Qed.
