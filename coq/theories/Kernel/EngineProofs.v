(** Proofs about the engine model (SGV.Kernel.Engine).  Every function [f] that runs between two advances of the
    clock relates its input to its output by [same_time] (lemma [st_f]): clock and precision unchanged, the per-actor
    invariant [ainv] kept, the log extended by well-formed entries dated now.  [advance] does the same up to the new
    clock ([adv_rel]), and the run theorems follow by transitivity.  The C11 / C12 statements at the end unfold one
    function each. *)
From Coq Require Import Sorted.
From SGV Require Import Base.PlainLia Kernel.Engine.
Local Open Scope Z_scope.

(* For the whole-run examples: the run is evaluated once and named, [In] stays folded, and a membership is proved by
   position ([nth_error_In]); a chain of [or_intror] repeats the rest of the list in every type. *)
Lemma eval_pair {A B} (p : A * B) a b (Q : A -> B -> Prop) :
  p = (a, b) -> (let x := a in let y := b in Q x y) -> let '(x, y) := p in Q x y.
Proof. intros ->. exact (fun H => H). Qed.

Lemma fold_left_pres {A B} (P : A -> Prop) (f : A -> B -> A) l :
  (forall s x, P s -> P (f s x)) -> forall s, P s -> P (fold_left f l s).
Proof. intros H. induction l; simpl; auto. Qed.

Lemma Forall_upd_actor (P : actor -> Prop) p f l :
  Forall P l -> (forall a, get_actor p l = Some a -> P a -> P (f a)) -> Forall P (upd_actor p f l).
Proof.
  intros H. induction H; simpl; intros Hf; auto.
  destruct (a_pid x =? p) eqn:E; constructor; auto.
Qed.
Lemma upd_actor_none p f l : get_actor p l = None -> upd_actor p f l = l.
Proof. induction l; simpl; auto. destruct (a_pid a =? p); [discriminate|]. intros; f_equal; auto. Qed.
Lemma Forall_map_same {A} (P : A -> Prop) f (l : list A) :
  Forall P l -> (forall a, P a -> P (f a)) -> Forall P (map f l).
Proof. intros H Hf. induction H; simpl; constructor; auto. Qed.
Lemma get_actor_In p l a : get_actor p l = Some a -> In a l /\ a_pid a = p.
Proof.
  induction l as [|b l IH]; simpl; [discriminate|]. destruct (Z.eqb_spec (a_pid b) p); intros H.
  - inv H. auto.
  - destruct (IH H). auto.
Qed.
Lemma get_act_In h l x : get_act h l = Some x -> In x l /\ h_id x = h.
Proof.
  induction l as [|y l IH]; simpl; [discriminate|]. destruct (Z.eqb_spec (h_id y) h); intros H.
  - inv H. auto.
  - destruct (IH H). auto.
Qed.

Definition ainv (clk pr : Z) (a : actor) : Prop :=
  a_t0 a <= clk /\ (forall d, a_cur a = OSleep d -> 0 < d) /\
  match a_st a with
  | SCalled => a_t0 a = clk
  | SBlocked (BSleep dt) => forall d, a_cur a = OSleep d -> a_dist a = false -> dt = a_t0 a + clamp pr d
  | SBlocked BFin | SReady _ _ => forall d, a_cur a = OSleep d -> a_dist a = false -> clk <= a_t0 a + clamp pr d < clk + pr
  | _ => True
  end.
Definition IA (s : state) : Prop := Forall (ainv (clock s) (prec s)) (actors s).
Definition entry_ok (pr : Z) (e : entry) : Prop :=
  match e with
  | ERet _ _ o t0 t1 _ dist =>
    t0 <= t1 /\ match o with
                | OSleep d => (d <= 0 -> t1 = t0) /\ (0 < d -> dist = false -> t1 <= t0 + clamp pr d < t1 + pr)
                | _ => True end
  | _ => True
  end.
Definition free (st : status) : Prop :=
  match st with SCalled | SBlocked (BSleep _) | SBlocked BFin | SReady _ _ => False | _ => True end.

Lemma ainv_frame clk pr a b :
  a_cur b = a_cur a -> a_t0 b = a_t0 a -> a_st b = a_st a -> (a_dist b = a_dist a \/ a_dist b = true) ->
  ainv clk pr a -> ainv clk pr b.
Proof.
  unfold ainv. destruct b; simpl. intros -> -> -> Hd (H1 & H2 & H3). repeat split; auto.
  destruct (a_st a) as [| | |[]| | |]; auto; intros d E F; destruct Hd as [Hd|Hd]; try congruence; apply H3; congruence.
Qed.
Lemma ainv_free clk pr a b :
  a_cur b = a_cur a -> a_t0 b = a_t0 a -> free (a_st b) -> ainv clk pr a -> ainv clk pr b.
Proof.
  unfold ainv. destruct b; simpl. intros -> -> Hs (H1 & H2 & H3). repeat split; auto.
  destruct a_st as [| | |[]| | |]; simpl in Hs; tauto.
Qed.
(* answered, or its sleep action finished: a status whose sleep bounds can only be met by a disturbed operation *)
Definition woken (st : status) : Prop := match st with SBlocked BFin | SReady _ _ => True | _ => False end.
Lemma ainv_woken clk pr a b :
  a_cur b = a_cur a -> a_t0 b = a_t0 a -> (is_sleep (a_cur a) = true -> a_dist b = true) -> woken (a_st b) ->
  ainv clk pr a -> ainv clk pr b.
Proof.
  unfold ainv. destruct b; simpl. intros -> -> Hd Hs (H1 & H2 & H3). repeat split; auto.
  assert (F : forall d, a_cur a = OSleep d -> a_dist = false -> False).
  { intros d E F. rewrite Hd in F; [discriminate|]. rewrite E. reflexivity. }
  destruct a_st as [| | |[]| | |]; try destruct Hs; intros d E D; destruct (F d E D).
Qed.
Lemma ainv_taint clk pr a st : woken st -> ainv clk pr a -> ainv clk pr (set_st (taint a) st).
Proof. intros W. apply ainv_woken; [reflexivity | reflexivity | simpl; intros ->; apply orb_true_r | exact W]. Qed.

Definition at_clock (c : Z) (e : entry) : Prop :=
  match e with ERet _ _ _ _ t1 _ _ => t1 = c | EExit _ _ t _ => t = c | ETerm _ t => t = c | EAct _ _ _ => True end.
Definition grows (c : Z) (s s' : state) : Prop :=
  prec s' = prec s /\ (IA s -> IA s') /\
  exists new, log s' = new ++ log s /\ Forall (at_clock c) new /\ (IA s -> Forall (entry_ok (prec s)) new).
Definition same_time (s s' : state) : Prop := clock s' = clock s /\ grows (clock s) s s'.
Definition adv_rel (s s' : state) : Prop := clock s <= clock s' /\ grows (clock s') s s'.

Lemma grows_trans c a b d : grows c a b -> grows c b d -> grows c a d.
Proof.
  intros (H2 & I1 & n1 & H3 & H4 & J1) (H6 & I2 & n2 & H7 & H8 & J2). split; [congruence|]. split; [auto|].
  exists (n2 ++ n1). split; [rewrite H7, H3; apply app_assoc|]. split.
  - apply Forall_app; auto.
  - intros. apply Forall_app; split; auto. rewrite H2 in J2. auto.
Qed.
Lemma st_trans a b c : same_time a b -> same_time b c -> same_time a c.
Proof. intros (H1 & G1) (H2 & G2). split; [congruence|]. rewrite H1 in G2. exact (grows_trans _ _ _ _ G1 G2). Qed.
Lemma adv_of_same s s' : same_time s s' -> adv_rel s s'.
Proof. intros (H & G). rewrite <- H in G. split; [rewrite H; apply Z.le_refl | exact G]. Qed.
Lemma adv_then_same a b c : adv_rel a b -> same_time b c -> adv_rel a c.
Proof. intros (H1 & G1) (H2 & G2). rewrite <- H2 in *. split; [exact H1 | exact (grows_trans _ _ _ _ G1 G2)]. Qed.

Lemma same_time_frame s s' :
  clock s' = clock s -> prec s' = prec s -> actors s' = actors s -> log s' = log s -> same_time s s'.
Proof. intros Hc Hp Ha Hl. unfold same_time, grows, IA. rewrite Hc, Hp, Ha, Hl. repeat split; auto. exists []; auto. Qed.
Lemma st_refl s : same_time s s. Proof. apply same_time_frame; reflexivity. Qed.

Lemma st_mod_actor s p f :
  (forall a, get_actor p (actors s) = Some a -> ainv (clock s) (prec s) a -> ainv (clock s) (prec s) (f a)) ->
  same_time s (mod_actor s p f).
Proof.
  intros H. unfold same_time, grows, IA; simpl. repeat split; auto; [|exists []; auto].
  intros HI. apply Forall_upd_actor; auto.
Qed.
Lemma st_set_acts s l : same_time s (set_acts s l). Proof. apply same_time_frame; reflexivity. Qed.
Lemma st_add_log s e : at_clock (clock s) e -> (IA s -> entry_ok (prec s) e) -> same_time s (add_log s e).
Proof. intros H H'. unfold same_time, grows, IA; simpl. repeat split; auto. exists [e]; auto. Qed.
Lemma st_bump s : same_time s (bump s). Proof. apply same_time_frame; reflexivity. Qed.
Lemma st_set_race s : same_time s (set_race s). Proof. apply same_time_frame; reflexivity. Qed.
Lemma st_answer s p r : same_time s (answer s p r).
Proof.
  unfold answer. eapply st_trans; [|apply st_bump]. apply st_mod_actor.
  intros a _. now apply ainv_taint.
Qed.
Ltac frame := intros ? _; apply ainv_frame; cbv beta; simpl; auto.
Ltac freed := intros ? _; apply ainv_free; cbv beta; simpl; auto.
Lemma st_do_exit s p : same_time s (do_exit s p).
Proof.
  unfold do_exit. destruct (get_actor p (actors s)); [|apply st_refl]. eapply st_trans; [apply st_set_acts|].
  destruct (runnable_pos a).
  - apply st_mod_actor. freed.
  - eapply st_trans; [|apply st_bump]. apply st_mod_actor. freed.
Qed.
Lemma st_do_kill s p : same_time s (do_kill s p).
Proof. unfold do_kill. destruct (get_actor p (actors s)); [|apply st_refl]. destruct (wannadie a); [apply st_refl|apply st_do_exit]. Qed.
Lemma st_fold {B} (f : state -> B -> state) :
  (forall s x, same_time s (f s x)) -> forall l s, same_time s (fold_left f l s).
Proof. intros H l s. apply fold_left_pres; [intros s1 x Hs; exact (st_trans _ _ _ Hs (H s1 x)) | apply st_refl]. Qed.
Lemma st_run_onexit p fl cbs : forall s, same_time s (run_onexit p fl cbs s).
Proof.
  induction cbs as [|c r IH]; simpl; intros; [apply st_refl|]. destruct c; (eapply st_trans; [|apply IH]).
  - apply st_add_log; simpl; auto.
  - apply st_mod_actor. intros a _ Ha. destruct (a_st a) as [| | |[]| | |] eqn:E; auto.
    destruct (tg =? p); auto. revert Ha. now apply ainv_taint.
Qed.
Lemma st_terminate s p fl : same_time s (terminate s p fl).
Proof.
  unfold terminate. destruct (get_actor p (actors s)); [|apply st_refl].
  set (s1 := run_onexit p fl (a_onexit a) s).
  pose proof (st_run_onexit p fl (a_onexit a) s) as Hr. fold s1 in Hr.
  apply (st_trans s s1); auto.
  eapply st_trans; [|apply st_add_log; simpl; auto; destruct Hr as (H1 & _); auto].
  eapply st_trans; [apply st_set_acts|apply st_mod_actor; freed].
Qed.
Lemma st_start_ops p prog : forall i s, same_time s (start_ops p prog i s).
Proof.
  assert (G : forall s o rest i, (forall d, o = OSleep d -> 0 < d) ->
              same_time s (mod_actor s p (fun a => start_op a o rest i (clock s)))).
  { intros. apply st_mod_actor. intros a _ (H1 & H2 & H3). unfold ainv; simpl. repeat split; auto; lia. }
  induction prog as [|o r IH]; simpl; intros; [apply st_terminate|].
  destruct o; try (apply G; intros; discriminate).
  destruct (d <=? 0) eqn:E.
  - eapply st_trans; [|apply IH]. apply st_add_log; simpl; auto. intros _. repeat split; try lia.
  - apply G. intros d' Hd. inv Hd. lia.
Qed.
Lemma act_entry_cases s o r : act_entry s o r = s \/ exists h t0 t, act_entry s o r = add_log s (EAct h t0 t).
Proof.
  unfold act_entry. destruct o; auto. destruct (r =? 0); auto. destruct (get_act h (acts s)); auto.
  destruct (h_st a); eauto.
Qed.
Lemma st_act_entry s o r : same_time s (act_entry s o r).
Proof. destruct (act_entry_cases s o r) as [->|(h & t0 & t & ->)]; [apply st_refl | apply st_add_log; simpl; auto]. Qed.
Lemma IA_get s p a : IA s -> get_actor p (actors s) = Some a -> ainv (clock s) (prec s) a.
Proof. intros H G. apply get_actor_In in G. destruct G. eapply Forall_forall in H; eauto. Qed.
Lemma st_run_actor s p : same_time s (run_actor s p).
Proof.
  unfold run_actor. destruct (get_actor p (actors s)) eqn:G; [|apply st_refl].
  destruct (a_st a) as [n|r n| | | | |] eqn:Est; try simple apply st_refl.
  - apply st_start_ops.
  - destruct (a_susp a); [apply st_mod_actor; freed|]. eapply st_trans; [|apply st_start_ops].
    pose proof (st_act_entry s (a_cur a) r) as Hae. eapply st_trans; [exact Hae|]. destruct Hae as (H1 & H2 & _).
    apply st_add_log; [symmetry; exact H1|]. rewrite H2. intros HI.
    assert (Ha : ainv (clock s) (prec s) a).
    { destruct (act_entry_cases s (a_cur a) r) as [E|(h & t0 & t & E)]; rewrite E in HI; exact (IA_get _ _ _ HI G). }
    destruct Ha as (A1 & A2 & A3). rewrite Est in A3. split; [exact A1|].
    destruct (a_cur a) eqn:Ec; auto. split; [intros; specialize (A2 d eq_refl); lia|]. intros. apply A3; auto.
  - apply st_terminate.
Qed.
Lemma st_do_suspend s p : same_time s (do_suspend s p).
Proof.
  unfold do_suspend. destruct (get_actor p (actors s)); [|apply st_refl]. destruct (wannadie a || a_susp a); [apply st_refl|].
  eapply st_trans; [|apply st_set_acts]. apply st_mod_actor; frame.
Qed.
Lemma st_reschedule s p r n : same_time s (bump (mod_actor s p (fun a => set_susp (set_st a (SReady r n)) false true))).
Proof. eapply st_trans; [|apply st_bump]. apply st_mod_actor. intros a _. now apply ainv_woken. Qed.
Lemma st_do_resume s p : same_time s (do_resume s p).
Proof.
  unfold do_resume. destruct (get_actor p (actors s)); [|apply st_refl]. destruct (wannadie a || negb (a_susp a)); [apply st_refl|].
  destruct (a_st a) as [| | |b| | |]; try simple apply st_set_race; (eapply st_trans; [apply st_set_acts|]); [|apply st_reschedule].
  destruct b; [apply st_mod_actor; frame .. | apply st_reschedule].
Qed.
Lemma st_handle_simcall s p : same_time s (handle_simcall s p).
Proof.
  unfold handle_simcall. destruct (get_actor p (actors s)) as [a|] eqn:G; [|apply st_refl].
  destruct (a_st a) eqn:Est; try simple apply st_refl.
  destruct (a_cur a) eqn:Ec; try simple apply st_answer.
  - apply st_mod_actor. intros a0 G0 (H1 & H2 & H3). rewrite G in G0. inv G0. rewrite Est in H3.
    unfold ainv; simpl. repeat split; auto. intros d' Hd _. rewrite Ec in Hd. inv Hd. lia.
  - destruct (get_act h (acts s)); [apply st_answer|]. destruct (d <? 0); [apply st_answer|].
    eapply st_trans; [apply st_set_acts|apply st_answer].
  - destruct (owned_ok s p h); [|apply st_answer]. destruct (get_act h (acts s)); [|apply st_answer].
    destruct (h_st a0); try simple apply st_answer; apply st_mod_actor; freed.
  - destruct (forallb (owned_ok s p) hs); [|apply st_answer]. destruct (find (act_over s) hs); [apply st_answer|].
    apply st_mod_actor; freed.
  - destruct (get_actor a0 (actors s)); [|apply st_answer]. destruct ((t <? 0) && negb (t =? -1)); [apply st_answer|].
    destruct (wannadie a1); [apply st_answer|]. eapply st_trans; [|apply st_mod_actor; freed]. apply st_mod_actor; frame.
  - destruct (get_actor a0 (actors s)); [|apply st_answer]. destruct (a0 =? p); [apply st_do_kill|].
    eapply st_trans; [apply st_do_kill|apply st_answer].
  - eapply st_trans; [|apply st_answer].
    apply st_fold. intros. destruct (x =? p); [apply st_refl|apply st_do_kill].
  - destruct (a_kset a); [apply st_answer|]. eapply st_trans; [|apply st_answer]. apply st_mod_actor; frame.
  - eapply st_trans; [|apply st_answer]. apply st_mod_actor; frame.
  - eapply st_trans; [|apply st_answer]. apply st_mod_actor; frame.
  - destruct (get_actor a0 (actors s)); [|apply st_answer]. destruct (a0 =? p).
    + eapply st_trans; [apply st_do_suspend|apply st_mod_actor; freed].
    + eapply st_trans; [apply st_do_suspend|apply st_answer].
  - destruct (get_actor a0 (actors s)); [|apply st_answer]. eapply st_trans; [apply st_do_resume|apply st_answer].
  - apply st_do_exit.
Qed.
Lemma st_notify s x : same_time s (notify_owner s x).
Proof.
  unfold notify_owner. destruct (get_actor (h_owner x) (actors s)); [|apply st_refl]. destruct (a_st a); try simple apply st_refl.
  destruct b; try simple apply st_refl. destruct (h =? h_id x); [apply st_answer|apply st_refl].
  destruct (existsb (Z.eqb (h_id x)) hs); [apply st_answer|apply st_refl].
Qed.
Lemma st_end_act s h : same_time s (end_act s h).
Proof.
  unfold end_act. destruct (get_act h (acts s)); [|apply st_refl]. destruct (h_st a); try simple apply st_refl.
  eapply st_trans; [|apply st_notify]. apply same_time_frame; reflexivity.
Qed.
Lemma st_end_sleep s p : same_time s (end_sleep s p).
Proof.
  unfold end_sleep. destruct (get_actor p (actors s)) eqn:G; [|apply st_refl]. destruct (a_st a) eqn:E; try simple apply st_refl.
  destruct b; try simple apply st_refl. destruct (a_susp a); [apply st_mod_actor; freed|].
  eapply st_trans; [|apply st_bump]. apply st_mod_actor.
  intros a0 G0 (H1 & H2 & H3). rewrite G in G0. inv G0. rewrite E in H3. unfold ainv; simpl. auto.
Qed.
Lemma st_handle_ended s : same_time s (handle_ended s).
Proof.
  unfold handle_ended. eapply st_trans; [apply (st_fold _ st_end_act) | apply (st_fold _ st_end_sleep)].
Qed.
Lemma st_daemon_sweep s : same_time s (daemon_sweep s).
Proof. unfold daemon_sweep. destruct (forallb a_daemon (filter live (actors s))); [|apply st_refl]. apply (st_fold _ st_do_kill). Qed.
Lemma st_reset_batch s : same_time s (reset_batch s). Proof. apply same_time_frame; reflexivity. Qed.
Lemma st_close_batch s : same_time s (close_batch s). Proof. apply same_time_frame; reflexivity. Qed.
Lemma st_subround s : same_time s (subround s).
Proof.
  unfold subround. set (l := to_run s).
  eapply st_trans; [|apply st_daemon_sweep]. eapply st_trans; [|apply st_close_batch].
  eapply st_trans; [|apply st_handle_ended]. eapply st_trans; [|apply st_reset_batch].
  eapply st_trans; [apply (st_fold _ st_run_actor) | apply (st_fold _ st_handle_simcall)].
Qed.
Lemma st_drain n : forall s, same_time s (drain n s).
Proof.
  induction n; simpl; intros; [apply st_refl|]. destruct (to_run s); [apply st_refl|]. eapply st_trans; [apply st_subround|apply IHn].
Qed.
Lemma st_fire_timers s : same_time s (fire_timers s).
Proof.
  unfold fire_timers. apply st_fold. intros s0 p. apply (st_trans s0 (fire_timer s0 p)).
  - unfold fire_timer. destruct (get_actor p (actors s0)); [|apply st_refl]. destruct (a_kill a); [|apply st_refl].
    destruct (z <=? clock s0); [apply st_do_exit|apply st_refl].
  - unfold fire_timeout. destruct (get_actor p (actors (fire_timer s0 p))); [|apply st_refl]. destruct (a_st a); try simple apply st_refl.
    destruct b; try simple apply st_refl; destruct dl; try simple apply st_refl.
    + destruct (z <=? _); [|apply st_refl]. destruct (get_act h _); [|apply st_answer]. destruct (h_st a0); try simple apply st_answer.
      apply st_mod_actor; freed.
    + destruct (z <=? _); [apply st_answer|apply st_refl].
Qed.

Lemma omin_fold l : forall acc m, fold_left omin l acc = Some m ->
  (forall d, In d l -> m <= d) /\ (forall a, acc = Some a -> m <= a) /\ (In m l \/ acc = Some m).
Proof.
  induction l as [|x r IH]; simpl; intros acc m H.
  - repeat split; auto; [tauto|]. intros a E. rewrite H in E. inv E. lia.
  - apply IH in H. destruct H as (H1 & H2 & H3). repeat split.
    + intros d [E|E]; auto. subst. destruct acc; simpl in *; specialize (H2 _ eq_refl); lia.
    + intros a E. subst. simpl in *. specialize (H2 _ eq_refl). lia.
    + destruct H3 as [H3|H3]; auto. destruct acc; simpl in H3; inv H3; auto.
      destruct (Z.min_spec z x) as [[_ E]|[_ E]]; rewrite E; auto.
Qed.
Lemma next_date_min s m : next_date s = Some m -> (forall d, In d (all_dates s) -> m <= d) /\ In m (all_dates s).
Proof.
  intros H. apply omin_fold in H. destruct H as (H1 & _ & [H3|H3]); auto. discriminate.
Qed.

Lemma fold_omin_some l : forall x, fold_left omin l (Some x) <> None.
Proof. induction l; intros x; [discriminate | apply IHl]. Qed.

(* a status that [quiet_actor] accepts does not mention the clock *)
Lemma ainv_later clk m pr a : ainv clk pr a -> quiet_actor a = true -> clk <= m -> ainv m pr a.
Proof.
  unfold ainv, quiet_actor. intros (H1 & H2 & H3) Hq Hc. split; [lia|]. split; [exact H2|].
  destruct (a_st a) as [| | |[]| | |]; try discriminate; auto.
Qed.
Lemma pop_ainv s m a :
  ainv (clock s) (prec s) a -> quiet_actor a = true -> (forall d, In d (actor_dates a) -> m <= d) -> clock s <= m ->
  ainv m (prec s) (pop_actor (set_clock s m) m a).
Proof.
  intros Ha Hq Hd Hc. pose proof (ainv_later _ m _ _ Ha Hq Hc) as Hm. unfold pop_actor, due; simpl.
  destruct (a_st a) as [| | |[dt| |tg [dt|]| | |]| | |] eqn:E; try exact Hm;
    (destruct (Z.abs (dt - m) <? prec s) eqn:Ed; [|exact Hm]).
  - (* a sleep that ends: its date is within the precision of the new clock, and not before it *)
    assert (m <= dt). { apply Hd. unfold actor_dates. rewrite E. apply in_or_app. right. now left. }
    destruct Hm as (H1 & H2 & H3). rewrite E in H3. unfold ainv; simpl. repeat split; auto.
    all: specialize (H3 d H0 H4); lia.
  - apply ainv_taint; [exact I | exact Hm].
Qed.

(* [advance] with the state after solve() (clock at [m], due sleeps and execs popped) and the tie mark named *)
Definition after_solve (s : state) (m : Z) : state :=
  let s1 := set_clock s m in
  reset_batch (set_acts (set_actors s1 (map (pop_actor s1 m) (actors s1))) (map (pop_act s1 m) (acts s1))).
Definition mark_amb (b : bool) (s : state) : state :=
  if b then mkS (clock s) (prec s) (seq s) (actors s) (acts s) (log s) (batch s) true (race s) (stuck s) else s.
Lemma st_mark_amb b s : same_time s (mark_amb b s).
Proof. destruct b; apply same_time_frame; reflexivity. Qed.
Lemma advance_eq s : advance s =
  if negb (quiescent s) then Some (set_stuck s) else
  match next_date s with
  | None => if existsb live (actors s) then Some (fold_left do_kill (pids s) s) else None
  | Some m =>
    if m <? clock s then Some (set_stuck s) else
    let s3 := after_solve s m in
    let npop := Z.of_nat (length (filter (fun x => match h_st x with AFin _ => true | _ => false end) (acts s3))) in
    Some (mark_amb (2 <=? npop) (close_batch (handle_ended (fire_timers s3))))
  end.
Proof. exact eq_refl. Qed.

Lemma advance_cases s s' : advance s = Some s' ->
  s' = set_stuck s \/ (next_date s = None /\ s' = fold_left do_kill (pids s) s) \/
  exists m, next_date s = Some m /\ clock s <= m /\ quiescent s = true /\ same_time (after_solve s m) s'.
Proof.
  rewrite advance_eq. destruct (quiescent s); [|intros [= <-]; auto]. cbn [negb].
  destruct (next_date s) as [m|].
  - destruct (Z.ltb_spec m (clock s)); intros [= <-]; auto. right; right. exists m.
    split; [reflexivity|]. split; [assumption|]. split; [reflexivity|].
    eapply st_trans; [|apply st_mark_amb].
    eapply st_trans; [|apply st_close_batch]. eapply st_trans; [apply st_fire_timers | apply st_handle_ended].
  - destruct (existsb live (actors s)); intros [= <-]; auto.
Qed.

Lemma advance_rel s s' : advance s = Some s' -> adv_rel s s'.
Proof.
  intros H. destruct (advance_cases _ _ H) as [->|[[_ ->]|(m & En & Hm & Hq & Hs)]].
  - apply adv_of_same, same_time_frame; reflexivity.
  - apply adv_of_same, (st_fold _ st_do_kill).
  - apply (adv_then_same s (after_solve s m)); [|exact Hs].
    split; [exact Hm|]. split; [reflexivity|]. split; [|exists []; repeat split; auto].
    intros HI. change (Forall (ainv m (prec s)) (map (pop_actor (set_clock s m) m) (actors s))).
    apply Forall_map, Forall_forall. intros a Ha. apply pop_ainv; [| | |exact Hm].
    + exact (proj1 (Forall_forall _ _) HI a Ha).
    + apply andb_true_iff in Hq. exact (proj1 (forallb_forall _ _) (proj1 Hq) a Ha).
    + intros d Hd. apply (proj1 (next_date_min _ _ En)), in_or_app. left. apply in_flat_map. eauto.
Qed.

Definition etime (e : entry) : option Z :=
  match e with ERet _ _ _ _ t1 _ _ => Some t1 | EExit _ _ t _ => Some t | ETerm _ t => Some t | EAct _ _ _ => None end.
Definition not_before (e1 e2 : entry) : Prop :=   (* e1 was logged after e2 *)
  match etime e1, etime e2 with Some a, Some b => b <= a | _, _ => True end.
Definition le_clock (c : Z) (e : entry) : Prop := match etime e with Some t => t <= c | None => True end.
Definition LogInv (s : state) : Prop := StronglySorted not_before (log s) /\ Forall (le_clock (clock s)) (log s).

Lemma loginv_ext c c' new old :
  c <= c' -> StronglySorted not_before old -> Forall (le_clock c) old -> Forall (at_clock c') new ->
  StronglySorted not_before (new ++ old) /\ Forall (le_clock c') (new ++ old).
Proof.
  intros Hc Hs Ho Hn. induction Hn as [|e r He Hr IH]; simpl.
  - split; auto. eapply Forall_impl; [|exact Ho]. intros e. unfold le_clock. destruct (etime e); lia.
  - destruct IH as [I1 I2]. split.
    + constructor; auto. eapply Forall_impl; [|exact I2]. intros e2. unfold le_clock, not_before.
      destruct e; simpl in *; subst; destruct (etime e2); auto.
    + constructor; auto. unfold le_clock. destruct e; simpl in *; subst; auto; lia.
Qed.
Definition Inv (s : state) : Prop := IA s /\ Forall (entry_ok (prec s)) (log s) /\ LogInv s.
Lemma inv_adv s s' : adv_rel s s' -> Inv s -> Inv s'.
Proof.
  intros (H1 & H2 & H0 & n & H3 & H4 & H5) (I1 & I2 & I3 & I4). unfold Inv, LogInv. rewrite H3, H2.
  split; [auto|]. split; [apply Forall_app; split; auto|]. eapply loginv_ext; eauto.
Qed.
Definition ext (s s' : state) : Prop := clock s <= clock s' /\ prec s' = prec s /\ (Inv s -> Inv s').
Lemma ext_of_adv s s' : adv_rel s s' -> ext s s'.
Proof. intros H. pose proof (inv_adv _ _ H) as HI. destruct H as (H1 & H2 & _). exact (conj H1 (conj H2 HI)). Qed.
Lemma ext_trans a b c : ext a b -> ext b c -> ext a c.
Proof. intros (A & B & C) (D & E & F). split; [lia|]. split; [congruence | auto]. Qed.

Lemma run_inv n : forall s s' b, run n s = (s', b) -> ext s s'.
Proof.
  induction n; intros s s' b H; simpl in H.
  - inv H. apply ext_of_adv, adv_of_same, st_refl.
  - pose proof (ext_of_adv _ _ (adv_of_same _ _ (st_drain (S n) s))) as Hd. simpl in Hd.
    set (s1 := match to_run s with [] => s | _ :: _ => drain n (subround s) end) in *.
    destruct (halted s1); [inv H; exact Hd|].
    destruct (advance s1) as [s2|] eqn:Ea; [|inv H; exact Hd].
    pose proof (ext_trans _ _ _ Hd (ext_of_adv _ _ (advance_rel _ _ Ea))) as Ha.
    destruct (halted s2); [inv H; exact Ha|]. exact (ext_trans _ _ _ Ha (IHn _ _ _ H)).
Qed.

Lemma init_actors_inv pr progs : forall p, Forall (ainv 0 pr) (init_actors p progs).
Proof.
  induction progs; simpl; intros; constructor; auto. unfold ainv, init_actor; simpl. repeat split; try lia. intros; discriminate.
Qed.
Lemma inv_init pr progs : Inv (init pr progs).
Proof.
  unfold Inv, IA, LogInv; simpl. split; [apply init_actors_inv|]. repeat split; constructor.
Qed.

Theorem run_clock_monotone n pr progs s b : run n (init pr progs) = (s, b) -> 0 <= clock s /\ prec s = pr.
Proof. intros H. apply run_inv in H. destruct H as (H1 & H2 & _). split; assumption. Qed.

Theorem run_entries_ok n pr progs s b : run n (init pr progs) = (s, b) ->
  Forall (entry_ok pr) (log s) /\ StronglySorted not_before (log s) /\ Forall (le_clock (clock s)) (log s).
Proof.
  intros H. apply run_inv in H. destruct H as (_ & P & H). destruct (H (inv_init pr progs)) as (_ & H2 & H3 & H4).
  rewrite P in H2. auto.
Qed.

(* the clock stops at the earliest pending date: no timer / kill time / deadline / action end is ever jumped over *)
Theorem advance_stops_at_earliest s s' d :
  advance s = Some s' -> In d (all_dates s) -> stuck s' = false -> clock s' <= d.
Proof.
  intros H Hd Hs. destruct (advance_cases _ _ H) as [->|[[En ->]|(m & En & _ & _ & Hc & _)]].
  - discriminate Hs.
  - unfold next_date in En. destruct (all_dates s); [destruct Hd | destruct (fold_omin_some _ _ En)].
  - rewrite Hc. exact (proj1 (next_date_min _ _ En) d Hd).
Qed.

(* C12: the timeout timer *)
Lemma get_actor_upd_same p f l a : get_actor p l = Some a -> a_pid (f a) = a_pid a -> get_actor p (upd_actor p f l) = Some (f a).
Proof.
  induction l; simpl; [discriminate|]. destruct (a_pid a0 =? p) eqn:E; intros H Hp.
  - inv H. simpl. rewrite Hp, E. auto.
  - simpl. rewrite E. auto.
Qed.
Definition act_finished (s : state) (h : Z) : bool :=
  match get_act h (acts s) with Some x => match h_st x with AFin _ => true | _ => false end | None => false end.
Theorem timeout_spec s p a h dl :
  get_actor p (actors s) = Some a -> a_st a = SBlocked (BWait h (Some dl)) -> dl <= clock s ->
  exists a', get_actor p (actors (fire_timeout s p)) = Some a' /\
    if act_finished s h then a_st a' = SBlocked (BWait h None)            (* finished right on time: no timeout *)
    else a_st a' = SReady 1 (seq s) /\ clock (fire_timeout s p) = clock s. (* TimeoutException at the deadline *)
Proof.
  intros G E Hd. unfold fire_timeout, act_finished. rewrite G, E. apply Z.leb_le in Hd. rewrite Hd.
  destruct (get_act h (acts s)) as [x|]; [destruct (h_st x)|]; eexists;
    (split; [simpl; apply get_actor_upd_same; [exact G|reflexivity]|]); simpl; auto.
Qed.
Theorem timeout_not_before s p a h dl :
  get_actor p (actors s) = Some a -> a_st a = SBlocked (BWait h (Some dl)) -> clock s < dl -> fire_timeout s p = s.
Proof. intros G E Hd. unfold fire_timeout. rewrite G, E. apply Z.leb_gt in Hd. rewrite Hd. auto. Qed.
Theorem waitany_timeout_spec s p a hs dl :
  get_actor p (actors s) = Some a -> a_st a = SBlocked (BWaitAny hs (Some dl)) -> dl <= clock s ->
  exists a', get_actor p (actors (fire_timeout s p)) = Some a' /\ a_st a' = SReady (-1) (seq s).
Proof.
  intros G E Hd. unfold fire_timeout. rewrite G, E. apply Z.leb_le in Hd. rewrite Hd.
  eexists; split; [simpl; apply get_actor_upd_same; [exact G|reflexivity]|]; auto.
Qed.
Theorem exec_pop_spec s m x dt : h_st x = ARun dt ->
  h_st (pop_act s m x) = if Z.abs (dt - m) <? prec s then AFin m else ARun dt.
Proof. intros E. unfold pop_act, due. rewrite E. destruct (Z.abs (dt - m) <? prec s); simpl; auto. Qed.

(* C11: on_exit, suspension *)
Fixpoint exits (p clk : Z) (fl : bool) (cbs : list xcb) : list entry :=
  match cbs with [] => [] | XUser k :: r => EExit p k clk fl :: exits p clk fl r | XJoin _ :: r => exits p clk fl r end.
Lemma run_onexit_log p fl cbs : forall s, log (run_onexit p fl cbs s) = rev (exits p (clock s) fl cbs) ++ log s.
Proof.
  induction cbs as [|c r IH]; simpl; intros; auto. destruct c; rewrite IH; simpl; auto.
  rewrite <- app_assoc. auto.
Qed.
(* when an actor ends (whatever the reason: [fl]), its callbacks run once each, most recently registered first, at the
   current date, then the termination is signalled; afterwards it has no callback left *)
Theorem terminate_spec s p a fl :
  get_actor p (actors s) = Some a ->
  log (terminate s p fl) = ETerm p (clock s) :: rev (exits p (clock s) fl (a_onexit a)) ++ log s.
Proof. intros G. unfold terminate. rewrite G. simpl. rewrite run_onexit_log. auto. Qed.
Theorem bury_spec a : a_st (bury a) = SDead /\ a_onexit (bury a) = [] /\ a_daemon (bury a) = false /\ a_kill (bury a) = None.
Proof. repeat split. Qed.
(* a suspended actor that is scheduled does not execute anything: it is parked until resume() *)
Theorem suspended_no_progress s p a r n :
  get_actor p (actors s) = Some a -> a_st a = SReady r n -> a_susp a = true ->
  log (run_actor s p) = log s /\ clock (run_actor s p) = clock s /\
  exists a', get_actor p (actors (run_actor s p)) = Some a' /\ a_st a' = SParked r /\ a_prog a' = a_prog a /\ a_idx a' = a_idx a.
Proof.
  intros G E Hs. unfold run_actor. rewrite G, E, Hs. simpl. repeat split.
  eexists; split; [apply get_actor_upd_same; [exact G|reflexivity]|]. simpl. auto.
Qed.
(* join: the callback left in the target finishes the joiner's sleep at the date of the termination *)
Theorem join_callback_spec s p j a tg dt fl r :
  get_actor j (actors s) = Some a -> a_st a = SBlocked (BJoin tg dt) -> tg = p ->
  exists a', get_actor j (actors (run_onexit p fl (XJoin j :: r) s)) = get_actor j (actors (run_onexit p fl r
               (mod_actor s j (fun _ => a')))) /\ a_st a' = SBlocked BFin.
Proof.
  intros G E ->. simpl. exists (set_st (taint a) (SBlocked BFin)). split; auto.
  f_equal. f_equal. f_equal. unfold mod_actor. f_equal. clear - G E.
  induction (actors s); simpl in *; auto. destruct (a_pid a0 =? j).
  - inv G. rewrite E. rewrite Z.eqb_refl. auto.
  - f_equal. auto.
Qed.
