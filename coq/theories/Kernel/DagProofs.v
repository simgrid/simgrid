(** C13 — proofs about SGV.Kernel.Dag.  The trace monitor is sound by unfolding its verdict.  For the model, two
    invariants go through every script: [inv] (dependency bookkeeping and the start guard) and [kinv] (the ghost dates).
    An operation replaces one activity that is not started ([upd_inv_startable], [k_upd]), edits one edge ([edge_inv],
    [k_edge]) or completes a started activity, which is read off activity by activity ([complete_acts]).  Liveness
    counts the activities that are not FINISHED. *)
From SGV Require Import Base.PlainLia Base.Facts Kernel.Dag.
Local Open Scope Z_scope.

Lemma assign_date_in : forall past b t, assign_date past b = Some t -> In (EvOp (Assign b) t) past.
Proof.
  induction past as [|e r IH]; cbn [assign_date]; intros b t H; [discriminate|].
  destruct e as [o d| |]; try (right; auto; fail).
  destruct o; try (right; auto; fail).
  destruct (assign_date r b) eqn:E.
  - inv H. right; auto.
  - destruct (Nat.eqb_spec b b0) as [->|]; [|discriminate]. inv H. left; reflexivity.
Qed.

Lemma finish_date_in : forall past a t, finish_date past a = Some t -> In (EvFinish a t) past.
Proof.
  induction past as [|e r IH]; cbn [finish_date]; intros a t H; [discriminate|].
  destruct e as [o d|b d|b d]; try (right; auto; fail).
  destruct (finish_date r a) eqn:E.
  - inv H. right; auto.
  - destruct (Nat.eqb_spec a b) as [->|]; [|discriminate]. inv H. left; reflexivity.
Qed.

Lemma edge_eqb_eq : forall x y, edge_eqb x y = true <-> x = y.
Proof.
  intros [a b] [c d]; unfold edge_eqb; cbn. rewrite andb_true_iff, !Nat.eqb_eq. split; [intros [-> ->]; reflexivity|intros H; inv H; auto].
Qed.

Lemma preds_in_add : forall newer a b t older,
  (forall t', ~ In (EvOp (RemoveSucc a b) t') newer) ->
  In a (preds_in (newer ++ EvOp (AddSucc a b) t :: older) b).
Proof.
  intros newer a b t older Hno. unfold preds_in.
  assert (H : In (a, b) (edges_rev (newer ++ EvOp (AddSucc a b) t :: older))).
  { induction newer as [|e r IH]; cbn [app edges_rev].
    - left; reflexivity.
    - assert (Hr : forall t', ~ In (EvOp (RemoveSucc a b) t') r) by (intros t' Hin; apply (Hno t'); right; exact Hin).
      specialize (IH Hr).
      destruct e as [o d| |]; auto. destruct o; auto.
      + right; exact IH.
      + apply filter_In. split; [exact IH|].
        destruct (edge_eqb (a, b) (a0, b0)) eqn:E; [|reflexivity].
        apply edge_eqb_eq in E. inv E. exfalso. apply (Hno d). left; reflexivity. }
  apply in_map_iff. exists (a, b). split; [reflexivity|]. apply filter_In. split; [exact H|]. cbn. apply Nat.eqb_refl.
Qed.

Definition start_spec (past : list ev) (b : nat) (d : Z) : Prop :=
  (exists ta, assign_date past b = Some ta /\
     (has_remove past = false ->
      d = Z.max (Z.max (max_list (map (fun a => odef (finish_date past a)) (preds_in past b))) ta) (odef (req_date past b)))) /\
  (forall a, In a (preds_in past b) -> exists f, finish_date past a = Some f /\ f <= d).

Lemma start_verdict_spec : forall past b d, start_verdict past b d = 0 -> start_spec past b d.
Proof.
  unfold start_verdict, start_spec. intros past b d H.
  destruct (assign_date past b) as [ta|] eqn:Ea; [|discriminate].
  destruct (forallb _ (preds_in past b)) eqn:Ef; cbn [negb] in H; [|discriminate].
  split.
  - exists ta. split; [reflexivity|]. intros Hr. rewrite Hr in H.
    destruct (d =? _) eqn:Ed; [|discriminate]. apply Z.eqb_eq, Ed.
  - intros a Ha. rewrite forallb_forall in Ef. specialize (Ef a Ha).
    destruct (finish_date past a) as [f|]; [|discriminate]. exists f. split; [reflexivity|apply Z.leb_le, Ef].
Qed.

Lemma monitor_sound_gen : forall todo past,
  monitor past todo = [] ->
  forall pre b d post, todo = pre ++ EvStart b d :: post -> start_spec (rev pre ++ past) b d.
Proof.
  induction todo as [|e r IH]; intros past Hm pre b d post Heq.
  - destruct pre; discriminate.
  - cbn [monitor] in Hm. destruct (ev_verdict past e =? 0) eqn:Ev; [|discriminate].
    destruct pre as [|e' pre'].
    + injection Heq as -> ->. apply start_verdict_spec, Z.eqb_eq, Ev.
    + injection Heq as -> ->. cbn [rev]. rewrite <- app_assoc. cbn [app]. eapply IH; [exact Hm|reflexivity].
Qed.

Theorem monitor_sound : forall tr, trace_ok tr = true ->
  forall pre b d post, tr = pre ++ EvStart b d :: post -> start_spec (rev pre) b d.
Proof.
  intros tr H pre b d post Heq. unfold trace_ok in H.
  destruct (monitor [] tr) eqn:Em; [|discriminate].
  pose proof (monitor_sound_gen tr [] Em pre b d post Heq) as Hs. rewrite app_nil_r in Hs. exact Hs.
Qed.

Lemma upd_eq : forall f b x, upd f b x b = x.
Proof. intros; unfold upd; rewrite Nat.eqb_refl; reflexivity. Qed.
Lemma upd_neq : forall f b x i, i <> b -> upd f b x i = f i.
Proof. intros f b x i H; unfold upd. apply Nat.eqb_neq in H. rewrite H. reflexivity. Qed.
Lemma upd_proj : forall {B} (g : act -> B) f b x i, g x = g (f b) -> g (upd f b x i) = g (f i).
Proof. intros B g f b x i H. unfold upd. destruct (Nat.eqb_spec i b) as [->|_]; [exact H|reflexivity]. Qed.

Lemma memb_In : forall a l, memb a l = true <-> In a l.
Proof.
  intros a l; unfold memb. rewrite existsb_exists. split.
  - intros [x [Hx He]]. apply Nat.eqb_eq in He. subst; exact Hx.
  - intros H. exists a. split; [exact H|apply Nat.eqb_refl].
Qed.
Lemma memb_false : forall a l, memb a l = false <-> ~ In a l.
Proof. intros a l. rewrite <- memb_In. symmetry. apply not_true_iff_false. Qed.
Lemma set_add_In : forall a x l, In x (set_add a l) <-> x = a \/ In x l.
Proof.
  intros a x l; unfold set_add. destruct (memb a l) eqn:E.
  - apply memb_In in E. split; [auto|intros [->|H]; auto].
  - cbn. split; intros [H|H]; auto.
Qed.
Lemma set_del_In : forall a x l, In x (set_del a l) <-> x <> a /\ In x l.
Proof.
  intros a x l; unfold set_del. rewrite filter_In, negb_true_iff, Nat.eqb_neq. split; intros [H1 H2]; split; auto.
Qed.
Lemma del_first_In : forall a x l, In x (del_first a l) -> In x l.
Proof.
  induction l as [|y r IH]; cbn; [auto|]. destruct (Nat.eqb_spec a y); cbn; intros H; [auto|]. destruct H; auto.
Qed.
Lemma del_first_other : forall a x l, x <> a -> In x l -> In x (del_first a l).
Proof.
  induction l as [|y r IH]; cbn; [auto|]. intros Hn [->|H].
  - destruct (Nat.eqb_spec a x); [subst; contradiction|left; reflexivity].
  - destruct (Nat.eqb_spec a y); [exact H|right; auto].
Qed.
Lemma del_first_NoDup : forall a l, NoDup l -> NoDup (del_first a l) /\ ~ In a (del_first a l).
Proof.
  induction l as [|y r IH]; cbn; intros H; [split; [constructor|auto]|].
  inv H. destruct (Nat.eqb_spec a y).
  - subst. split; assumption.
  - destruct (IH H3) as [I1 I2]. split.
    + constructor; [|exact I1]. intros Hin. apply H2. eapply del_first_In; eauto.
    + intros [->|Hin]; [contradiction|auto].
Qed.
Lemma is_nil_true : forall A (l : list A), is_nil l = true <-> l = [].
Proof. intros A [|x r]; cbn; split; intros; try reflexivity; discriminate. Qed.

Lemma start_act_cases : forall t x,
  (start_act t x = set_state x STARTING /\ (a_deps x <> [] \/ a_assigned x = false)) \/
  (start_act t x = set_started (set_state x STARTING) t /\ a_deps x = [] /\ a_assigned x = true).
Proof.
  intros t x. unfold start_act. cbn [set_state a_deps a_assigned].
  destruct (a_deps x) eqn:Ed; cbn [is_nil andb].
  - destruct (a_assigned x); [right; auto|left; auto].
  - left. split; [reflexivity|left; discriminate].
Qed.

Definition started_or_done (x : act) : Prop := a_state x = STARTED \/ a_state x = FINISHED.
Definition guard_ok (s : st) (b : nat) : Prop :=
  a_assigned (acts s b) = true /\
  exists ts, a_tstart (acts s b) = Some ts /\ ts <= now s /\
    forall p, In p (a_gpreds (acts s b)) ->
      a_state (acts s p) = FINISHED /\ exists tf, a_tfinish (acts s p) = Some tf /\ tf <= ts.
Definition fresh (x : act) : Prop := a_state x = INITED /\ a_deps x = [] /\ a_succs x = [] /\ a_gpreds x = [].

Record inv (s : st) : Prop := {
  i_fin : forall p, a_state (acts s p) = FINISHED -> exists t, a_tfinish (acts s p) = Some t /\ t <= now s;
  i_A : forall b p, In p (a_gpreds (acts s b)) -> In p (a_deps (acts s b)) \/ a_state (acts s p) = FINISHED;
  i_guard : forall b, started_or_done (acts s b) -> guard_ok s b;
  i_sd : forall b, startable (acts s b) = false -> a_deps (acts s b) = [];
  i_E2 : forall a b, In b (a_succs (acts s a)) -> In a (a_deps (acts s b));
  i_nd : forall a, NoDup (a_succs (acts s a));
  i_bnd : forall b p, In p (a_gpreds (acts s b)) -> (p < nacts s)%nat;
  i_fresh : forall i, (nacts s <= i)%nat -> fresh (acts s i) }.

Lemma inv_init : inv init_st.
Proof.
  constructor; cbn; intros; try contradiction; try discriminate;
    try (match goal with H : started_or_done _ |- _ => destruct H; discriminate end); try constructor; auto.
Qed.

Lemma startable_states : forall x, startable x = true <-> a_state x = INITED \/ a_state x = STARTING.
Proof. intros x; unfold startable; destruct (a_state x); split; intros H; auto; try discriminate; destruct H; discriminate. Qed.
Lemma startable_false : forall x, startable x = false -> a_state x <> INITED /\ a_state x <> STARTING.
Proof. intros x; unfold startable; destruct (a_state x); intros H; try discriminate; split; discriminate. Qed.
Lemma sod_not_startable : forall x, started_or_done x -> startable x = false.
Proof. intros x [H|H]; unfold startable; rewrite H; reflexivity. Qed.
Lemma startable_not_sod : forall x, startable x = true -> ~ started_or_done x.
Proof. intros x H S. apply sod_not_startable in S. congruence. Qed.
Lemma startable_not_fin : forall x, startable x = true -> a_state x <> FINISHED.
Proof. intros x H F. apply (startable_not_sod x H). right; exact F. Qed.
Lemma rel_act_fields : forall a t x, startable x = true -> let y := rel_act a t x in
  a_succs y = a_succs x /\ a_gpreds y = a_gpreds x /\ a_assigned y = a_assigned x /\ a_tfinish y = a_tfinish x /\
  a_tassign y = a_tassign x /\ a_treq y = a_treq x /\ a_deps y = set_del a (a_deps x) /\
  (startable y = true /\ a_tstart y = a_tstart x /\ (a_deps y <> [] \/ a_assigned x = false) \/
   a_state y = STARTED /\ a_tstart y = Some t /\ a_deps y = [] /\ a_assigned x = true).
Proof.
  intros a t x Hx. unfold rel_act, start_act. cbn [a_deps set_deps set_state a_assigned].
  destruct (set_del a (a_deps x)) as [|p r]; cbn [is_nil andb]; [destruct (a_assigned x) eqn:Ea|]; cbv zeta;
    repeat (split; [first [reflexivity|exact Ea]|]).
  - right. repeat split; exact Ea.
  - left. split; [reflexivity|]. split; [reflexivity|right; reflexivity].
  - left. split; [exact Hx|]. split; [reflexivity|left; discriminate].
Qed.

Lemma deps_dg : forall s, inv s -> forall a b, In a (a_deps (acts s b)) -> startable (acts s b) = true.
Proof.
  intros s I a b H. destruct (startable (acts s b)) eqn:E; [reflexivity|].
  rewrite (i_sd s I b E) in H. contradiction.
Qed.

(** no transition changes the state or the finish date of a FINISHED activity, and what the guard says of a started
    activity only reads that, and the activity's own assignment, start date and declared predecessors *)
Definition keeps_fin (s s' : st) : Prop := forall p, a_state (acts s p) = FINISHED ->
  a_state (acts s' p) = FINISHED /\ a_tfinish (acts s' p) = a_tfinish (acts s p).

Lemma keeps_fin_same : forall s s', (forall p, a_state (acts s p) = FINISHED -> acts s' p = acts s p) -> keeps_fin s s'.
Proof. intros s s' H p Hp. rewrite (H p Hp). split; [exact Hp|reflexivity]. Qed.

Lemma guard_ok_frame : forall s s' b, keeps_fin s s' -> now s <= now s' ->
  a_assigned (acts s' b) = a_assigned (acts s b) -> a_tstart (acts s' b) = a_tstart (acts s b) ->
  incl (a_gpreds (acts s' b)) (a_gpreds (acts s b)) -> guard_ok s b -> guard_ok s' b.
Proof.
  intros s s' b K Hn Ea Et Hg (G1 & ts & G2 & G3 & G4). unfold guard_ok. rewrite Ea, Et.
  split; [exact G1|]. exists ts. split; [exact G2|]. split; [exact (Z.le_trans _ _ _ G3 Hn)|].
  intros p Hp. destruct (G4 p (Hg p Hp)) as [Q1 Q2]. destruct (K p Q1) as [K1 K2]. rewrite K2. split; assumption.
Qed.

Lemma guard_ok_now : forall s b,
  (forall p, a_state (acts s p) = FINISHED -> exists t, a_tfinish (acts s p) = Some t /\ t <= now s) ->
  a_assigned (acts s b) = true -> a_tstart (acts s b) = Some (now s) ->
  (forall p, In p (a_gpreds (acts s b)) -> a_state (acts s p) = FINISHED) -> guard_ok s b.
Proof.
  intros s b F Ha Ht Hp. split; [exact Ha|]. exists (now s). split; [exact Ht|]. split; [apply Z.le_refl|].
  intros p Hin. split; [|apply F]; apply Hp; exact Hin.
Qed.

Lemma upd_keeps_fin : forall s s' b x, (forall i, acts s' i = upd (acts s) b x i) -> startable (acts s b) = true -> keeps_fin s s'.
Proof.
  intros s s' b x Ha Hst. apply keeps_fin_same. intros p Hp. rewrite Ha. apply upd_neq. intros ->. exact (startable_not_fin _ Hst Hp).
Qed.

(** [b] may be the next free handle (Create), hence [nacts s <= nacts s'] *)
Lemma upd_inv_startable : forall s s' b x',
  inv s -> (forall i, acts s' i = upd (acts s) b x' i) -> (nacts s <= nacts s')%nat -> now s' = now s ->
  (b < nacts s')%nat -> startable (acts s b) = true ->
  a_succs x' = a_succs (acts s b) -> a_gpreds x' = a_gpreds (acts s b) -> a_deps x' = a_deps (acts s b) ->
  (startable x' = true \/
   (a_state x' = STARTED /\ a_deps x' = [] /\ a_assigned x' = true /\ a_tstart x' = Some (now s))) ->
  inv s'.
Proof.
  intros s s' b x' I Ha Hn Hnow Hb Hst Hsu Hgp Hdp Hx.
  assert (Hgp' : forall i, a_gpreds (acts s' i) = a_gpreds (acts s i)) by (intros i; rewrite Ha; apply upd_proj, Hgp).
  assert (Hdp' : forall i, a_deps (acts s' i) = a_deps (acts s i)) by (intros i; rewrite Ha; apply upd_proj, Hdp).
  assert (Hsu' : forall i, a_succs (acts s' i) = a_succs (acts s i)) by (intros i; rewrite Ha; apply upd_proj, Hsu).
  assert (Hb' : acts s' b = x') by (rewrite Ha; apply upd_eq).
  assert (Ho : forall i, i <> b -> acts s' i = acts s i) by (intros i Hi; rewrite Ha; apply upd_neq, Hi).
  pose proof (upd_keeps_fin s s' b x' Ha Hst) as Hkeep.
  assert (Hfin : forall p, a_state (acts s' p) = FINISHED -> exists t, a_tfinish (acts s' p) = Some t /\ t <= now s').
  { intros p Hp. destruct (Nat.eq_dec p b) as [->|Hne].
    - rewrite Hb' in Hp. destruct Hx as [Hx|[Hx _]]; [destruct (startable_not_fin _ Hx Hp)|rewrite Hx in Hp; discriminate].
    - rewrite Ho in Hp |- * by exact Hne. rewrite Hnow. apply (i_fin s I), Hp. }
  constructor.
  - exact Hfin.
  - intros b0 p Hp. rewrite Hgp' in Hp. rewrite Hdp'. destruct (i_A s I b0 p Hp) as [H|H]; [left; exact H|right; apply Hkeep, H].
  - intros b0 Hsod. destruct (Nat.eq_dec b0 b) as [->|Hne].
    + rewrite Hb' in Hsod. destruct Hx as [Hx|(_ & X2 & X3 & X4)]; [destruct (startable_not_sod _ Hx Hsod)|].
      apply guard_ok_now; [exact Hfin|rewrite Hb'; exact X3|rewrite Hb', Hnow; exact X4|].
      intros p Hp. rewrite Hgp' in Hp. destruct (i_A s I b p Hp) as [H|H]; [rewrite <- Hdp, X2 in H; destruct H|apply Hkeep, H].
    + rewrite Ho in Hsod by exact Hne. apply (guard_ok_frame s); rewrite ?Ho, ?Hnow by exact Hne;
        [exact Hkeep|apply Z.le_refl|reflexivity|reflexivity|apply incl_refl|apply (i_guard s I), Hsod].
  - intros b0 Hs. rewrite Hdp'. destruct (Nat.eq_dec b0 b) as [->|Hne].
    + rewrite Hb' in Hs. rewrite <- Hdp. destruct Hx as [Hx|(_ & Hx & _)]; [rewrite Hx in Hs; discriminate|exact Hx].
    + rewrite Ho in Hs by exact Hne. apply (i_sd s I), Hs.
  - intros a b0 H. rewrite Hsu' in H. rewrite Hdp'. apply (i_E2 s I), H.
  - intros a. rewrite Hsu'. apply (i_nd s I).
  - intros b0 p H. rewrite Hgp' in H. apply (Nat.lt_le_trans _ _ _ (i_bnd s I b0 p H) Hn).
  - intros i Hi. rewrite Ho by (intros ->; exact (Nat.lt_irrefl _ (Nat.lt_le_trans _ _ _ Hb Hi))).
    apply (i_fresh s I), (Nat.le_trans _ _ _ Hn Hi).
Qed.

Lemma log_op_inv : forall s o, inv s -> inv (log_op s o).
Proof. intros s o I. destruct I. constructor; cbn; assumption. Qed.

(** the new activity takes the first free handle, which holds a [fresh] record *)
Lemma create_inv : forall s k dur, inv s -> inv (mkSt (upd (acts s) (nacts s) (new_act k dur)) (S (nacts s)) (now s) (trace s)).
Proof.
  intros s k dur I. destruct (i_fresh s I (nacts s) (le_n _)) as (F1 & F2 & F3 & F4).
  apply (upd_inv_startable s _ (nacts s) (new_act k dur) I); cbn; auto.
  apply startable_states; left; exact F1.
Qed.

Lemma startable_state : forall x y, a_state x = a_state y -> startable x = startable y.
Proof. intros x y H. unfold startable. rewrite H. reflexivity. Qed.

(** add_successor / remove_successor: a's successor list and b's dependency sets change, nothing else *)
Lemma edge_frame : forall s a b sa db gb, a <> b ->
  let s' := with_act (with_act s a (set_succs (acts s a) sa)) b (set_gpreds (set_deps (acts s b) db) gb) in
  keeps_fin s s' /\
  (forall i, a_state (acts s' i) = a_state (acts s i) /\ a_tfinish (acts s' i) = a_tfinish (acts s i) /\
             a_tstart (acts s' i) = a_tstart (acts s i) /\ a_assigned (acts s' i) = a_assigned (acts s i) /\
             a_tassign (acts s' i) = a_tassign (acts s i) /\ a_treq (acts s' i) = a_treq (acts s i)) /\
  a_succs (acts s' a) = sa /\ (forall i, i <> a -> a_succs (acts s' i) = a_succs (acts s i)) /\
  a_deps (acts s' b) = db /\ a_gpreds (acts s' b) = gb /\
  (forall i, i <> b -> a_deps (acts s' i) = a_deps (acts s i) /\ a_gpreds (acts s' i) = a_gpreds (acts s i)).
Proof.
  intros s a b sa db gb Hab. cbn [with_act acts].
  assert (P : forall {B} (g : act -> B) xa xb i, g xa = g (acts s a) -> g xb = g (acts s b) ->
                g (upd (upd (acts s) a xa) b xb i) = g (acts s i)).
  { intros B g xa xb i Ha Hb. rewrite 2 upd_proj; [reflexivity|exact Ha|]. rewrite upd_neq by auto. exact Hb. }
  split; [intros p Hp; cbn [with_act acts]; rewrite (P _ a_state), (P _ a_tfinish) by reflexivity; auto|]. split; [intros i; repeat split; apply P; reflexivity|].
  rewrite upd_eq, upd_neq, upd_eq by exact Hab. split; [reflexivity|]. split.
  - intros i Hi. rewrite (upd_proj a_succs), upd_neq; auto. rewrite upd_neq by auto. reflexivity.
  - split; [reflexivity|]. split; [reflexivity|]. intros i Hi. rewrite upd_neq by exact Hi. split; apply upd_proj; reflexivity.
Qed.

Lemma edge_inv : forall s a b sa db gb,
  inv s -> a <> b -> (a < nacts s)%nat -> (b < nacts s)%nat ->
  NoDup sa ->
  (forall b0, In b0 sa -> b0 <> b -> In b0 (a_succs (acts s a))) ->
  (In b sa -> In a db) ->
  (forall p, p <> a -> (In p db <-> In p (a_deps (acts s b)))) ->
  (forall p, In p gb -> p = a \/ In p (a_gpreds (acts s b))) ->
  (In a gb -> In a db) ->
  (In a db -> startable (acts s b) = true) ->
  inv (with_act (with_act s a (set_succs (acts s a) sa)) b
         (set_gpreds (set_deps (acts s b) db) gb)).
Proof.
  intros s a b sa db gb I Hab Ha Hb Hnd Hsa Hbd Hd Hg1 Hgd Hdst.
  destruct (edge_frame s a b sa db gb Hab) as (Hkeep & Hf & Esa & Hsu & Edb & Egb & Ho). set (s' := with_act _ _ _) in *.
  constructor.
  - intros p Hp. destruct (Hf p) as (E1 & E2 & _). rewrite E1 in Hp. rewrite E2. apply (i_fin s I), Hp.
  - intros b0 p Hp. rewrite (proj1 (Hf p)). destruct (Nat.eq_dec b0 b) as [->|Hne].
    + rewrite Egb in Hp. rewrite Edb. destruct (Nat.eq_dec p a) as [->|Hpa]; [left; apply Hgd, Hp|].
      destruct (Hg1 p Hp) as [H|H]; [contradiction|].
      destruct (i_A s I b p H) as [H2|H2]; [left; apply Hd; assumption|right; exact H2].
    + destruct (Ho b0 Hne) as [Ed Eg]. rewrite Eg in Hp. rewrite Ed. apply (i_A s I), Hp.
  - intros b0 Hs. destruct (Hf b0) as (E1 & _ & E3 & E4 & _). unfold started_or_done in Hs. rewrite E1 in Hs.
    apply (guard_ok_frame s); [exact Hkeep|apply Z.le_refl|exact E4|exact E3| |apply (i_guard s I), Hs].
    intros p Hp. destruct (Nat.eq_dec b0 b) as [->|Hne]; [|rewrite (proj2 (Ho b0 Hne)) in Hp; exact Hp].
    rewrite Egb in Hp. destruct (Hg1 p Hp) as [->|H]; [|exact H].
    rewrite (sod_not_startable _ Hs) in Hdst. discriminate (Hdst (Hgd Hp)).
  - intros b0 Hs. rewrite (startable_state _ _ (proj1 (Hf b0))) in Hs. destruct (Nat.eq_dec b0 b) as [->|Hne].
    + rewrite Edb. destruct db as [|d r]; [reflexivity|]. exfalso.
      destruct (Nat.eq_dec d a) as [->|Hda].
      * rewrite Hdst in Hs by (left; reflexivity). discriminate.
      * pose proof (proj1 (Hd d Hda) (or_introl eq_refl)) as H. rewrite (i_sd s I b Hs) in H. contradiction.
    + rewrite (proj1 (Ho b0 Hne)). apply (i_sd s I), Hs.
  - intros a0 b0 H. assert (H2 : b0 <> b -> In a0 (a_deps (acts s b0))).
    { intros Hnb. apply (i_E2 s I). destruct (Nat.eq_dec a0 a) as [->|Hne]; [rewrite Esa in H; apply Hsa; assumption|].
      rewrite Hsu in H by exact Hne. exact H. }
    destruct (Nat.eq_dec b0 b) as [->|Hnb]; [rewrite Edb|rewrite (proj1 (Ho b0 Hnb)); exact (H2 Hnb)].
    destruct (Nat.eq_dec a0 a) as [->|Hne]; [rewrite Esa in H; apply Hbd, H|].
    rewrite Hsu in H by exact Hne. apply Hd; [exact Hne|apply (i_E2 s I), H].
  - intros a0. destruct (Nat.eq_dec a0 a) as [->|Hne]; [rewrite Esa; exact Hnd|rewrite Hsu by exact Hne; apply (i_nd s I)].
  - intros b0 p H. change (nacts s') with (nacts s). destruct (Nat.eq_dec b0 b) as [->|Hne].
    + rewrite Egb in H. destruct (Hg1 p H) as [->|H1]; [exact Ha|apply (i_bnd s I b), H1].
    + rewrite (proj2 (Ho b0 Hne)) in H. apply (i_bnd s I b0), H.
  - intros i Hi. change (nacts s') with (nacts s) in Hi. destruct (i_fresh s I i Hi) as (F1 & F2 & F3 & F4).
    assert (Hia : i <> a) by (intros ->; exact (Nat.lt_irrefl _ (Nat.lt_le_trans _ _ _ Ha Hi))).
    assert (Hib : i <> b) by (intros ->; exact (Nat.lt_irrefl _ (Nat.lt_le_trans _ _ _ Hb Hi))). destruct (Ho i Hib) as [Ed Eg].
    split; [rewrite (proj1 (Hf i)); exact F1|]. rewrite Ed, Eg, Hsu by exact Hia. auto.
Qed.

Lemma set_now_inv : forall s t, inv s -> now s <= t -> inv (set_now s t).
Proof.
  intros s t I Ht. constructor; try apply I.
  - intros p Hp. destruct (i_fin s I p Hp) as [x [H1 H2]]. exists x. split; [exact H1|exact (Z.le_trans _ _ _ H2 Ht)].
  - intros b Hs. apply (guard_ok_frame s); [intros p Hp; auto|exact Ht|reflexivity|reflexivity|apply incl_refl|apply (i_guard s I), Hs].
Qed.

Lemma relstep_now : forall a s b, now (relstep a s b) = now s /\ nacts (relstep a s b) = nacts s.
Proof. intros a s b. unfold relstep. destruct (is_nil _); split; reflexivity. Qed.

Lemma relstep_acts : forall a s b i, acts (relstep a s b) i = upd (acts s) b (rel_act a (now s) (acts s b)) i.
Proof.
  intros a s b i. unfold relstep, rel_act. cbn zeta. destruct (is_nil _); [|reflexivity].
  cbn [start put_started with_act acts now]. rewrite upd_eq. unfold upd. destruct (Nat.eqb i b); reflexivity.
Qed.

Lemma release_now : forall a l s, now (fold_left (relstep a) l s) = now s /\ nacts (fold_left (relstep a) l s) = nacts s.
Proof.
  induction l as [|b r IH]; intros s; cbn [fold_left]; [split; reflexivity|].
  destruct (relstep_now a s b) as [R1 R2]. rewrite <- R1, <- R2. apply IH.
Qed.

Lemma release_acts : forall a l s, NoDup l -> forall i,
  acts (fold_left (relstep a) l s) i = if in_dec Nat.eq_dec i l then rel_act a (now s) (acts s i) else acts s i.
Proof.
  induction l as [|b r IH]; intros s Hnd i; cbn [fold_left]; [reflexivity|].
  inv Hnd. rewrite (IH _ H2), relstep_acts, (proj1 (relstep_now a s b)).
  destruct (in_dec Nat.eq_dec i r) as [Hi|Hi], (in_dec Nat.eq_dec i (b :: r)) as [Hj|Hj]; try (destruct Hj; right; exact Hi).
  - rewrite upd_neq by (intros ->; contradiction). reflexivity.
  - destruct Hj as [->|Hj]; [apply upd_eq|contradiction].
  - apply upd_neq. intros ->. apply Hj. left; reflexivity.
Qed.

Lemma complete_now : forall s a, now (complete s a) = now s /\ nacts (complete s a) = nacts s.
Proof. intros s a. unfold complete. cbn [now nacts]. rewrite (proj1 (release_now _ _ _)), (proj2 (release_now _ _ _)). split; reflexivity. Qed.

Lemma complete_acts : forall s a, inv s -> a_state (acts s a) = STARTED ->
  a_deps (acts s a) = [] /\ acts (complete s a) a = set_succs (set_finished (acts s a) (now s)) [] /\
  forall i, i <> a ->
    (acts (complete s a) i = acts s i /\ ~ In i (a_succs (acts s a))) \/
    (acts (complete s a) i = rel_act a (now s) (acts s i) /\ startable (acts s i) = true /\ In a (a_deps (acts s i))).
Proof.
  intros s a I Hsa.
  assert (Hda : a_deps (acts s a) = []) by (apply (i_sd s I), sod_not_startable; left; exact Hsa).
  assert (Hnd : NoDup (rev (a_succs (acts s a)))) by apply NoDup_rev, (i_nd s I).
  split; [exact Hda|]. unfold complete. cbn [acts]. split.
  - rewrite upd_eq, release_acts by exact Hnd. cbn [acts now]. rewrite upd_eq.
    destruct (in_dec _ _ _) as [Hi|_]; [|reflexivity].
    apply in_rev, (i_E2 s I) in Hi. rewrite Hda in Hi. destruct Hi.
  - intros i Hia. rewrite upd_neq, release_acts by assumption. cbn [acts now]. rewrite upd_neq by exact Hia.
    destruct (in_dec _ _ _) as [Hi|Hi]; [right|left]; rewrite <- in_rev in Hi; (split; [reflexivity|]); [|exact Hi].
    apply (i_E2 s I) in Hi. split; [exact (deps_dg s I a i Hi)|exact Hi].
Qed.

Lemma complete_frame : forall s a, inv s -> a_state (acts s a) = STARTED -> let s' := complete s a in
  keeps_fin s s' /\
  forall i, a_gpreds (acts s' i) = a_gpreds (acts s i) /\ a_assigned (acts s' i) = a_assigned (acts s i) /\
    a_tassign (acts s' i) = a_tassign (acts s i) /\ a_treq (acts s' i) = a_treq (acts s i) /\
    (i <> a -> a_succs (acts s' i) = a_succs (acts s i) /\ a_tfinish (acts s' i) = a_tfinish (acts s i)) /\
    incl (a_deps (acts s' i)) (a_deps (acts s i)) /\
    (forall p, In p (a_deps (acts s i)) -> p <> a -> In p (a_deps (acts s' i))) /\
    (In i (a_succs (acts s a)) -> ~ In a (a_deps (acts s' i))).
Proof.
  intros s a I Hsa s'. destruct (complete_acts s a I Hsa) as (Hda & Ea & Hc). fold s' in Ea, Hc. split.
  - apply keeps_fin_same. intros p Hp. assert (Hpa : p <> a) by (intros ->; rewrite Hsa in Hp; discriminate).
    destruct (Hc p Hpa) as [[E _]|(_ & Hst & _)]; [exact E|destruct (startable_not_fin _ Hst Hp)].
  - intros i. destruct (Nat.eq_dec i a) as [->|Hia]; [|destruct (Hc i Hia) as [[E Hn]|(E & Hst & _)]]; rewrite ?Ea, ?E.
    + cbn. rewrite Hda. repeat split; try reflexivity; try contradiction; auto using incl_refl.
    + repeat split; auto using incl_refl.
    + destruct (rel_act_fields a (now s) _ Hst) as (F1 & F2 & F3 & F4 & F5 & F6 & F7 & _).
      rewrite F1, F2, F3, F4, F5, F6, F7. repeat split; auto.
      * intros p Hp. apply set_del_In in Hp. apply Hp.
      * intros p Hp Hpa. apply set_del_In. auto.
      * intros _ Hin. apply set_del_In in Hin. destruct Hin as [Hin _]. exact (Hin eq_refl).
Qed.

Lemma complete_cases : forall s a, inv s -> a_state (acts s a) = STARTED -> let s' := complete s a in
  a_deps (acts s a) = [] /\ acts s' a = set_succs (set_finished (acts s a) (now s)) [] /\
  forall i, i = a \/
    (i <> a /\ acts s' i = acts s i) \/
    (i <> a /\ startable (acts s i) = true /\ In a (a_deps (acts s i)) /\
       (startable (acts s' i) = true /\ a_tstart (acts s' i) = a_tstart (acts s i) /\
          (a_deps (acts s' i) <> [] \/ a_assigned (acts s i) = false) \/
        a_state (acts s' i) = STARTED /\ a_tstart (acts s' i) = Some (now s) /\ a_deps (acts s' i) = [] /\
          a_assigned (acts s i) = true)).
Proof.
  intros s a I Hsa s'. destruct (complete_acts s a I Hsa) as (Hda & Ea & Hc). fold s' in Ea, Hc.
  split; [exact Hda|]. split; [exact Ea|]. intros i. destruct (Nat.eq_dec i a) as [Hia|Hia]; [left; exact Hia|right].
  destruct (Hc i Hia) as [[E _]|(E & Hst & Hin)]; [left; auto|right]. rewrite E.
  split; [exact Hia|]. split; [exact Hst|]. split; [exact Hin|]. apply (rel_act_fields a (now s) _ Hst).
Qed.

Lemma complete_inv : forall s a, inv s -> a_state (acts s a) = STARTED -> inv (complete s a).
Proof.
  intros s a I Hsa. destruct (complete_cases s a I Hsa) as (Hda & Ea & Hc). destruct (complete_frame s a I Hsa) as [Hkeep Hfr].
  destruct (complete_now s a) as [C1 C2]. set (s' := complete s a) in *.
  assert (Hfin : forall p, a_state (acts s' p) = FINISHED -> exists t, a_tfinish (acts s' p) = Some t /\ t <= now s').
  { intros p Hp. rewrite C1. destruct (Hc p) as [->|[(_ & E)|(_ & _ & _ & [(Hy & _)|(Hy & _)])]].
    - rewrite Ea. exists (now s). split; [reflexivity|apply Z.le_refl].
    - rewrite E in Hp |- *. apply (i_fin s I), Hp.
    - destruct (startable_not_fin _ Hy Hp).
    - rewrite Hy in Hp. discriminate. }
  assert (HA : forall b p, In p (a_deps (acts s b)) \/ a_state (acts s p) = FINISHED ->
               In p (a_deps (acts s' b)) \/ a_state (acts s' p) = FINISHED).
  { intros b p [H|H]; [|right; apply Hkeep, H]. destruct (Nat.eq_dec p a) as [->|Hpa]; [right; rewrite Ea; reflexivity|left].
    apply (Hfr b); assumption. }
  constructor.
  - exact Hfin.
  - intros b p Hp. rewrite (proj1 (Hfr b)) in Hp. apply HA, (i_A s I), Hp.
  - intros b Hs. destruct (Hfr b) as (Eg & Eas & _).
    destruct (Hc b) as [->|[(_ & E)|(_ & _ & _ & [(Hy & _)|(_ & Ft & Fd & Fa)])]].
    1, 2: apply (guard_ok_frame s); [exact Hkeep|rewrite C1; apply Z.le_refl|exact Eas|rewrite ?Ea, ?E; reflexivity|
                                     rewrite Eg; apply incl_refl|apply (i_guard s I)].
    + left; exact Hsa.
    + rewrite E in Hs. exact Hs.
    + destruct (startable_not_sod _ Hy Hs).
    + apply guard_ok_now; [exact Hfin|rewrite Eas; exact Fa|rewrite C1; exact Ft|].
      intros p Hp. rewrite Eg in Hp. destruct (HA b p (i_A s I b p Hp)) as [H|H]; [|exact H].
      rewrite Fd in H. destruct H.
  - intros b Hs. destruct (Hc b) as [->|[(_ & E)|(_ & _ & _ & [(Hy & _)|(_ & _ & Fd & _)])]].
    + rewrite Ea. exact Hda.
    + rewrite E in Hs |- *. apply (i_sd s I), Hs.
    + rewrite Hy in Hs. discriminate.
    + exact Fd.
  - intros a0 b0 H. destruct (Nat.eq_dec a0 a) as [->|Hne]; [rewrite Ea in H; destruct H|].
    destruct (Hfr a0) as (_ & _ & _ & _ & Es & _). rewrite (proj1 (Es Hne)) in H.
    apply (Hfr b0); [apply (i_E2 s I), H|exact Hne].
  - intros a0. destruct (Nat.eq_dec a0 a) as [->|Hne]; [rewrite Ea; constructor|].
    destruct (Hfr a0) as (_ & _ & _ & _ & Es & _). rewrite (proj1 (Es Hne)). apply (i_nd s I).
  - intros b p H. rewrite (proj1 (Hfr b)) in H. rewrite C2. apply (i_bnd s I b), H.
  - intros i Hi. rewrite C2 in Hi. pose proof (i_fresh s I i Hi) as F.
    destruct (Hc i) as [->|[(_ & E)|(_ & _ & Hin & _)]];
      [rewrite (proj1 F) in Hsa; discriminate|rewrite E; exact F|destruct F as (_ & F2 & _); rewrite F2 in Hin; destruct Hin].
Qed.

(** [ts] is the date of the event that made [b] ready (an assignment, a start request, a predecessor's completion),
    and none of its assignment and request dates is later *)
Definition trigger_ok (s : st) (b : nat) (ts : Z) : Prop :=
  0 <= ts /\ started_or_done (acts s b) /\
  (forall t, a_tassign (acts s b) = Some t -> t <= ts) /\ (forall t, a_treq (acts s b) = Some t -> t <= ts) /\
  (a_tassign (acts s b) = Some ts \/ a_treq (acts s b) = Some ts \/
   exists p, In p (a_gpreds (acts s b)) /\ a_tfinish (acts s p) = Some ts).

Record kinv (s : st) : Prop := {
  k_now : 0 <= now s;
  k_dates : forall b t, a_tassign (acts s b) = Some t \/ a_treq (acts s b) = Some t -> t <= now s;
  k_dg : forall a b, In a (a_deps (acts s b)) -> In a (a_gpreds (acts s b));
  k_start : forall b ts, a_tstart (acts s b) = Some ts -> trigger_ok s b ts;
  k_tf : forall p t, a_tfinish (acts s p) = Some t -> a_state (acts s p) = FINISHED }.

Lemma kinv_init : kinv init_st.
Proof. constructor; cbn; try apply Z.le_refl; try contradiction; try discriminate. intros b t [H|H]; discriminate. Qed.

Lemma startable_no_dates : forall s b, kinv s -> startable (acts s b) = true ->
  a_tstart (acts s b) = None /\ a_tfinish (acts s b) = None.
Proof.
  intros s b K Hst. split.
  - destruct (a_tstart (acts s b)) as [ts|] eqn:E; [|reflexivity].
    destruct (k_start s K b ts E) as (_ & S & _). destruct (startable_not_sod _ Hst S).
  - destruct (a_tfinish (acts s b)) as [t|] eqn:E; [|reflexivity]. destruct (startable_not_fin _ Hst (k_tf s K b t E)).
Qed.

Lemma trigger_ok_frame : forall s s' b ts, kinv s -> keeps_fin s s' -> trigger_ok s b ts ->
  (started_or_done (acts s b) -> started_or_done (acts s' b)) ->
  a_tassign (acts s' b) = a_tassign (acts s b) -> a_treq (acts s' b) = a_treq (acts s b) ->
  a_gpreds (acts s' b) = a_gpreds (acts s b) -> trigger_ok s' b ts.
Proof.
  intros s s' b ts K Hk (T0 & T1 & T2 & T3 & T4) Hs Ea Er Eg. unfold trigger_ok. rewrite Ea, Er, Eg.
  repeat split; auto. destruct T4 as [T|[T|(p & P1 & P2)]]; auto. right; right. exists p. split; [exact P1|].
  rewrite (proj2 (Hk p (k_tf s K p ts P2))). exact P2.
Qed.

Lemma k_log_op : forall s o, kinv s -> kinv (log_op s o).
Proof. intros s o K. destruct K. constructor; cbn; assumption. Qed.

Lemma k_set_now : forall s t, kinv s -> now s <= t -> kinv (set_now s t).
Proof.
  intros s t K Ht. constructor; try apply K; cbn [set_now acts now].
  - exact (Z.le_trans _ _ _ (k_now s K) Ht).
  - intros b x H. exact (Z.le_trans _ _ _ (k_dates s K b x H) Ht).
Qed.

(** the single-activity replacement of [upd_inv_startable], for the dates *)
Lemma k_upd : forall s s' b x',
  kinv s -> (forall i, acts s' i = upd (acts s) b x' i) -> now s' = now s ->
  startable (acts s b) = true ->
  a_gpreds x' = a_gpreds (acts s b) -> a_deps x' = a_deps (acts s b) -> a_tfinish x' = a_tfinish (acts s b) ->
  (forall t, a_tassign x' = Some t -> a_tassign (acts s b) = Some t \/ t = now s) ->
  (forall t, a_treq x' = Some t -> a_treq (acts s b) = Some t \/ t = now s) ->
  (a_tstart x' = a_tstart (acts s b) \/
   (a_state x' = STARTED /\ a_tstart x' = Some (now s) /\ (a_tassign x' = Some (now s) \/ a_treq x' = Some (now s)))) ->
  kinv s'.
Proof.
  intros s s' b x' K Ha Hnow Hst Hgp Hdp Htf Hta Htr Hx.
  destruct (startable_no_dates s b K Hst) as [Hnone Hnof].
  assert (Hb' : acts s' b = x') by (rewrite Ha; apply upd_eq).
  assert (Ho : forall i, i <> b -> acts s' i = acts s i) by (intros i Hi; rewrite Ha; apply upd_neq, Hi).
  pose proof (upd_keeps_fin s s' b x' Ha Hst) as Hkeep.
  assert (Hd : forall t, a_tassign x' = Some t \/ a_treq x' = Some t -> t <= now s).
  { intros t [H|H]; [destruct (Hta t H) as [H1| ->]|destruct (Htr t H) as [H1| ->]]; try apply Z.le_refl; apply (k_dates s K b); auto. }
  constructor.
  - rewrite Hnow. exact (k_now s K).
  - intros b0 t H. rewrite Hnow. destruct (Nat.eq_dec b0 b) as [->|Hne]; [rewrite Hb' in H; exact (Hd t H)|].
    rewrite Ho in H by exact Hne. apply (k_dates s K b0), H.
  - intros a b0 H. rewrite Ha in H |- *. rewrite (upd_proj a_deps) in H by exact Hdp. rewrite (upd_proj a_gpreds) by exact Hgp.
    apply (k_dg s K), H.
  - intros b0 ts H. destruct (Nat.eq_dec b0 b) as [->|Hne].
    + rewrite Hb' in H. destruct Hx as [Hx|(X1 & X2 & X3)]; [congruence|]. rewrite X2 in H. injection H as <-.
      unfold trigger_ok. rewrite Hb'. split; [exact (k_now s K)|]. split; [left; exact X1|]. destruct X3; auto 6.
    + rewrite Ho in H by exact Hne. apply (trigger_ok_frame s); rewrite ?Ho by exact Hne; auto. apply (k_start s K), H.
  - intros p t H. destruct (Nat.eq_dec p b) as [->|Hne]; [rewrite Hb', Htf, Hnof in H; discriminate|].
    rewrite Ho in H |- * by exact Hne. apply (k_tf s K p t), H.
Qed.

(** set_host() & co and start(): b, not yet started, gets an assignment or a start request dated now (this is [x]);
    it is then left at that, or handed to Activity::start() *)
Lemma request_inv : forall s b x, inv s /\ kinv s -> (b < nacts s)%nat ->
  startable (acts s b) = true -> startable x = true ->
  a_succs x = a_succs (acts s b) -> a_gpreds x = a_gpreds (acts s b) -> a_deps x = a_deps (acts s b) ->
  a_tfinish x = a_tfinish (acts s b) -> a_tstart x = a_tstart (acts s b) ->
  (forall t, a_tassign x = Some t -> a_tassign (acts s b) = Some t \/ t = now s) ->
  (forall t, a_treq x = Some t -> a_treq (acts s b) = Some t \/ t = now s) ->
  (a_tassign x = Some (now s) \/ a_treq x = Some (now s)) ->
  (inv (with_act s b x) /\ kinv (with_act s b x)) /\
  (inv (put_started s b (start_act (now s) x)) /\ kinv (put_started s b (start_act (now s) x))).
Proof.
  intros s b x [I K] Hb Hst Hx Hsu Hgp Hdp Htf Hts Hta Htr Hone.
  split; [split; [eapply (upd_inv_startable s _ b x I)|eapply (k_upd s _ b x K)]; try reflexivity; auto|].
  destruct (start_act_cases (now s) x) as [[E _]|[E [E1 E2]]]; rewrite E;
    (split; [eapply (upd_inv_startable s _ b _ I)|eapply (k_upd s _ b _ K)]); try reflexivity; cbn; auto 6.
Qed.

Lemma k_create : forall s k dur, inv s -> kinv s -> kinv (mkSt (upd (acts s) (nacts s) (new_act k dur)) (S (nacts s)) (now s) (trace s)).
Proof.
  intros s k dur I K. destruct (i_fresh s I (nacts s) (le_n _)) as (F1 & F2 & F3 & F4).
  assert (Hst : startable (acts s (nacts s)) = true) by (apply startable_states; left; exact F1).
  destruct (startable_no_dates s _ K Hst) as [N1 N2].
  apply (k_upd s _ (nacts s) (new_act k dur) K); cbn; auto; discriminate.
Qed.

Lemma k_edge : forall s a b sa db gb, kinv s -> a <> b -> startable (acts s b) = true ->
  (forall p, In p db -> In p gb) ->
  kinv (with_act (with_act s a (set_succs (acts s a) sa)) b (set_gpreds (set_deps (acts s b) db) gb)).
Proof.
  intros s a b sa db gb K Hab Hst Hsub.
  destruct (edge_frame s a b sa db gb Hab) as (Hkeep & Hf & _ & _ & Edb & Egb & Ho). set (s' := with_act _ _ _) in *.
  constructor.
  - exact (k_now s K).
  - intros b0 t H. destruct (Hf b0) as (_ & _ & _ & _ & E1 & E2). rewrite E1, E2 in H. apply (k_dates s K b0), H.
  - intros a0 b0 H. destruct (Nat.eq_dec b0 b) as [->|Hne]; [rewrite Edb in H; rewrite Egb; apply Hsub, H|].
    destruct (Ho b0 Hne) as [Ed Eg]. rewrite Ed in H. rewrite Eg. apply (k_dg s K), H.
  - intros b0 ts H. destruct (Hf b0) as (E0 & _ & E1 & _ & E2 & E3). rewrite E1 in H.
    destruct (Nat.eq_dec b0 b) as [->|Hne]; [rewrite (proj1 (startable_no_dates s b K Hst)) in H; discriminate|].
    apply (trigger_ok_frame s); [exact K|exact Hkeep|apply (k_start s K), H| |exact E2|exact E3|apply Ho, Hne].
    unfold started_or_done. rewrite E0. auto.
  - intros p t H. destruct (Hf p) as (E0 & E1 & _). rewrite E1 in H. rewrite E0. apply (k_tf s K p t), H.
Qed.

Lemma k_complete : forall s a, inv s -> kinv s -> a_state (acts s a) = STARTED -> kinv (complete s a).
Proof.
  intros s a I K Hsa. destruct (complete_cases s a I Hsa) as (Hda & Ea & Hc). destruct (complete_frame s a I Hsa) as [Hkeep Hfr].
  destruct (complete_now s a) as [C1 _]. set (s' := complete s a) in *.
  constructor.
  - rewrite C1. exact (k_now s K).
  - intros b t H. rewrite C1. destruct (Hfr b) as (_ & _ & E1 & E2 & _). rewrite E1, E2 in H. apply (k_dates s K b), H.
  - intros a0 b H. rewrite (proj1 (Hfr b)). apply (k_dg s K), (Hfr b), H.
  - intros b ts H. destruct (Hfr b) as (Eg & _ & Eta & Etr & _).
    destruct (Hc b) as [->|[(_ & E)|(_ & Hst & Hin & [(_ & Ft & _)|(Fs & Ft & _)])]].
    1, 2: apply (trigger_ok_frame s); [exact K|exact Hkeep|apply (k_start s K); rewrite ?Ea, ?E in H; exact H| |exact Eta|exact Etr|exact Eg].
    + intros _. right. rewrite Ea. reflexivity.
    + rewrite E. auto.
    + rewrite Ft, (proj1 (startable_no_dates s b K Hst)) in H. discriminate.
    + rewrite Ft in H. injection H as <-. unfold trigger_ok. rewrite Eta, Etr, Eg.
      split; [exact (k_now s K)|]. split; [left; exact Fs|].
      split; [intros t Ht; apply (k_dates s K b); auto|]. split; [intros t Ht; apply (k_dates s K b); auto|].
      right; right. exists a. split; [apply (k_dg s K), Hin|rewrite Ea; reflexivity].
  - intros p t H. destruct (Nat.eq_dec p a) as [->|Hne]; [rewrite Ea; reflexivity|].
    destruct (Hfr p) as (_ & _ & _ & _ & Es & _). rewrite (proj2 (Es Hne)) in H. pose proof (k_tf s K p t H) as Hf.
    exact (proj1 (Hkeep p Hf)).
Qed.

Lemma next_ev_spec : forall f ids a d, next_ev f ids = Some (a, d) -> In a ids /\ fin_date (f a) = Some d.
Proof.
  induction ids as [|i r IH]; cbn [next_ev]; intros a d H; [discriminate|].
  destruct (fin_date (f i)) as [di|] eqn:Ei.
  - destruct (next_ev f r) as [[j e]|] eqn:En.
    + destruct (di <=? e); inv H; [split; [left; reflexivity|exact Ei]|].
      destruct (IH a d eq_refl) as [H1 H2]. split; [right; exact H1|exact H2].
    + inv H. split; [left; reflexivity|exact Ei].
  - destruct (IH a d H) as [H1 H2]. split; [right; exact H1|exact H2].
Qed.
Lemma fin_date_started : forall x d, fin_date x = Some d -> a_state x = STARTED.
Proof. intros x d; unfold fin_date. destruct (a_state x); try discriminate. reflexivity. Qed.

Lemma complete_keeps_started : forall s a b, inv s -> a_state (acts s a) = STARTED -> b <> a ->
  a_state (acts s b) = STARTED -> a_state (acts (complete s a) b) = STARTED.
Proof.
  intros s a b I Ha Hne Hb. destruct (complete_cases s a I Ha) as (_ & _ & Hc).
  destruct (Hc b) as [->|[(_ & E)|(_ & Hst & _)]]; [contradiction|rewrite E; exact Hb|].
  destruct (startable_not_sod _ Hst). left; exact Hb.
Qed.

Lemma fold_complete_now : forall l s, now (fold_left complete l s) = now s /\ nacts (fold_left complete l s) = nacts s.
Proof.
  induction l as [|a r IH]; intros s; cbn [fold_left]; [split; reflexivity|].
  destruct (complete_now s a) as [C1 C2]. rewrite <- C1, <- C2. apply IH.
Qed.

Lemma fold_complete_inv : forall l s, inv s /\ kinv s -> NoDup l -> (forall a, In a l -> a_state (acts s a) = STARTED) ->
  inv (fold_left complete l s) /\ kinv (fold_left complete l s).
Proof.
  induction l as [|a r IH]; intros s [I K] Hnd Hst; cbn [fold_left]; [auto|].
  inv Hnd. assert (Ha : a_state (acts s a) = STARTED) by (apply Hst; left; reflexivity).
  apply IH; [split; [apply complete_inv|apply k_complete]; assumption|exact H2|].
  intros b Hb. apply complete_keeps_started; auto; [intros ->; contradiction|apply Hst; right; exact Hb].
Qed.

Lemma due_list : forall s t, let l := filter (fun i => due t (acts s i)) (seq 0 (nacts s)) in
  NoDup l /\ forall a, In a l -> a_state (acts s a) = STARTED.
Proof.
  intros s t l. split; [apply NoDup_filter; apply seq_NoDup|].
  intros a Ha. apply filter_In in Ha. destruct Ha as [_ Hd]. unfold due in Hd.
  destruct (fin_date (acts s a)) eqn:E; [|discriminate]. eapply fin_date_started; eauto.
Qed.

Lemma drain_inv : forall fuel lim s, inv s /\ kinv s -> inv (drain fuel lim s) /\ kinv (drain fuel lim s).
Proof.
  induction fuel as [|f IH]; intros lim s W; cbn [drain]; [exact W|].
  destruct (next_ev (acts s) (seq 0 (nacts s))) as [[a d]|] eqn:En; [|exact W].
  destruct (next_ev_spec _ _ _ _ En) as [_ Hf]. apply fin_date_started in Hf.
  assert (Wn : forall t, inv (set_now s (Z.max (now s) t)) /\ kinv (set_now s (Z.max (now s) t))).
  { intros t. destruct W as [I K]. split; [apply set_now_inv|apply k_set_now]; auto; apply Z.le_max_l. }
  assert (Step : inv (drain f lim (complete (set_now s (Z.max (now s) d)) a)) /\
                 kinv (drain f lim (complete (set_now s (Z.max (now s) d)) a))).
  { apply IH. destruct (Wn d) as [I1 K1]. split; [apply complete_inv|apply k_complete]; assumption. }
  destruct lim as [t|]; [|exact Step].
  destruct (d <? t); [exact Step|]. destruct (d =? t); [|exact W].
  destruct (due_list s t) as [D1 D2]. apply fold_complete_inv; [apply Wn|exact D1|exact D2].
Qed.

Lemma drain_nacts : forall fuel lim s, nacts (drain fuel lim s) = nacts s.
Proof.
  induction fuel as [|f IH]; intros lim s; cbn [drain]; [reflexivity|].
  destruct (next_ev (acts s) (seq 0 (nacts s))) as [[a d]|]; [|reflexivity].
  assert (Step : nacts (drain f lim (complete (set_now s (Z.max (now s) d)) a)) = nacts s).
  { rewrite IH. exact (proj2 (complete_now _ a)). }
  destruct lim as [t|]; [|exact Step]. destruct (d <? t); [exact Step|]. destruct (d =? t); [|reflexivity].
  exact (proj2 (fold_complete_now _ _)).
Qed.

Lemma drain_le : forall fuel t s, now s <= t -> now (drain fuel (Some t) s) <= t.
Proof.
  induction fuel as [|f IH]; intros t s Hs; cbn [drain]; [exact Hs|].
  destruct (next_ev (acts s) (seq 0 (nacts s))) as [[a d]|]; [|exact Hs].
  destruct (d <? t) eqn:E1.
  - apply IH. rewrite (proj1 (complete_now _ a)). apply Z.max_lub; [exact Hs|apply Z.lt_le_incl, Z.ltb_lt, E1].
  - destruct (d =? t); [|exact Hs]. unfold batch. rewrite (proj1 (fold_complete_now _ _)). apply Z.max_lub; [exact Hs|apply Z.le_refl].
Qed.

Lemma step_inv : forall s o s', inv s /\ kinv s -> step s o = Ok s' -> inv s' /\ kinv s'.
Proof.
  intros s0 o s' [I0 K0] H. pose proof (log_op_inv s0 o I0) as I. pose proof (k_log_op s0 o K0) as K.
  unfold step in H. set (s := log_op s0 o) in *.
  destruct o as [k dur|a b|a b|b|b|t|]; cbn zeta in H.
  - destruct (_ || _); [discriminate|]. injection H as <-. split; [exact (create_inv s k dur I)|exact (k_create s k dur I K)].
  - destruct ((a <? nacts s)%nat && (b <? nacts s)%nat) eqn:Eb; cbn [negb] in H; [|discriminate].
    apply andb_true_iff in Eb. destruct Eb as [Ea Eb]. apply Nat.ltb_lt in Ea, Eb.
    destruct (Nat.eqb_spec a b) as [|Hab]; [discriminate|].
    destruct (memb b (a_succs (acts s a))) eqn:Em; [discriminate|]. apply memb_false in Em.
    destruct (startable (acts s b)) eqn:Es; cbn [negb] in H; [|discriminate].
    injection H as <-. rewrite !(upd_neq (acts s0) a _ b) by auto. split.
    + apply (edge_inv s); try assumption; try (intros; assumption).
      * apply NoDup_snoc; [apply (i_nd s I)|exact Em].
      * intros b0 Hin Hne. apply in_app_or in Hin. destruct Hin as [Hin|[Hin|[]]]; [exact Hin|congruence].
      * intros _. apply set_add_In. left; reflexivity.
      * intros p Hp. split; intros H; [apply set_add_In in H; destruct H; [contradiction|assumption]|apply set_add_In; right; exact H].
      * intros p Hp. apply set_add_In in Hp. exact Hp.
      * intros _. apply set_add_In. left; reflexivity.
    + apply (k_edge s); try assumption.
      intros p Hp. apply set_add_In in Hp. apply set_add_In. destruct Hp as [->|Hp]; [left; reflexivity|right; apply (k_dg s K), Hp].
  - destruct ((a <? nacts s)%nat && (b <? nacts s)%nat) eqn:Eb; cbn [negb] in H; [|discriminate].
    apply andb_true_iff in Eb. destruct Eb as [Ea Eb]. apply Nat.ltb_lt in Ea, Eb.
    destruct (Nat.eqb_spec a b) as [|Hab]; [discriminate|].
    destruct (memb b (a_succs (acts s a))) eqn:Em; cbn [negb] in H; [|discriminate]. apply memb_In in Em.
    injection H as <-. rewrite !(upd_neq (acts s0) a _ b) by auto. split.
    + destruct (del_first_NoDup b _ (i_nd s I a)) as [D1 D2]. apply (edge_inv s); try assumption.
      * intros b0 Hin _. eapply del_first_In; eauto.
      * intros Hin. contradiction.
      * intros p Hp. split; intros H; [apply set_del_In in H; apply H|apply set_del_In; split; assumption].
      * intros p Hp. apply set_del_In in Hp. right; apply Hp.
      * intros Hp. apply set_del_In in Hp. destruct (proj1 Hp eq_refl).
      * intros Hp. apply set_del_In in Hp. destruct (proj1 Hp eq_refl).
    + apply (k_edge s); try assumption.
      * eapply deps_dg; [exact I|]. apply (i_E2 s I a b), Em.
      * intros p Hp. apply set_del_In in Hp. apply set_del_In. split; [apply Hp|apply (k_dg s K), Hp].
  - destruct (b <? nacts s)%nat eqn:Eb; cbn [negb] in H; [|discriminate]. apply Nat.ltb_lt in Eb.
    destruct (startable (acts s b)) eqn:Es; cbn [negb] in H; [|discriminate].
    destruct (match a_kind (acts s b) with KComm => a_assigned (acts s b) | _ => false end); [discriminate|].
    cbn [a_kind set_assigned] in H.
    destruct (request_inv s b (set_assigned (acts s b) (now s)) (conj I K) Eb Es) as [W P]; cbn; auto.
    { intros t Ht. inv Ht. auto. }
    destruct (a_kind (acts s b)); [destruct (astate_eqb _ STARTING)| |destruct (astate_eqb _ STARTING)]; injection H as <-; assumption.
  - destruct (b <? nacts s)%nat eqn:Eb; cbn [negb] in H; [|discriminate]. apply Nat.ltb_lt in Eb.
    destruct (startable (acts s b)) eqn:Es; cbn [negb] in H; [|discriminate].
    injection H as <-. apply (request_inv s b (set_req (acts s b) (now s)) (conj I K) Eb Es); cbn; auto.
    intros t Ht. inv Ht. auto.
  - destruct (t <? now s) eqn:Et; [discriminate|]. injection H as <-. apply Z.ltb_ge in Et.
    destruct (drain_inv (nacts s) (Some t) s (conj I K)) as [J1 J2].
    split; [apply set_now_inv|apply k_set_now]; auto; apply drain_le, Et.
  - injection H as <-. apply drain_inv. split; assumption.
Qed.

Lemma run_from_inv : forall ops s s' k, inv s /\ kinv s -> run_from s ops = (Ok s', k) -> inv s' /\ kinv s'.
Proof.
  induction ops as [|o r IH]; intros s s' k W H; cbn [run_from] in H.
  - inv H. exact W.
  - destruct (step s o) as [s1| |] eqn:Es; try (inv H; fail).
    destruct (run_from s1 r) as [x k'] eqn:Er. inv H. exact (IH s1 s' k' (step_inv s o s1 W Es) Er).
Qed.

Lemma run_inv : forall ops s, run ops = Ok s -> inv s /\ kinv s.
Proof.
  intros ops s H. unfold run in H. destruct (run_from init_st ops) as [x k] eqn:E. cbn in H. subst x.
  exact (run_from_inv ops init_st s k (conj inv_init kinv_init) E).
Qed.

(** C13, first sentence: whatever the script, an activity that is started (or finished) is assigned, and every
    predecessor declared for it (and not removed) has finished, no later than it started. *)
Theorem start_guard : forall ops s, run ops = Ok s -> forall b,
  a_state (acts s b) = STARTED \/ a_state (acts s b) = FINISHED ->
  a_assigned (acts s b) = true /\
  exists ts, a_tstart (acts s b) = Some ts /\ ts <= now s /\
    forall p, In p (a_gpreds (acts s b)) ->
      a_state (acts s p) = FINISHED /\ exists tf, a_tfinish (acts s p) = Some tf /\ tf <= ts.
Proof. intros ops s H b Hb. exact (i_guard s (proj1 (run_inv ops s H)) b Hb). Qed.

Lemma max_list_ub : forall l m, 0 <= m -> (forall x, In x l -> x <= m) -> max_list l <= m.
Proof.
  induction l as [|y r IH]; cbn; intros m H0 H; [exact H0|].
  apply Z.max_lub; [apply H; left; reflexivity|apply IH; auto].
Qed.
Lemma max_list_ge : forall l x, In x l -> x <= max_list l.
Proof.
  induction l as [|y r IH]; cbn; intros x H; [contradiction|].
  destruct H as [->|H]; [apply Z.le_max_l|exact (Z.le_trans _ _ _ (IH x H) (Z.le_max_r _ _))].
Qed.
Lemma max_list_nonneg : forall l, 0 <= max_list l.
Proof. induction l as [|y r IH]; cbn; [apply Z.le_refl|exact (Z.le_trans _ _ _ IH (Z.le_max_r _ _))]. Qed.

(** C13, third sentence, for every script (remove_successor included): an activity starts exactly at the latest of the
    finish dates of its declared predecessors, its (latest) assignment and its (latest) start request. *)
Theorem start_at_max : forall ops s, run ops = Ok s -> forall b ts, a_tstart (acts s b) = Some ts ->
  ts = Z.max (Z.max (max_list (map (fun p => odef (a_tfinish (acts s p))) (a_gpreds (acts s b))))
                    (odef (a_tassign (acts s b)))) (odef (a_treq (acts s b))).
Proof.
  intros ops s H b ts Hts. destruct (run_inv ops s H) as [I K].
  destruct (k_start s K b ts Hts) as [T0 [T1 [T2 [T3 T4]]]].
  destruct (i_guard s I b T1) as [_ [ts' [G2 [_ G4]]]]. rewrite Hts in G2. inv G2.
  set (l := map (fun p => odef (a_tfinish (acts s p))) (a_gpreds (acts s b))).
  assert (Hub : max_list l <= ts').
  { apply max_list_ub; [exact T0|]. intros x Hx. apply in_map_iff in Hx. destruct Hx as [p [<- Hp]].
    destruct (G4 p Hp) as [_ [tf [F1 F2]]]. rewrite F1. exact F2. }
  assert (Ha : odef (a_tassign (acts s b)) <= ts') by (destruct (a_tassign (acts s b)) as [t|] eqn:Et; cbn; [apply T2; reflexivity|exact T0]).
  assert (Hr : odef (a_treq (acts s b)) <= ts') by (destruct (a_treq (acts s b)) as [t|] eqn:Et; cbn; [apply T3; reflexivity|exact T0]).
  (* ts' bounds the three dates, and is one of them *)
  apply Z.le_antisymm; [|apply Z.max_lub; [apply Z.max_lub|]; assumption].
  destruct T4 as [T|[T|[p [P1 P2]]]].
  - rewrite T. exact (Z.le_trans _ _ _ (Z.le_max_r _ _) (Z.le_max_l _ _)).
  - rewrite T. apply Z.le_max_r.
  - refine (Z.le_trans _ _ _ _ (Z.le_trans _ _ _ (Z.le_max_l _ _) (Z.le_max_l _ _))).
    apply max_list_ge. apply in_map_iff. exists p. split; [rewrite P2; reflexivity|exact P1].
Qed.

Definition good_state (x : act) : Prop :=
  a_state x = INITED \/ a_state x = STARTING \/ a_state x = STARTED \/ a_state x = FINISHED.
Record settled (s : st) (rank : nat -> nat) : Prop := {
  s_asg : forall b, (b < nacts s)%nat -> a_assigned (acts s b) = true;
  s_ready : forall b, (b < nacts s)%nat -> startable (acts s b) = true -> a_deps (acts s b) <> [];
  s_deps : forall b p, In p (a_deps (acts s b)) ->
             (p < nacts s)%nat /\ a_state (acts s p) <> FINISHED /\ (rank p < rank b)%nat /\ In b (a_succs (acts s p));
  s_states : forall b, good_state (acts s b) }.

Definition is_fin (x : act) : bool := astate_eqb (a_state x) FINISHED.
Lemma is_fin_true : forall x, is_fin x = true <-> a_state x = FINISHED.
Proof. intros x; unfold is_fin; destruct (a_state x); cbn; split; intros; try discriminate; reflexivity. Qed.
Definition nf (s : st) : nat := length (filter (fun i => negb (is_fin (acts s i))) (seq 0 (nacts s))).

Lemma count_flip : forall (f g : nat -> bool) l a, NoDup l -> In a l -> f a = true -> g a = false ->
  (forall i, i <> a -> g i = f i) -> (length (filter g l) < length (filter f l))%nat.
Proof.
  induction l as [|x r IH]; intros a Hnd Hin Hf Hg Hsame; [contradiction|]. inv Hnd. cbn [filter].
  destruct (Nat.eq_dec x a) as [->|Hne].
  - rewrite Hf, Hg. cbn [length].
    assert (E : filter g r = filter f r).
    { apply filter_ext_in. intros i Hi. apply Hsame. intros ->. contradiction. }
    rewrite E. apply Nat.lt_succ_diag_r.
  - destruct Hin as [->|Hin]; [contradiction|]. rewrite (Hsame x Hne). specialize (IH a H2 Hin Hf Hg Hsame).
    destruct (f x); cbn [length]; [apply -> Nat.succ_lt_mono|]; exact IH.
Qed.

Lemma next_ev_some : forall f ids c d, In c ids -> fin_date (f c) = Some d -> next_ev f ids <> None.
Proof.
  induction ids as [|i r IH]; intros c d Hin Hd; [contradiction|]. cbn [next_ev]. destruct Hin as [->|Hin].
  - rewrite Hd. destruct (next_ev f r) as [[j e]|]; [destruct (d <=? e)|]; discriminate.
  - specialize (IH c d Hin Hd). destruct (fin_date (f i)); [|exact IH].
    destruct (next_ev f r) as [[j e]|]; [destruct (_ <=? _); discriminate|contradiction].
Qed.

(** following dependencies down the rank from an unfinished activity ends at a started one *)
Lemma some_started : forall s rank, settled s rank ->
  forall b, (b < nacts s)%nat -> a_state (acts s b) <> FINISHED ->
  exists c, (c < nacts s)%nat /\ a_state (acts s c) = STARTED.
Proof.
  intros s rank S b. remember (rank b) as n eqn:En. revert b En.
  induction n as [n IH] using lt_wf_ind. intros b -> Hb Hnf.
  destruct (s_states s rank S b) as [H|[H|[H|H]]]; [| |exists b; auto|contradiction];
    (assert (Hst : startable (acts s b) = true) by (apply startable_states; auto);
     pose proof (s_ready s rank S b Hb Hst) as Hd; destruct (a_deps (acts s b)) as [|p r] eqn:Ed; [contradiction|];
     destruct (s_deps s rank S b p) as (Hp & Hpf & Hr & _); [rewrite Ed; left; reflexivity|];
     exact (IH (rank p) Hr p eq_refl Hp Hpf)).
Qed.

Lemma complete_settled : forall s rank a, inv s -> settled s rank -> (a < nacts s)%nat -> a_state (acts s a) = STARTED ->
  settled (complete s a) rank /\ (nf (complete s a) < nf s)%nat.
Proof.
  intros s rank a I S Han Hsa. destruct (complete_cases s a I Hsa) as (Hda & Ea & Hc).
  destruct (complete_frame s a I Hsa) as [Hkeep Hfr]. destruct (complete_now s a) as [_ C2]. set (s' := complete s a) in *.
  assert (Hnf : forall i, i <> a -> a_state (acts s i) <> FINISHED -> a_state (acts s' i) <> FINISHED).
  { intros i Hia Hi. destruct (Hc i) as [->|[(_ & E)|(_ & _ & _ & [(Hy & _)|(Hy & _)])]];
      [contradiction|rewrite E; exact Hi|exact (startable_not_fin _ Hy)|rewrite Hy; discriminate]. }
  split.
  - constructor.
    + intros b Hb. rewrite C2 in Hb. destruct (Hfr b) as (_ & E & _). rewrite E. apply (s_asg s rank S b Hb).
    + intros b Hb Hst. rewrite C2 in Hb. destruct (Hc b) as [->|[(_ & E)|(_ & _ & _ & [(_ & _ & [Hy|Hy])|(Hy & _)])]].
      * rewrite Ea in Hst. discriminate.
      * rewrite E in Hst |- *. apply (s_ready s rank S b Hb Hst).
      * exact Hy.
      * rewrite (s_asg s rank S b Hb) in Hy. discriminate.
      * unfold startable in Hst. rewrite Hy in Hst. discriminate.
    + intros b p Hp. destruct (Hfr b) as (_ & _ & _ & _ & _ & Hin & _ & Hno).
      destruct (s_deps s rank S b p (Hin p Hp)) as (D1 & D2 & D3 & D4). rewrite C2.
      assert (Hpa : p <> a) by (intros ->; exact (Hno D4 Hp)).
      destruct (Hfr p) as (_ & _ & _ & _ & Es & _). rewrite (proj1 (Es Hpa)). auto.
    + intros b. unfold good_state. destruct (Hc b) as [->|[(_ & E)|(_ & _ & _ & [(Hy & _)|(Hy & _)])]].
      * rewrite Ea. auto.
      * rewrite E. apply (s_states s rank S).
      * apply startable_states in Hy. destruct Hy; auto.
      * auto.
  - unfold nf. rewrite C2. apply (count_flip _ _ (seq 0 (nacts s)) a).
    + apply seq_NoDup.
    + apply in_seq. split; [apply Nat.le_0_l|exact Han].
    + unfold is_fin. rewrite Hsa. reflexivity.
    + rewrite Ea. reflexivity.
    + intros i Hne. f_equal. apply eq_true_iff_eq. rewrite !is_fin_true. split; [|apply Hkeep].
      intros Hf. destruct (a_state (acts s i)) eqn:Ei; try reflexivity; exfalso; apply (Hnf i Hne); congruence.
Qed.

Lemma drain_all_finish : forall fuel s rank, inv s -> settled s rank -> (nf s <= fuel)%nat ->
  forall b, (b < nacts s)%nat -> a_state (acts (drain fuel None s) b) = FINISHED.
Proof.
  induction fuel as [|f IH]; intros s rank I S Hnf b Hb.
  - cbn [drain]. destruct (is_fin (acts s b)) eqn:E; [apply is_fin_true; exact E|]. exfalso.
    assert (Hin : In b (filter (fun i => negb (is_fin (acts s i))) (seq 0 (nacts s)))).
    { apply filter_In. split; [apply in_seq; split; [apply Nat.le_0_l|exact Hb]|rewrite E; reflexivity]. }
    unfold nf in Hnf. destruct (filter _ _); [contradiction|exact (Nat.nle_succ_0 _ Hnf)].
  - cbn [drain]. destruct (next_ev (acts s) (seq 0 (nacts s))) as [[a d]|] eqn:En.
    + destruct (next_ev_spec _ _ _ _ En) as [Hin Hf]. apply fin_date_started in Hf. apply in_seq in Hin.
      set (s1 := set_now s (Z.max (now s) d)).
      assert (I1 : inv s1) by (apply set_now_inv; [exact I|apply Z.le_max_l]).
      assert (S1 : settled s1 rank) by (destruct S; constructor; assumption).
      destruct (complete_settled s1 rank a I1 S1) as [S2 N2]; [apply Hin|exact Hf|].
      apply (IH (complete s1 a) rank); [apply complete_inv; assumption|exact S2| |rewrite (proj2 (complete_now s1 a)); exact Hb].
      exact (proj1 (Nat.lt_succ_r _ _) (Nat.lt_le_trans _ _ _ N2 Hnf)).
    + destruct (is_fin (acts s b)) eqn:Eb; [apply is_fin_true; exact Eb|]. exfalso.
      destruct (some_started s rank S b Hb) as (c & Hc & Hcs); [intros Hf; apply is_fin_true in Hf; congruence|].
      destruct (i_guard s I c (or_introl Hcs)) as (_ & ts & Hts & _).
      apply (next_ev_some (acts s) (seq 0 (nacts s)) c (ts + a_dur (acts s c))); [apply in_seq; split; [apply Nat.le_0_l|exact Hc]|unfold fin_date; rewrite Hcs, Hts; reflexivity|exact En].
Qed.

Lemma nf_le : forall s, (nf s <= nacts s)%nat.
Proof.
  intros s. unfold nf. rewrite <- (seq_length (nacts s) 0) at 2. generalize (seq 0 (nacts s)). intros l.
  induction l as [|x r IH]; cbn; [apply Nat.le_refl|]. destruct (negb _); cbn; [apply le_n_S|apply le_S]; exact IH.
Qed.

(** C13, second sentence: from any state a script reaches in which every activity is assigned, every activity that is not
    started still waits for some dependency, dependencies point to unfinished activities that know their successor, and
    the dependency relation is acyclic (it decreases some rank), Engine::run() finishes every activity. *)
Theorem acyclic_all_finish : forall ops s rank, run ops = Ok s -> settled s rank ->
  forall s', step s Run = Ok s' -> forall b, (b < nacts s')%nat -> a_state (acts s' b) = FINISHED.
Proof.
  intros ops s rank H S s' Hs b Hb. destruct (run_inv ops s H) as [I _].
  cbn in Hs. injection Hs as <-. rewrite drain_nacts in Hb.
  apply (drain_all_finish (nacts s) (log_op s Run) rank); [exact (log_op_inv s Run I)|destruct S; constructor; assumption|apply (nf_le (log_op s Run))|exact Hb].
Qed.

(** a closed run is evaluated once, together with what is claimed of the state it ends in *)
Lemma res_ex : forall (r : res) (Q : st -> Prop), match r with Ok s => Q s | _ => False end -> exists s, r = Ok s /\ Q s.
Proof. intros [s| |] Q H; [exists s; auto|destruct H|destruct H]. Qed.
