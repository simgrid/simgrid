(** C09 — proofs about histories with withdrawals (SGV.Kernel.MQueue: remove_id, cancel1, cancel_all, xrun).
    Main result [as_never_issued]: a history in which some queued requests are withdrawn (cancel(), issuer ended or
    killed) forms the same pairs and leaves the same queue as the history in which the withdrawn requests were never
    issued; everything proved for put/get histories (MQueueProofs) then transfers to the surviving requests. *)
From SGV Require Import Base.PlainLia Kernel.MQueue Kernel.MQueueProofs Base.Facts.
Local Open Scope Z_scope.

Definition keep (w : list Z) (e : mqent) : bool := negb (zmem (mid (snd e)) w).

Lemma zmem_spec : forall i w, reflect (In i w) (zmem i w).
Proof.
  intros i w. apply iff_reflect. unfold zmem. rewrite existsb_exists. split.
  - intros I. exists i. split; [exact I|apply Z.eqb_refl].
  - intros (x & I & E). apply Z.eqb_eq in E. subst. exact I.
Qed.
Lemma zmem_out : forall i w, ~ In i w -> zmem i w = false.
Proof. intros i w H. destruct (zmem_spec i w); [contradiction|reflexivity]. Qed.
Lemma zmem_app : forall i a b, zmem i (a ++ b) = zmem i a || zmem i b.
Proof. intros. unfold zmem. apply existsb_app. Qed.

Lemma keep_cons : forall i ids e, keep (i :: ids) e = negb (mid (snd e) =? i) && keep ids e.
Proof. intros. unfold keep, zmem. cbn [existsb]. rewrite negb_orb. reflexivity. Qed.
Lemma keep_app : forall a b e, keep (a ++ b) e = keep a e && keep b e.
Proof. intros. unfold keep. rewrite zmem_app. apply negb_orb. Qed.
Lemma keep_out : forall w e, ~ In (mid (snd e)) w -> keep w e = true.
Proof. intros w e H. unfold keep. rewrite (zmem_out _ _ H). reflexivity. Qed.
Lemma keep_nil : forall q, filter (keep []) q = q.
Proof. intros. apply filter_all, Forall_forall. reflexivity. Qed.

Lemma qids_app : forall a b, qids (a ++ b) = qids a ++ qids b.
Proof. intros. apply map_app. Qed.
Lemma qids_filter_in : forall (f : mqent -> bool) (q : list mqent) i, In i (qids (filter f q)) -> In i (qids q).
Proof.
  intros f q i I. unfold qids in *. apply in_map_iff in I. destruct I as (e & E & I). apply filter_In in I.
  apply in_map_iff. exists e. split; [exact E|apply I].
Qed.
Lemma nodup_filter_app : forall (f : mqent -> bool) (q : list mqent) r, NoDup (qids q ++ r) -> NoDup (qids (filter f q) ++ r).
Proof.
  induction q as [|e q IH]; intros r H; [exact H|]. cbn in H. inv H. specialize (IH r H3). cbn. destruct (f e); [|exact IH].
  cbn. constructor; [|exact IH]. intros I. apply H2. apply in_app_or in I. apply in_or_app. destruct I as [I|I]; [left|right; exact I].
  apply (qids_filter_in f). exact I.
Qed.
Lemma nodup_filter : forall (f : mqent -> bool) (q : list mqent), NoDup (qids q) -> NoDup (qids (filter f q)).
Proof. intros f q N. apply (nodup_app_l _ []), nodup_filter_app. rewrite app_nil_r. exact N. Qed.

(** MessageQueueImpl::remove *)
Definition drop (i : Z) (q : list mqent) : list mqent := filter (fun e => negb (mid (snd e) =? i)) q.

Lemma remove_id_hit : forall i l1 e l2, Forall (fun x => mid (snd x) =? i = false) l1 -> mid (snd e) =? i = true ->
  remove_id i (l1 ++ e :: l2) = Some (l1 ++ l2).
Proof.
  induction 1 as [|x l1 E _ IH]; intros M; cbn [app remove_id]; [rewrite M|rewrite E, IH by exact M]; reflexivity.
Qed.
Lemma remove_id_miss : forall i q, Forall (fun x => mid (snd x) =? i = false) q -> remove_id i q = None.
Proof. induction 1 as [|x q E _ IH]; cbn [remove_id]; [|rewrite E, IH]; reflexivity. Qed.
Lemma drop_miss : forall i q, Forall (fun x => mid (snd x) =? i = false) q -> drop i q = q.
Proof. intros i q F. apply filter_all. eapply Forall_impl; [|exact F]. cbn. intros x ->. reflexivity. Qed.
Lemma not_in_qids : forall i q, ~ In i (qids q) -> Forall (fun x => mid (snd x) =? i = false) q.
Proof.
  intros i q H. apply Forall_forall. intros x I. apply Z.eqb_neq. intros E. apply H. rewrite <- E.
  apply (in_map (fun e => mid (snd e))), I.
Qed.
Lemma qids_drop : forall i q x, In x (qids (drop i q)) <-> In x (qids q) /\ i <> x.
Proof.
  intros i q x. unfold qids, drop. rewrite !in_map_iff. split.
  - intros (e & <- & I). apply filter_In in I. destruct I as [I E]. apply negb_true_iff, Z.eqb_neq in E. eauto using not_eq_sym.
  - intros [(e & <- & I) E]. exists e. split; [reflexivity|]. apply filter_In. split; [exact I|].
    apply negb_true_iff, Z.eqb_neq, not_eq_sym, E.
Qed.

(* with distinct ids, MessImpl::cancel on message i filters it out, and reports it if it was queued *)
Lemma cancel1_eq : forall q w i, NoDup (qids q) ->
  cancel1 (q, w) i = (drop i q, w ++ filter (fun j => zmem j (qids q)) [i]).
Proof.
  intros q w i N. unfold cancel1. cbn [fst snd filter]. destruct (zmem_spec i (qids q)) as [Z|Z].
  - apply in_map_iff in Z. destruct Z as (e & <- & I). apply in_split in I. destruct I as (l1 & l2 & ->).
    rewrite qids_app in N. apply NoDup_remove_2 in N. rewrite in_app_iff in N.
    assert (F1 := not_in_qids _ l1 (fun H => N (or_introl H))). assert (F2 := not_in_qids _ l2 (fun H => N (or_intror H))).
    rewrite (remove_id_hit _ _ _ _ F1 (Z.eqb_refl _)). unfold drop. rewrite filter_app. cbn [filter].
    rewrite Z.eqb_refl. cbn [negb]. fold (drop (mid (snd e)) l1) (drop (mid (snd e)) l2). rewrite !drop_miss by assumption.
    reflexivity.
  - apply not_in_qids in Z. rewrite (remove_id_miss _ _ Z), (drop_miss _ _ Z), app_nil_r. reflexivity.
Qed.

Lemma cancel_fold_fst : forall ids q w0, NoDup (qids q) -> fst (fold_left cancel1 ids (q, w0)) = filter (keep ids) q.
Proof.
  induction ids as [|i ids IH]; intros q w0 N; cbn [fold_left].
  - symmetry. apply keep_nil.
  - rewrite (cancel1_eq _ _ _ N), IH by apply nodup_filter, N.
    unfold drop. rewrite filter_filter. apply filter_ext. intros e. rewrite keep_cons. reflexivity.
Qed.
Lemma cancel_fold_snd : forall ids q w0, NoDup (qids q) ->
  forall x, In x (snd (fold_left cancel1 ids (q, w0))) <-> In x w0 \/ (In x ids /\ In x (qids q)).
Proof.
  induction ids as [|i ids IH]; intros q w0 N x; cbn [fold_left].
  - cbn. tauto.
  - rewrite (cancel1_eq _ _ _ N), IH by apply nodup_filter, N.
    rewrite in_app_iff, filter_In, qids_drop, <- (reflect_iff _ _ (zmem_spec x (qids q))). cbn [In].
    split.
    + intros [[H|[[H|[]] Hq]]|(H & Hq & _)]; auto.
    + intros [H|[[H|H] Hq]]; auto. destruct (Z.eq_dec i x); auto.
Qed.

(* MessImpl::cancel removes exactly the named messages that are still queued; the others keep their relative order;
   the order in which the cancels are issued does not matter *)
Theorem cancel_exact : forall q ids, NoDup (qids q) ->
  fst (cancel_all q ids) = filter (keep ids) q /\
  (forall i, In i (snd (cancel_all q ids)) <-> In i ids /\ In i (qids q)).
Proof.
  intros q ids N. unfold cancel_all. split; [apply cancel_fold_fst; exact N|]. intros i.
  rewrite (cancel_fold_snd ids q [] N i). cbn [In]. tauto.
Qed.

Lemma xrun_req : forall q o t, xrun q (XReq o :: t) =
  (fst (fst (xrun (fst (qstep q o)) t)), snd (qstep q o) ++ snd (fst (xrun (fst (qstep q o)) t)), snd (xrun (fst (qstep q o)) t)).
Proof. intros. cbn [xrun]. destruct (qstep q o) as [q1 ev]. cbn [fst snd]. destruct (xrun q1 t) as [[a b] c]. reflexivity. Qed.
Lemma xrun_cancel : forall q ids t, xrun q (XCancel ids :: t) =
  (fst (fst (xrun (fst (cancel_all q ids)) t)), snd (fst (xrun (fst (cancel_all q ids)) t)),
   snd (cancel_all q ids) ++ snd (xrun (fst (cancel_all q ids)) t)).
Proof. intros. cbn [xrun]. destruct (cancel_all q ids) as [q1 w1]. cbn [fst snd]. destruct (xrun q1 t) as [[a b] c]. reflexivity. Qed.

(* a request leaves the ids in the queue distinct from each other and from those still to come *)
Lemma qstep_ids : forall q o r, NoDup (qids q ++ mid (op_mess o) :: r) ->
  NoDup (qids (fst (qstep q o)) ++ r) /\ incl (qids (fst (qstep q o)) ++ r) (qids q ++ mid (op_mess o) :: r).
Proof.
  intros q o r N. destruct (qstep_spec q o) as [(l1 & c & l2 & -> & _ & ->)|[_ ->]]; cbn [fst].
  - split.
    + apply NoDup_remove_1 in N. rewrite !qids_app, <- app_assoc in *. exact (NoDup_remove_1 _ _ _ N).
    + rewrite !qids_app. apply incl_app_app; [apply incl_elt|apply incl_tl, incl_refl].
  - rewrite qids_app, <- app_assoc. split; [exact N|apply incl_refl].
Qed.
(* ... and when it is paired, its own id and its partner's are gone for good *)
Lemma qstep_pair_gone : forall (l1 : list mqent) k c l2 x r, NoDup (qids (l1 ++ (k, c) :: l2) ++ x :: r) ->
  ~ In x (qids (l1 ++ l2) ++ r) /\ ~ In (mid c) (qids (l1 ++ l2) ++ r).
Proof.
  intros l1 k c l2 x r N. rewrite !qids_app in *. split; intros I.
  - apply (NoDup_remove_2 _ _ _ N). revert I. apply incl_app_app; [apply incl_elt|apply incl_refl].
  - rewrite <- app_assoc in N. apply (NoDup_remove_2 _ _ _ N). rewrite <- app_assoc in I. revert I.
    apply incl_app_app; [apply incl_refl|]. apply incl_app_app; [apply incl_refl|apply incl_tl, incl_refl].
Qed.

(* one entry of a history: the queue it leaves, and what it withdraws *)
Definition xstep (q : list mqent) (x : xop) : list mqent :=
  match x with XReq o => fst (qstep q o) | XCancel ids => fst (cancel_all q ids) end.
Definition xgone (q : list mqent) (x : xop) : list Z :=
  match x with XReq _ => [] | XCancel ids => snd (cancel_all q ids) end.
Lemma xrun_queue_cons : forall q x t, fst (fst (xrun q (x :: t))) = fst (fst (xrun (xstep q x) t)).
Proof. intros q [o|ids] t; [rewrite xrun_req|rewrite xrun_cancel]; reflexivity. Qed.
Lemma xrun_gone_cons : forall q x t, snd (xrun q (x :: t)) = xgone q x ++ snd (xrun (xstep q x) t).
Proof. intros q [o|ids] t; [rewrite xrun_req|rewrite xrun_cancel]; reflexivity. Qed.
Lemma req_ids_cons : forall x t, req_ids (x :: t) = req_ids [x] ++ req_ids t.
Proof. destruct x; reflexivity. Qed.

Lemma xstep_ids : forall q x r, NoDup (qids q ++ req_ids [x] ++ r) ->
  NoDup (qids (xstep q x) ++ r) /\ incl (qids (xstep q x) ++ r) (qids q ++ req_ids [x] ++ r).
Proof.
  intros q [o|ids] r N; cbn [xstep req_ids app] in *; [apply qstep_ids, N|].
  destruct (cancel_exact q ids (nodup_app_l _ _ N)) as [-> _]. split; [apply nodup_filter_app, N|].
  apply incl_app_app; [|apply incl_refl]. intros i. apply qids_filter_in.
Qed.
Lemma xgone_queued : forall q x i, NoDup (qids q) -> In i (xgone q x) <-> exists ids, x = XCancel ids /\ In i ids /\ In i (qids q).
Proof.
  intros q [o|ids] i N; cbn [xgone].
  - split; [intros []|intros (ids & E & _); discriminate].
  - destruct (cancel_exact q ids N) as [_ B]. split.
    + intros H. exists ids. split; [reflexivity|apply B, H].
    + intros (ids' & E & H). injection E as <-. apply B, H.
Qed.

(* only requests that are queued at some point can be withdrawn *)
Lemma withdrawn_sub : forall xops q0, NoDup (qids q0 ++ req_ids xops) -> incl (snd (xrun q0 xops)) (qids q0 ++ req_ids xops).
Proof.
  induction xops as [|x t IH]; intros q0 N i I; [destruct I|]. rewrite req_ids_cons in *.
  destruct (xstep_ids _ _ _ N) as [N1 S]. rewrite xrun_gone_cons in I. apply in_app_or in I. destruct I as [I|I].
  - apply (xgone_queued _ _ _ (nodup_app_l _ _ N)) in I. destruct I as (_ & _ & _ & I). apply in_or_app. left. exact I.
  - apply S, (IH _ N1), I.
Qed.

Lemma erase_ext : forall a b t, (forall i, In i (req_ids t) -> zmem i a = zmem i b) -> erase a t = erase b t.
Proof.
  induction t as [|[o|ids] t IH]; intros H; [reflexivity| |].
  - cbn [erase]. rewrite (H (mid (op_mess o))) by (left; reflexivity). rewrite IH; [reflexivity|].
    intros i I. apply H. right. exact I.
  - cbn [erase]. apply IH. exact H.
Qed.

(* a request commutes with the removal of the entries [w], all withdrawn after it: it finds the same partner, or
   waits all the same, unless it is itself in [w]: then it found no partner, and never shows *)
Lemma qstep_keep : forall q o w r, NoDup (qids q ++ mid (op_mess o) :: r) -> incl w (qids (fst (qstep q o)) ++ r) ->
  if zmem (mid (op_mess o)) w
  then snd (qstep q o) = [] /\ filter (keep w) (fst (qstep q o)) = filter (keep w) q
  else qstep (filter (keep w) q) o = (filter (keep w) (fst (qstep q o)), snd (qstep q o)).
Proof.
  intros q o w r N WS. destruct (qstep_spec q o) as [(l1 & c & l2 & -> & F & E)|[F E]]; rewrite E in *; cbn [fst snd] in *.
  - destruct (qstep_pair_gone _ _ _ _ _ _ N) as [Po Pc]. rewrite (zmem_out _ _ (fun I => Po (WS _ I))), !filter_app.
    cbn [filter]. rewrite (keep_out w (_, c) (fun I => Pc (WS _ I))). apply qstep_hit, Forall_filter, F.
  - rewrite filter_app. cbn [filter]. change (keep w (kind o, op_mess o)) with (negb (zmem (mid (op_mess o)) w)).
    destruct (zmem (mid (op_mess o)) w); cbn [negb].
    + split; [reflexivity|apply app_nil_r].
    + apply qstep_miss, Forall_filter, F.
Qed.

(* on q, being withdrawn by [XCancel ids] is being named in [ids] *)
Lemma cancel_keep : forall q ids w, NoDup (qids q) ->
  filter (keep (snd (cancel_all q ids) ++ w)) q = filter (keep w) (fst (cancel_all q ids)).
Proof.
  intros q ids w N. destruct (cancel_exact q ids N) as [A B]. rewrite A, filter_filter. apply filter_ext_in. intros e I.
  rewrite keep_app. f_equal. unfold keep. f_equal. specialize (B (mid (snd e))).
  pose proof (in_map (fun e => mid (snd e)) _ _ I) as Ie.
  destruct (zmem_spec (mid (snd e)) (snd (cancel_all q ids))) as [H1|H1], (zmem_spec (mid (snd e)) ids) as [H2|H2];
    try reflexivity; exfalso.
  - apply H2, B, H1.
  - apply H1, B. split; assumption.
Qed.

(* the simulation: started from q0, the run with withdrawals W equals the cancel-free run of the requests not in W,
   started from q0 without the entries in W *)
Lemma sim : forall xops q0, NoDup (qids q0 ++ req_ids xops) ->
  let res := xrun q0 xops in
  qrun (filter (keep (snd res)) q0) (erase (snd res) xops) = fst res.
Proof.
  induction xops as [|[o|ids] t IH]; intros q0 N res; unfold res; clear res.
  - cbn. rewrite keep_nil. reflexivity.
  - rewrite xrun_req. cbn [fst snd req_ids erase] in *. destruct (qstep_ids q0 o _ N) as [N1 _].
    specialize (IH _ N1). cbn zeta in IH. pose proof (qstep_keep q0 o _ _ N (withdrawn_sub t _ N1)) as K.
    destruct (zmem (mid (op_mess o)) (snd (xrun (fst (qstep q0 o)) t))).
    + destruct K as [-> K]. rewrite <- K, IH. apply surjective_pairing.
    + rewrite qrun_cons, K. cbn [fst snd]. rewrite IH. reflexivity.
  - rewrite xrun_cancel. cbn [fst snd req_ids erase] in *. pose proof (nodup_app_l _ _ N) as Nq.
    destruct (cancel_exact q0 ids Nq) as [_ B]. destruct (xstep_ids q0 (XCancel ids) _ N) as [N1 _]. cbn [xstep] in N1.
    specialize (IH _ N1). cbn zeta in IH.
    rewrite (cancel_keep _ _ _ Nq), (erase_ext _ (snd (xrun (fst (cancel_all q0 ids)) t))), IH; [apply surjective_pairing|].
    (* what is withdrawn now is none of the requests to come *)
    intros i I. rewrite zmem_app, zmem_out; [reflexivity|].
    intros H. apply B in H. apply (nodup_app_disj _ _ i N); [apply H|exact I].
Qed.

(** a history with withdrawals behaves as if the withdrawn requests had never been issued *)
Theorem as_never_issued : forall xops, NoDup (req_ids xops) ->
  qrun [] (erase (withdrawn xops) xops) = fst (xrun [] xops).
Proof. intros xops N. exact (sim xops [] N). Qed.

Lemma reqs_of_erase : forall w xops,
  puts_of (erase w xops) = surv w (xputs_of xops) /\ gets_of (erase w xops) = surv w (xgets_of xops).
Proof.
  induction xops as [|[[m|m]|ids] t [IHp IHg]]; [split; reflexivity| | |split; assumption];
    cbn [erase op_mess xputs_of xgets_of]; unfold surv in *; cbn [filter];
    destruct (zmem (mid m) w); cbn [negb puts_of gets_of]; rewrite ?IHp, ?IHg; split; reflexivity.
Qed.

Theorem withdraw_fifo : forall xops, NoDup (req_ids xops) ->
  let w := withdrawn xops in
  snd (fst (xrun [] xops)) = combine (surv w (xputs_of xops)) (surv w (xgets_of xops)).
Proof.
  intros xops N w. unfold w. destruct (reqs_of_erase (withdrawn xops) xops) as [<- <-].
  rewrite <- (as_never_issued xops N). apply fifo.
Qed.

Theorem withdraw_exactly_once : forall xops, NoDup (req_ids xops) ->
  let res := xrun [] xops in let w := withdrawn xops in
  surv w (xputs_of xops) = map fst (snd (fst res)) ++ qpending true (fst (fst res)) /\
  surv w (xgets_of xops) = map snd (snd (fst res)) ++ qpending false (fst (fst res)).
Proof.
  intros xops N res w. unfold res, w. destruct (reqs_of_erase (withdrawn xops) xops) as [<- <-].
  rewrite <- (as_never_issued xops N). apply exactly_once.
Qed.

Theorem withdraw_homogeneous : forall xops, NoDup (req_ids xops) ->
  let q := fst (fst (xrun [] xops)) in (forall e, In e q -> fst e = true) \/ (forall e, In e q -> fst e = false).
Proof. intros xops N q. unfold q. rewrite <- (as_never_issued xops N). apply homogeneous. Qed.

Theorem withdraw_final_queue : forall xops, NoDup (req_ids xops) ->
  let w := withdrawn xops in let P := surv w (xputs_of xops) in let G := surv w (xgets_of xops) in
  fst (fst (xrun [] xops)) = tagq true (skipn (length G) P) ++ tagq false (skipn (length P) G).
Proof.
  intros xops N w P G. unfold P, G, w. destruct (reqs_of_erase (withdrawn xops) xops) as [<- <-].
  rewrite <- (as_never_issued xops N). apply final_queue.
Qed.

(** which requests are withdrawn: exactly those named by a cancel while they are queued *)
Lemma xrun_queue_ids : forall xops q0, NoDup (qids q0 ++ req_ids xops) -> forall r, NoDup (qids q0 ++ req_ids xops ++ r) ->
  NoDup (qids (fst (fst (xrun q0 xops))) ++ r).
Proof.
  induction xops as [|x t IH]; intros q0 N r Nr; [exact Nr|]. rewrite req_ids_cons, <- ?app_assoc in *.
  rewrite xrun_queue_cons. apply IH; eapply xstep_ids; eassumption.
Qed.

Theorem withdrawn_iff_gen : forall xops q0, NoDup (qids q0 ++ req_ids xops) -> forall i,
  In i (snd (xrun q0 xops)) <->
  exists pre ids post, xops = pre ++ XCancel ids :: post /\ In i ids /\ In i (qids (fst (fst (xrun q0 pre)))).
Proof.
  induction xops as [|x t IH]; intros q0 N i.
  - split; [intros []|]. intros (pre & ids & post & E & _). destruct pre; discriminate.
  - rewrite req_ids_cons in N. destruct (xstep_ids _ _ _ N) as [N1 _]. pose proof (xgone_queued q0 x i (nodup_app_l _ _ N)) as G.
    rewrite xrun_gone_cons. split.
    + intros H. apply in_app_or in H. destruct H as [H|H].
      * apply G in H. destruct H as (ids & -> & H). exists [], ids, t. auto.
      * apply (IH _ N1) in H. destruct H as (pre & ids & post & -> & I1 & I2).
        exists (x :: pre), ids, post. rewrite xrun_queue_cons. auto.
    + intros (pre & ids & post & E & I1 & I2). apply in_or_app. destruct pre as [|y pre]; injection E as -> ->.
      * left. apply G. exists ids. auto.
      * right. rewrite xrun_queue_cons in I2. apply (IH _ N1). exists pre, ids, post. auto.
Qed.

(** histories without withdrawals: xrun is qrun *)
Theorem xrun_conservative : forall ops q, xrun q (map XReq ops) = (qrun q ops, []).
Proof.
  induction ops as [|o t IH]; intros q; [reflexivity|]. cbn [map]. rewrite xrun_req, IH, qrun_cons. reflexivity.
Qed.

(** the payload is written to the receive buffer once, however often finish() runs afterwards *)
Lemma finish_n_nodst : forall n d p, finish_n true n (mkMobj d p 0) = [].
Proof.
  induction n as [|n IH]; intros d p; [reflexivity|]. cbn [finish_n]. unfold finish_copy. cbn [mo_done mo_payload mo_dst].
  rewrite Z.eqb_refl, andb_false_r. cbn [app]. apply IH.
Qed.
Theorem delivered_once : forall n m, mo_done m = true -> mo_payload m <> 0 -> mo_dst m <> 0 ->
  finish_n true (S n) m = [(mo_dst m, mo_payload m)].
Proof.
  intros n m D P B. cbn [finish_n]. unfold finish_copy. rewrite D.
  destruct (mo_payload m =? 0) eqn:E1; [lia|]. destruct (mo_dst m =? 0) eqn:E2; [lia|]. cbn [andb negb app].
  rewrite finish_n_nodst. reflexivity.
Qed.
