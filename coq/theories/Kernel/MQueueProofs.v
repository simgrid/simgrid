(** C09 — proofs about the message-queue model (SGV.Kernel.MQueue). *)
From SGV Require Import Base.PlainLia Kernel.MQueue Base.Facts.
Local Open Scope Z_scope.

Definition tagq (ty : bool) (l : list mess) : list mqent := map (pair ty) l.

(** iput and iget are one function: take the first queued request of the other kind, or else wait at the tail *)
Definition kind (o : qop) : bool := match o with QPut _ => true | QGet _ => false end.
Definition pair_of (o : qop) (c : mess) : mess * mess := if kind o then (op_mess o, c) else (c, op_mess o).
(* the entries that a search for kind [ty] passes over *)
Definition other (ty : bool) (e : mqent) : Prop := Bool.eqb (fst e) ty = false.

Lemma find_first_hit : forall ty (l1 : list mqent) c l2,
  Forall (other ty) l1 -> find_first ty (l1 ++ (ty, c) :: l2) = Some (c, l1 ++ l2).
Proof.
  induction 1 as [|e l1 E _ IH]; cbn [app find_first fst snd]; [rewrite Bool.eqb_reflx|rewrite E, IH]; reflexivity.
Qed.
Lemma find_first_miss : forall ty q, Forall (other ty) q -> find_first ty q = None.
Proof. induction 1 as [|e q E _ IH]; cbn [find_first]; [|rewrite E, IH]; reflexivity. Qed.

Lemma qstep_hit : forall o (l1 : list mqent) c l2, Forall (other (negb (kind o))) l1 ->
  qstep (l1 ++ (negb (kind o), c) :: l2) o = (l1 ++ l2, [pair_of o c]).
Proof. intros o l1 c l2 F. destruct o; cbn [qstep kind negb] in *; unfold iput, iget; rewrite (find_first_hit _ _ _ _ F); reflexivity. Qed.
Lemma qstep_miss : forall o q, Forall (other (negb (kind o))) q -> qstep q o = (q ++ [(kind o, op_mess o)], []).
Proof. intros o q F. destruct o; cbn [qstep kind negb] in *; unfold iput, iget; rewrite (find_first_miss _ _ F); reflexivity. Qed.

Lemma qstep_spec : forall q o,
  (exists (l1 : list mqent) c l2, q = l1 ++ (negb (kind o), c) :: l2 /\ Forall (other (negb (kind o))) l1 /\
                   qstep q o = (l1 ++ l2, [pair_of o c])) \/
  (Forall (other (negb (kind o))) q /\ qstep q o = (q ++ [(kind o, op_mess o)], [])).
Proof.
  intros q o. destruct (first_split (fun e => Bool.eqb (fst e) (negb (kind o))) q) as [F|(l1 & [k c] & l2 & -> & F & E)].
  - right. split; [exact F|apply qstep_miss, F].
  - left. apply Bool.eqb_prop in E. cbn in E. subst k. exists l1, c, l2. auto using qstep_hit.
Qed.

Lemma qrun_cons : forall q o t, qrun q (o :: t) =
  (fst (qrun (fst (qstep q o)) t), snd (qstep q o) ++ snd (qrun (fst (qstep q o)) t)).
Proof. intros. cbn [qrun]. destruct (qstep q o) as [q1 ev]. cbn [fst snd]. destruct (qrun q1 t). reflexivity. Qed.

(** a queue that holds requests of one kind only *)
Lemma tagq_kind : forall ty l e, In e (tagq ty l) -> fst e = ty.
Proof. intros ty l e I. apply in_map_iff in I. destruct I as (x & <- & _). reflexivity. Qed.
Lemma tagq_other : forall ty l, Forall (other (negb ty)) (tagq ty l).
Proof. intros. apply Forall_forall. intros e I. unfold other. rewrite (tagq_kind _ _ _ I). destruct ty; reflexivity. Qed.
Lemma qstep_join : forall o l, qstep (tagq (kind o) l) o = (tagq (kind o) (l ++ [op_mess o]), []).
Proof. intros. rewrite qstep_miss by apply tagq_other. unfold tagq. rewrite map_app. reflexivity. Qed.
Lemma qstep_take : forall o x l, qstep (tagq (negb (kind o)) (x :: l)) o = (tagq (negb (kind o)) l, [pair_of o x]).
Proof. intros. apply (qstep_hit o [] x). constructor. Qed.

Definition reqs (ty : bool) (ops : list qop) : list mess := if ty then puts_of ops else gets_of ops.
Lemma reqs_cons : forall ty o t, reqs ty (o :: t) = (if Bool.eqb (kind o) ty then [op_mess o] else []) ++ reqs ty t.
Proof. destruct ty, o; reflexivity. Qed.

(* [a]: all requests of one kind, [b]: all those of the other kind, both in issue order: the zip is formed, and
   what it leaves over stays queued *)
Definition zipq (ty : bool) (a b : list mess) : list mqent * list (mess * mess) :=
  if ty then (tagq true (skipn (length b) a) ++ tagq false (skipn (length a) b), combine a b)
  else (tagq true (skipn (length a) b) ++ tagq false (skipn (length b) a), combine b a).
Lemma zipq_sym : forall ty a b, zipq ty a b = zipq (negb ty) b a.
Proof. destruct ty; reflexivity. Qed.
Lemma zipq_cons : forall ty o x a b, kind o = negb ty ->
  zipq ty (x :: a) (op_mess o :: b) = (fst (zipq ty a b), pair_of o x :: snd (zipq ty a b)).
Proof. intros ty o x a b E. unfold pair_of. rewrite E. destruct ty; reflexivity. Qed.

(* the heart: the queue holds requests of one kind only, [l]; a request of that kind joins them, one of the other
   kind takes the oldest of them, or waits as the first of its kind when there is none *)
Lemma qrun_tagq : forall ops ty l, qrun (tagq ty l) ops = zipq ty (l ++ reqs ty ops) (reqs (negb ty) ops).
Proof.
  induction ops as [|o t IH]; intros ty l.
  - unfold zipq. destruct ty; cbn [qrun reqs negb puts_of gets_of length skipn combine];
      rewrite app_nil_r, skipn_nil, ?combine_nil, ?app_nil_r; reflexivity.
  - rewrite qrun_cons, !reqs_cons. destruct (Bool.eqb_spec (kind o) ty) as [<-|D].
    + rewrite qstep_join. cbn [fst snd app]. rewrite IH. destruct (kind o); cbn [negb Bool.eqb app]; rewrite <- app_assoc; reflexivity.
    + assert (ty = negb (kind o)) as -> by (revert D; destruct ty, (kind o); cbn; congruence).
      rewrite Bool.negb_involutive, Bool.eqb_reflx. destruct l as [|x l]; cbn [app].
      * change (tagq (negb (kind o)) []) with (tagq (kind o) []). rewrite qstep_join. cbn [fst snd app]. rewrite IH, <- surjective_pairing. apply zipq_sym.
      * rewrite qstep_take. cbn [fst snd app]. rewrite IH, Bool.negb_involutive, (zipq_cons _ o) by (symmetry; apply Bool.negb_involutive).
        reflexivity.
Qed.

Theorem fifo : forall ops, snd (qrun [] ops) = combine (puts_of ops) (gets_of ops).
Proof. intros. exact (f_equal snd (qrun_tagq ops true [])). Qed.

Theorem final_queue : forall ops,
  fst (qrun [] ops) = tagq true (skipn (length (gets_of ops)) (puts_of ops)) ++
                      tagq false (skipn (length (puts_of ops)) (gets_of ops)).
Proof. intros. exact (f_equal fst (qrun_tagq ops true [])). Qed.

Lemma skipn_nil_or : forall {A} (a b : list A), skipn (length b) a = [] \/ skipn (length a) b = [].
Proof.
  induction a as [|x a IH]; intros b; [left; destruct (length b); reflexivity|].
  destruct b as [|y b]; [right; reflexivity|]. cbn. apply IH.
Qed.

Theorem homogeneous : forall ops,
  let q := fst (qrun [] ops) in (forall e, In e q -> fst e = true) \/ (forall e, In e q -> fst e = false).
Proof.
  intros ops q. unfold q. rewrite final_queue.
  destruct (skipn_nil_or (puts_of ops) (gets_of ops)) as [E|E]; rewrite E; cbn [tagq map app].
  - right. intros e. apply tagq_kind.
  - left. rewrite app_nil_r. intros e. apply tagq_kind.
Qed.

Lemma combine_fst_skipn : forall {A B} (a : list A) (b : list B), map fst (combine a b) ++ skipn (length b) a = a.
Proof.
  induction a as [|x a IH]; intros b; [destruct (length b); reflexivity|]. destruct b as [|y b]; [reflexivity|].
  cbn. f_equal. apply IH.
Qed.
Lemma combine_snd_skipn : forall {A B} (a : list A) (b : list B), map snd (combine a b) ++ skipn (length a) b = b.
Proof.
  induction a as [|x a IH]; intros b; [reflexivity|]. destruct b as [|y b]; [reflexivity|]. cbn. f_equal. apply IH.
Qed.
Lemma qpending_tagq : forall ty k l, qpending ty (tagq k l) = if Bool.eqb k ty then l else [].
Proof.
  intros ty k l. unfold qpending, tagq. induction l as [|x l IH]; cbn; [destruct (Bool.eqb k ty); reflexivity|].
  destruct (Bool.eqb k ty); cbn; rewrite IH; reflexivity.
Qed.
Lemma qpending_app : forall ty a b, qpending ty (a ++ b) = qpending ty a ++ qpending ty b.
Proof. intros. unfold qpending. rewrite filter_app, map_app. reflexivity. Qed.

(* every put is delivered to exactly one get or is still queued, and symmetrically; order included *)
Theorem exactly_once : forall ops,
  let res := qrun [] ops in
  puts_of ops = map fst (snd res) ++ qpending true (fst res) /\
  gets_of ops = map snd (snd res) ++ qpending false (fst res).
Proof.
  intros ops res. unfold res. rewrite fifo, final_queue, !qpending_app, !qpending_tagq. cbn [Bool.eqb app].
  rewrite app_nil_r. split; symmetry; [apply combine_fst_skipn|apply combine_snd_skipn].
Qed.

(* k-th get <-> k-th put *)
Theorem kth : forall ops k p g,
  nth_error (snd (qrun [] ops)) k = Some (p, g) <->
  nth_error (puts_of ops) k = Some p /\ nth_error (gets_of ops) k = Some g.
Proof.
  intros ops k p g. rewrite fifo. generalize (puts_of ops) (gets_of ops). clear ops. intros a. revert k.
  induction a as [|x a IH]; intros k b; [|destruct b as [|y b]].
  1,2: cbn; destruct k; cbn; split; intros H; try discriminate; destruct H; discriminate.
  destruct k; cbn; [|apply IH]. split; [intros H; inv H; auto|intros [H1 H2]; inv H1; inv H2; reflexivity].
Qed.

Lemma zeq_list_sound : forall a b, zeq_list a b = true -> a = b.
Proof.
  induction a as [|x a IH]; destruct b as [|y b]; cbn; intros H; try discriminate; [reflexivity|].
  apply andb_prop in H. destruct H as [H1 H2]. f_equal; [lia|apply IH; exact H2].
Qed.
