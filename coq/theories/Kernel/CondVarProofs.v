(** C06 — proofs about the condition-variable model (SGV.Kernel.CondVar). *)
From SGV Require Import Base.PlainLia Base.Facts Kernel.CondVar.
Local Open Scope Z_scope.

(** * the mutex side: a grant happens only from "free" and makes the grantee the owner *)
Lemma mlock_free : forall s a k, owner s = None ->
  mlock s a k = (mkCv (Some a) (mwait s) (cwait s), [ret a k]).
Proof. intros s a k H. unfold mlock. rewrite H. reflexivity. Qed.
Lemma mlock_busy : forall s a k b, owner s = Some b ->
  mlock s a k = (mkCv (Some b) (mwait s ++ [(a, k)]) (cwait s), []).
Proof. intros s a k b H. unfold mlock. rewrite H. reflexivity. Qed.
Lemma mlock_cwait : forall s a k, cwait (fst (mlock s a k)) = cwait s.
Proof. intros. unfold mlock. destruct (owner s); reflexivity. Qed.
Lemma mlock_keeps_owner : forall s a k b, owner s = Some b ->
  owner (fst (mlock s a k)) = Some b /\ snd (mlock s a k) = [].
Proof. intros s a k b H. rewrite (mlock_busy _ _ _ _ H). split; reflexivity. Qed.
Lemma mlock_owned : forall s a k, exists b, owner (fst (mlock s a k)) = Some b.
Proof. intros. unfold mlock. destruct (owner s) eqn:O; cbn; eauto. Qed.

Lemma grants_app : forall a b, grants (a ++ b) = grants a ++ grants b.
Proof. intros. unfold grants. apply flat_map_app. Qed.
Lemma grants_ret : forall a k, grants [ret a k] = [a].
Proof. intros a [|f]; reflexivity. Qed.

(** * a wait returns only to the owner of the mutex *)
Lemma mlock_grants : forall s a k, forall x, In x (grants (snd (mlock s a k))) -> owner (fst (mlock s a k)) = Some x.
Proof.
  intros s a k x I. destruct (owner s) as [b|] eqn:O; [rewrite (mlock_busy _ _ _ _ O) in I; destruct I|].
  rewrite (mlock_free _ _ _ O) in *. cbn [fst snd] in *. rewrite grants_ret in I. destruct I as [<-|[]]. reflexivity.
Qed.
Lemma munlock_grants : forall s x, In x (grants (snd (munlock s))) -> owner (fst (munlock s)) = Some x.
Proof.
  intros s x I. unfold munlock in *. destruct (mwait s) as [|[b k] r]; cbn [fst snd] in *; [destruct I|].
  rewrite grants_ret in I. destruct I as [<-|[]]. reflexivity.
Qed.

Theorem notify_one_lost : forall s, cwait s = [] -> signal s = (s, []).
Proof. intros s H. unfold signal. rewrite H. reflexivity. Qed.

Theorem notify_one_wakes_head : forall s a t r, cwait s = (a, t) :: r ->
  let s' := fst (signal s) in let o := snd (signal s) in
  cwait s' = r /\
  match owner s with
  | None => owner s' = Some a /\ mwait s' = mwait s /\ o = [WaitReturn a false]
  | Some b => owner s' = Some b /\ mwait s' = mwait s ++ [(a, MRelock false)] /\ o = []
  end.
Proof.
  intros s a t r H. unfold signal. rewrite H. unfold mlock. cbn [owner mwait cwait].
  destruct (owner s) as [b|]; cbn; repeat split; reflexivity.
Qed.

Definition relockers (l : list (Z * option Z)) : list (Z * mkind) := map (fun w => (fst w, MRelock false)) l.

Lemma broadcast_busy : forall cw n b mw, (length cw <= n)%nat ->
  broadcast_n n (mkCv (Some b) mw cw) = (mkCv (Some b) (mw ++ relockers cw) [], []).
Proof.
  induction cw as [|[a t] r IH]; intros n b mw L.
  - destruct n; cbn; rewrite app_nil_r; reflexivity.
  - destruct n as [|n]; [cbn in L; lia|]. cbn [broadcast_n cwait]. unfold signal, mlock. cbn [cwait owner mwait].
    rewrite IH by (cbn in L; lia). cbn [relockers map fst app]. rewrite <- app_assoc. reflexivity.
Qed.

Theorem notify_all_wakes_all : forall s,
  let s' := fst (broadcast s) in let o := snd (broadcast s) in
  cwait s' = [] /\
  match owner s, cwait s with
  | Some b, l => owner s' = Some b /\ mwait s' = mwait s ++ relockers l /\ o = []
  | None, [] => s' = s /\ o = []
  | None, (a, _) :: r => owner s' = Some a /\ mwait s' = mwait s ++ relockers r /\ o = [WaitReturn a false]
  end.
Proof.
  intros [[b|] mw cw]; unfold broadcast; cbn [cwait owner mwait].
  - rewrite broadcast_busy by apply le_n. cbn. repeat split; reflexivity.
  - destruct cw as [|[a t] r]; [cbn; repeat split; reflexivity|].
    cbn [length broadcast_n cwait]. unfold signal, mlock. cbn [cwait owner mwait].
    rewrite broadcast_busy by apply le_n. cbn. repeat split; reflexivity.
Qed.

Lemma pick_spec : forall d l,
  match pick d l with
  | None => Forall (fun w => overdue d w = false) l
  | Some (w, rest) => exists l1 l2, l = l1 ++ w :: l2 /\ rest = l1 ++ l2 /\ overdue d w = true /\
                                    Forall (fun w' => overdue d w' = true -> dl w <= dl w') l
  end.
Proof.
  induction l as [|w r IH]; cbn [pick]; [constructor|].
  destruct (pick d r) as [[w' r']|].
  - destruct IH as (l1 & l2 & E & E' & O & M).
    destruct (overdue d w && (dl w <=? dl w')) eqn:C.
    + apply andb_prop in C. destruct C as [C1 C2]. exists [], r. repeat split; auto.
      constructor; [lia|]. eapply Forall_impl; [|exact M]. cbn. intros x H Hx. specialize (H Hx). lia.
    + exists (w :: l1), l2. subst. repeat split; auto. constructor; [|exact M]. intros Hw. rewrite Hw in C. cbn in C. lia.
  - destruct (overdue d w) eqn:C.
    + exists [], r. repeat split; auto. constructor; [lia|]. eapply Forall_impl; [|exact IH]. cbn. intros x H Hx. congruence.
    + constructor; assumption.
Qed.

Definition keep (d : Z) (l : list (Z * option Z)) := filter (fun w => negb (overdue d w)) l.

Lemma fire_n_S : forall n d s,
  fire_n (S n) d s =
  match pick d (cwait s) with
  | None => (s, [])
  | Some (w, rest) =>
      let m := mlock (mkCv (owner s) (mwait s) rest) (fst w) (MRelock true) in
      (fst (fire_n n d (fst m)), snd m ++ snd (fire_n n d (fst m)))
  end.
Proof.
  intros. cbn [fire_n]. destruct (pick d (cwait s)) as [[w rest]|]; [|reflexivity].
  destruct (mlock _ _ _) as [s1 o1]. cbn [fst snd]. destruct (fire_n n d s1). reflexivity.
Qed.

(* after the timers, the queue is exactly the waiters whose deadline is still ahead, in the same order *)
Lemma fire_n_cwait : forall n d s, (length (cwait s) <= n)%nat -> cwait (fst (fire_n n d s)) = keep d (cwait s).
Proof.
  induction n as [|n IH]; intros d s L.
  - destruct (cwait s) eqn:E; [cbn; rewrite E; reflexivity|cbn in L; lia].
  - rewrite fire_n_S. pose proof (pick_spec d (cwait s)) as P. destruct (pick d (cwait s)) as [[w rest]|].
    + destruct P as (l1 & l2 & E & E' & O & _). cbn [fst]. rewrite E in *. rewrite IH; rewrite mlock_cwait; cbn [cwait]; subst rest.
      * unfold keep. rewrite !filter_app. cbn [filter]. rewrite O. reflexivity.
      * rewrite app_length in *. cbn in L. lia.
    + symmetry. apply filter_all. eapply Forall_impl; [|exact P]. intros x ->. reflexivity.
Qed.

Theorem timers_fire_exactly_when_due : forall d s, cwait (fst (fire d s)) = keep d (cwait s).
Proof. intros. unfold fire. apply fire_n_cwait. apply le_n. Qed.

Theorem no_overdue_waiter_after_timers : forall d s w, In w (cwait (fst (fire d s))) -> overdue d w = false.
Proof.
  intros d s w I. rewrite timers_fire_exactly_when_due in I. unfold keep in I. apply filter_In in I.
  destruct I as [_ I]. apply negb_true_iff in I. exact I.
Qed.

(** * who may be told "timeout" and who "no timeout": the flag is fixed when the waiter leaves the queue *)
Definition flag_ok (f : bool) (x : out) : Prop := match x with WaitReturn _ g => g = f | Acquired _ => False | Error => True end.
Definition qflag_ok (f : bool) (e : Z * mkind) : Prop := snd e = MRelock f.

Lemma fire_n_flags : forall n d s,
  Forall (flag_ok true) (snd (fire_n n d s)) /\
  exists added, mwait (fst (fire_n n d s)) = mwait s ++ added /\ Forall (qflag_ok true) added.
Proof.
  induction n as [|n IH]; intros d s; [|rewrite fire_n_S; destruct (pick d (cwait s)) as [[w rest]|]]; cbn [fire_n fst snd].
  1,3: split; [constructor|]; exists []; rewrite app_nil_r; split; [reflexivity | constructor].
  destruct (owner s) as [b|].
  - rewrite (mlock_busy _ _ _ b) by reflexivity. cbn [fst snd app owner mwait cwait].
    destruct (IH d (mkCv (Some b) (mwait s ++ [(fst w, MRelock true)]) rest)) as (A & added & B & C). split; [exact A|].
    exists ((fst w, MRelock true) :: added). rewrite B. cbn [mwait]. rewrite <- app_assoc.
    split; [reflexivity | constructor; [reflexivity | exact C]].
  - rewrite mlock_free by reflexivity. cbn [fst snd app owner mwait cwait].
    destruct (IH d (mkCv (Some (fst w)) (mwait s) rest)) as (A & added & B & C).
    split; [constructor; [reflexivity | exact A] | exists added; split; assumption].
Qed.

Theorem notify_reports_no_timeout : forall s,
  Forall (flag_ok false) (snd (signal s)) /\ Forall (flag_ok false) (snd (broadcast s)) /\
  (exists added, mwait (fst (broadcast s)) = mwait s ++ added /\ Forall (qflag_ok false) added).
Proof.
  intros s. split.
  - unfold signal. destruct (cwait s) as [|[a t] r]; [constructor|]. unfold mlock. cbn [owner].
    destruct (owner s); cbn; repeat constructor.
  - pose proof (notify_all_wakes_all s) as (_ & H). cbn zeta in H.
    assert (R : forall l, Forall (qflag_ok false) (relockers l)) by (induction l; constructor; [reflexivity|assumption]).
    destruct (owner s) as [b|]; [|destruct (cwait s) as [|[a t] r]].
    + destruct H as (_ & -> & ->). split; [constructor | eexists; split; [reflexivity | apply R]].
    + destruct H as [-> ->]. split; [constructor | exists []; rewrite app_nil_r; split; [reflexivity | constructor]].
    + destruct H as (_ & -> & ->). split; [repeat constructor | eexists; split; [reflexivity | apply R]].
Qed.

(* the flag a wait returns with is the one written in the mutex queue when it left the condition's queue *)
Theorem unlock_returns_queued_flag : forall s b k r, mwait s = (b, k) :: r ->
  snd (munlock s) = [ret b k] /\ owner (fst (munlock s)) = Some b.
Proof. intros s b k r H. unfold munlock. rewrite H. split; reflexivity. Qed.

(* while the mutex is held the timers grant nothing *)
Lemma fire_n_busy : forall n d s b, owner s = Some b ->
  owner (fst (fire_n n d s)) = Some b /\ snd (fire_n n d s) = [].
Proof.
  induction n as [|n IH]; intros d s b O; [split; [exact O|reflexivity]|]. rewrite fire_n_S.
  destruct (pick d (cwait s)) as [[w rest]|]; [|split; [exact O|reflexivity]].
  destruct (mlock_keeps_owner (mkCv (owner s) (mwait s) rest) (fst w) (MRelock true) b O) as [O1 E1].
  cbn [fst snd]. rewrite E1. exact (IH d _ b O1).
Qed.

(* only the first timer can find the mutex free *)
Theorem timers_return_to_owner : forall d s x, In x (grants (snd (fire d s))) -> owner (fst (fire d s)) = Some x.
Proof.
  intros d s x. unfold fire. destruct (length (cwait s)) as [|n]; [intros []|]. rewrite fire_n_S.
  destruct (pick d (cwait s)) as [[w rest]|]; [|intros []]. cbn [fst snd].
  destruct (mlock_owned (mkCv (owner s) (mwait s) rest) (fst w) (MRelock true)) as [b Hb].
  destruct (fire_n_busy n d _ b Hb) as [-> ->]. rewrite app_nil_r. intros I. apply mlock_grants in I. congruence.
Qed.

Theorem request_returns_to_owner : forall dlf s d o x,
  In x (grants (snd (apply_op dlf s d o))) -> owner (fst (apply_op dlf s d o)) = Some x.
Proof.
  intros dlf s d o x I. destruct o as [a|a|a t| | |]; cbn [apply_op] in *.
  - apply mlock_grants. exact I.
  - destruct (is_owner s a); [|destruct I]. apply munlock_grants. exact I.
  - destruct (is_owner s a); [|destruct I]. pose proof (munlock_grants s x) as G.
    destruct (munlock s) as [s1 o1]. cbn [fst snd owner] in *. auto.
  - unfold signal in *. destruct (cwait s) as [|[a t] r]; [destruct I|]. apply mlock_grants. exact I.
  - pose proof (notify_all_wakes_all s) as (_ & H). cbn zeta in H. destruct (owner s) as [b|].
    + destruct H as (_ & _ & E). rewrite E in I. destruct I.
    + destruct (cwait s) as [|[a t] r]; [destruct H as [_ E]; rewrite E in I; destruct I|].
      destruct H as (O & _ & E). rewrite E in I. cbn in I. destruct I as [<-|[]]. exact O.
  - destruct I.
Qed.

(** * wait_for(0): the pinned kernel never arms the timer *)
Definition cz_hist : list (Z * cop) := [(0, CLock 1); (0, CWait 1 (Some 0)); (100, CTick)].
