(** C10 — proofs about SGV.Kernel.Fail: what [expected] answers for a live actor, that an observation the log oracle
    accepts satisfies the clauses of the property, and that the oracle accepts what the model predicts. *)
From SGV Require Import Base.PlainLia Kernel.Fail.
Local Open Scope Z_scope.

Lemma uses_no_wait : forall f, uses f no_wait = false.
Proof. intros [h|l]; reflexivity. Qed.

Lemma expected_alive : forall f a, a_alive a = true ->
  expected f a = if on_failed_host f a then 1 else if uses f (a_wait a) then (if w_kind (a_wait a) =? 4 then 2 else 3) else 0.
Proof. intros f a Ha. unfold expected. rewrite Ha. reflexivity. Qed.

(** after the failure has been handled, no live actor is still registered on an activity that uses the off resource *)
Theorem all_waiters_answered : forall f a, a_alive (post f a) = true -> uses f (a_wait (post f a)) = false.
Proof.
  intros f a. unfold post. destruct (a_alive a) eqn:Ea.
  - rewrite (expected_alive f a Ea). destruct (on_failed_host f a); cbn; [discriminate|].
    destruct (uses f (a_wait a)) eqn:Eu.
    + destruct (w_kind (a_wait a) =? 4); cbn; intros _; apply uses_no_wait.
    + intros _. exact Eu.
  - unfold expected. rewrite Ea. cbn. rewrite Ea. discriminate.
Qed.

(** which exception a surviving waiter gets *)
Theorem exception_kind : forall f a, a_alive a = true -> on_failed_host f a = false -> uses f (a_wait a) = true ->
  (w_kind (a_wait a) = 4 -> expected f a = 2) /\ (w_kind (a_wait a) <> 4 -> expected f a = 3).
Proof.
  intros f a Ha Hh Hu. rewrite (expected_alive f a Ha), Hh, Hu.
  destruct (Z.eqb_spec (w_kind (a_wait a)) 4); split; intros H; [reflexivity|contradiction|contradiction|reflexivity].
Qed.

(** only comms, execs and sleeps use resources; an exec/sleep waiter that survives waits for a remote execution *)
Theorem uses_kinds : forall f w, uses f w = true -> w_kind w = 4 \/ w_kind w = 1 \/ w_kind w = 2.
Proof.
  intros f w. unfold uses. destruct (Z.eqb_spec (w_kind w) 4) as [E|_]; [auto|]. destruct f as [h|l]; [|discriminate].
  destruct (Z.eqb_spec (w_kind w) 1) as [E|_]; [auto|]. destruct (Z.eqb_spec (w_kind w) 2) as [E|_]; [auto|discriminate].
Qed.

(** actors of the failed host are killed (their on_exit callbacks then see failed = true: ActorImpl::cleanup_from_self
    passes wannadie(), which exit() has set) and nobody else is *)
Theorem killed_iff_on_failed_host : forall f a, a_alive a = true -> (expected f a = 1 <-> on_failed_host f a = true).
Proof.
  intros f a Ha. rewrite (expected_alive f a Ha). destruct (on_failed_host f a); [split; reflexivity|].
  destruct (uses f (a_wait a)); [destruct (w_kind (a_wait a) =? 4)|]; split; intros; discriminate.
Qed.

(** nobody goes on normally through an off resource: a live actor blocked on an activity that uses the resource that goes
    off is killed or served an exception, whatever its host *)
Theorem no_success_through_off : forall f a, a_alive a = true -> uses f (a_wait a) = true ->
  expected f a = 1 \/ expected f a = 2 \/ expected f a = 3.
Proof.
  intros f a Ha Hu. rewrite (expected_alive f a Ha), Hu.
  destruct (on_failed_host f a); [|destruct (w_kind (a_wait a) =? 4)]; auto.
Qed.

(** the oracle is sound: an accepted observation satisfies the four clauses of the property for every actor *)
Definition clause_ok (f : fault) (o : obs) : Prop :=
  let a := o_actor o in
  (a_alive a = true -> on_failed_host f a = true -> o_killed o = true /\ o_failed o = true) /\
  (a_alive a = true -> on_failed_host f a = false -> uses f (a_wait a) = true ->
     (w_kind (a_wait a) = 4 -> o_exc o = 1) /\ (w_kind (a_wait a) <> 4 -> o_exc o = 2)) /\
  (w_kind (o_end o) <> 0 -> uses f (o_end o) = false) /\
  (a_alive a = true -> uses f (a_wait a) = true -> o_done o = false).

(* [verdict] is a cascade of tests; it answers 0 only below the last one, each test on the way having failed *)
Lemma verdict_sound : forall f o, verdict f o = 0 -> clause_ok f o.
Proof.
  intros f o H. unfold verdict in H. unfold clause_ok. cbn zeta in *.
  destruct (uses f (o_end o) && negb (w_kind (o_end o) =? 0)) eqn:E5; [discriminate|].
  assert (C3 : w_kind (o_end o) <> 0 -> uses f (o_end o) = false).
  { intros Hk. apply Z.eqb_neq in Hk. rewrite Hk, andb_true_r in E5. exact E5. }
  destruct (a_alive (o_actor o)); [cbn [negb] in H|repeat split; try exact C3; intros; discriminate].
  destruct (uses f (a_wait (o_actor o)) && o_done o) eqn:E6; [discriminate|].
  assert (C4 : uses f (a_wait (o_actor o)) = true -> o_done o = false) by (intros Hu; rewrite Hu in E6; exact E6).
  destruct (on_failed_host f (o_actor o)).
  - destruct (o_killed o); [|discriminate]. destruct (o_failed o); [|discriminate].
    repeat split; auto; intros; discriminate.
  - split; [intros; discriminate|]. split; [|auto]. intros _ _ Hu. rewrite Hu in H.
    destruct (o_exc o =? 0); [discriminate|].
    destruct (Z.eqb_spec (w_kind (a_wait (o_actor o))) 4); [destruct (Z.eqb_spec (o_exc o) 1)|destruct (Z.eqb_spec (o_exc o) 2)];
      try discriminate; split; intros; auto; contradiction.
Qed.

Theorem oracle_sound : forall f l, failure_log_ok f l = true -> Forall (clause_ok f) l.
Proof.
  intros f l H. unfold failure_log_ok in H. rewrite forallb_forall in H. apply Forall_forall. intros o Ho.
  apply verdict_sound, Z.eqb_eq, H, Ho.
Qed.

(** the oracle rejects every observation in which an activity using the off resource completed successfully *)
Theorem oracle_rejects_success_through_off : forall f o, a_alive (o_actor o) = true -> uses f (a_wait (o_actor o)) = true ->
  o_done o = true -> verdict f o <> 0.
Proof.
  intros f o Ha Hu Hd E. destruct (verdict_sound f o E) as (_ & _ & _ & H). rewrite (H Ha Hu) in Hd. discriminate.
Qed.

(** what the model predicts is accepted by the oracle (so the two agree, and the oracle is not vacuous) *)
Definition obs_of_model (f : fault) (a : actor) : obs :=
  mkObs a (expected f a =? 1) (expected f a =? 1) (if expected f a =? 2 then 1 else if expected f a =? 3 then 2 else 0) false no_wait.
Theorem model_passes_oracle : forall f l, failure_log_ok f (map (obs_of_model f) l) = true.
Proof.
  intros f l. unfold failure_log_ok. rewrite forallb_forall. intros o Ho. apply in_map_iff in Ho. destruct Ho as [a [<- _]].
  unfold verdict, obs_of_model. cbn [o_actor o_end o_killed o_failed o_exc o_done]. rewrite uses_no_wait. cbn [andb].
  rewrite Bool.andb_false_r.
  unfold expected. destruct (a_alive a); cbn [negb]; [|reflexivity].
  destruct (on_failed_host f a); [reflexivity|]. destruct (uses f (a_wait a)); [|reflexivity].
  destruct (w_kind (a_wait a) =? 4); reflexivity.
Qed.
