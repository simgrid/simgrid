(** [Base.Tactics] installs [Z.div_mod_to_equations] as the post-hook of [zify], so that [lia] decides goals with
    [/] and [mod]; the price is paid by every [lia] whose context merely mentions a quotient.  Proof files whose
    arithmetic needs no such elimination import this file, which takes the hook out again; a proof that does need a
    quotient eliminated calls [Z.div_mod_to_equations] itself before [lia]. *)
From SGV Require Export Base.Tactics.
Ltac Zify.zify_post_hook ::= idtac.
