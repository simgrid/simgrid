(** Facts about lists, about the integer interval [0, n) and about quotients that the proofs of several directories use. *)
From SGV Require Import Base.PlainLia.
From Coq Require Import FinFun.
Local Open Scope Z_scope.

Lemma fold_left_inv : forall {S O : Type} (f : S -> O -> S) (I : S -> Prop),
  (forall s o, I s -> I (f s o)) -> forall ops s, I s -> I (fold_left f ops s).
Proof. intros S O f I Hf. induction ops as [|o r IH]; intros s Hs; cbn; auto. Qed.

(** "Is there an entry with key [p]", as the models write it. *)
Lemma existsb_eqb_In : forall {A : Type} (k : A -> Z) (p : Z) (q : list A),
  existsb (fun e => k e =? p) q = true <-> In p (map k q).
Proof.
  intros A k p q. rewrite existsb_exists, in_map_iff.
  split; intros (e & H1 & H2); exists e; [apply Z.eqb_eq in H2 | apply Z.eqb_eq in H1]; auto.
Qed.

(* Every "std::find_if + erase" of the models scans for the first entry with [P]: either there is none, or the
   list splits around it. *)
Lemma first_split : forall {A} (P : A -> bool) q,
  Forall (fun e => P e = false) q \/
  exists l1 x l2, q = l1 ++ x :: l2 /\ Forall (fun e => P e = false) l1 /\ P x = true.
Proof.
  induction q as [|e q IH]; [left; constructor|]. destruct (P e) eqn:E.
  - right. exists [], e, q. auto.
  - destruct IH as [N|(l1 & x & l2 & -> & N & Px)]; [left; constructor; assumption|].
    right. exists (e :: l1), x, l2. auto.
Qed.

Lemma Forall_filter : forall {A} (P : A -> Prop) f l, Forall P l -> Forall P (filter f l).
Proof. intros A P f l H. rewrite Forall_forall in *. intros x I. apply filter_In in I. apply H, I. Qed.

Lemma filter_all : forall {A} (f : A -> bool) l, Forall (fun x => f x = true) l -> filter f l = l.
Proof. induction 1 as [|x l E _ IH]; [reflexivity|]. cbn. rewrite E, IH. reflexivity. Qed.

Lemma filter_none : forall {A} (f : A -> bool) l, Forall (fun x => f x = false) l -> filter f l = [].
Proof. induction 1 as [|x l E _ IH]; [reflexivity|]. cbn. rewrite E. exact IH. Qed.

Lemma filter_filter : forall {A} (f g : A -> bool) l, filter f (filter g l) = filter (fun x => g x && f x) l.
Proof.
  induction l as [|x l IH]; [reflexivity|]. cbn. destruct (g x); cbn; [destruct (f x)|]; rewrite ?IH; reflexivity.
Qed.

Lemma filter_map_comm : forall (A B : Type) (f : B -> bool) (h : A -> B) l,
  filter f (map h l) = map h (filter (fun x => f (h x)) l).
Proof. induction l as [|x l IH]; cbn [map filter]; [reflexivity|]. destruct (f (h x)); cbn [map]; rewrite IH; reflexivity. Qed.

Lemma filter_flat_map {A B} (f : B -> bool) (g : A -> list B) l :
  filter f (flat_map g l) = flat_map (fun x => filter f (g x)) l.
Proof. induction l; simpl; [reflexivity|]. now rewrite filter_app, IHl. Qed.

Lemma flat_map_one {A B} (g : A -> list B) (a : A -> B) l :
  Forall (fun x => g x = [a x]) l -> flat_map g l = map a l.
Proof. induction 1 as [|x r Hx _ IH]; simpl; [reflexivity|]. now rewrite Hx, IH. Qed.

Lemma incl_elt : forall {A} (e : A) l1 l2, incl (l1 ++ l2) (l1 ++ e :: l2).
Proof. intros. apply incl_app_app; [apply incl_refl|apply incl_tl, incl_refl]. Qed.

(** [NoDup] and [++] (the library of this release has no [NoDup_app]) *)
Lemma NoDup_snoc : forall {A : Type} (l : list A) (x : A), NoDup l -> ~ In x l -> NoDup (l ++ [x]).
Proof. intros A l x Hl Hx. apply (NoDup_Add (Add_app x l [])). rewrite app_nil_r. auto. Qed.

Lemma NoDup_map_inj : forall {A B} (f : A -> B) l a b, NoDup (map f l) -> In a l -> In b l -> f a = f b -> a = b.
Proof.
  induction l as [|x l IH]; cbn; intros a b ND Ha Hb E; [contradiction|].
  inversion ND as [|? ? Hn Hd]; subst.
  destruct Ha as [->|Ha], Hb as [->|Hb]; auto; exfalso; apply Hn; [rewrite E|rewrite <- E]; now apply in_map.
Qed.

Lemma NoDup_app_disj : forall (A : Type) (a b : list A),
  NoDup a -> NoDup b -> (forall x, In x a -> ~ In x b) -> NoDup (a ++ b).
Proof.
  induction a as [|x a IH]; intros b Ha Hb Hd; [assumption|]. inv Ha. cbn [app]. constructor.
  - rewrite in_app_iff. intros [H|H]; [contradiction|]. apply (Hd x); [left; reflexivity|assumption].
  - apply IH; try assumption. intros y Hy. apply Hd. right. assumption.
Qed.

Lemma nodup_app_l : forall {A} (a b : list A), NoDup (a ++ b) -> NoDup a.
Proof.
  intros A a. induction b as [|x b IH]; intros H; [rewrite app_nil_r in H; exact H|]. apply IH. eapply NoDup_remove_1. exact H.
Qed.
Lemma nodup_app_disj : forall {A} (a b : list A) x, NoDup (a ++ b) -> In x a -> In x b -> False.
Proof.
  intros A a b x N Ia Ib. apply in_split in Ia. destruct Ia as (a1 & a2 & ->). rewrite <- app_assoc in N.
  apply NoDup_remove_2 in N. apply N. rewrite !in_app_iff. auto.
Qed.

(** * the interval [0, n)
    The models define it several times ([Group.zseq], [Topo.zseq], ...) with the body [map Z.of_nat (seq 0 (Z.to_nat n))];
    the lemmas are stated on that body and apply to each by conversion (after [unfold zseq] where a [rewrite] has to
    find it). *)
Lemma In_zseq : forall n x, In x (map Z.of_nat (seq 0 (Z.to_nat n))) <-> 0 <= x < n.
Proof.
  intros n x. rewrite in_map_iff. split.
  - intros [k [Hk Hin]]. apply in_seq in Hin. lia.
  - intros Hx. exists (Z.to_nat x). split; [lia|]. apply in_seq. lia.
Qed.

Lemma NoDup_zseq : forall n : nat, NoDup (map Z.of_nat (seq 0 n)).
Proof. intros n. apply Injective_map_NoDup; [exact Nat2Z.inj|apply seq_NoDup]. Qed.

Lemma zseq_S : forall n : nat, map Z.of_nat (seq 0 (S n)) = 0 :: map Z.succ (map Z.of_nat (seq 0 n)).
Proof. intros n. cbn [seq map]. rewrite <- seq_shift, !map_map. f_equal. apply map_ext, Nat2Z.inj_succ. Qed.

Lemma zseq_app : forall a b, 0 <= a -> 0 <= b ->
  map Z.of_nat (seq 0 (Z.to_nat (a + b))) =
  map Z.of_nat (seq 0 (Z.to_nat a)) ++ map (Z.add a) (map Z.of_nat (seq 0 (Z.to_nat b))).
Proof.
  intros a b Ha Hb. rewrite Z2Nat.inj_add, seq_app, map_app by assumption. f_equal.
  assert (E : forall n s, map Z.of_nat (seq (Z.to_nat a + s) n) = map (fun i => a + Z.of_nat i) (seq s n)).
  { induction n as [|n IH]; intros s; cbn [seq map]; [reflexivity|]. rewrite plus_n_Sm, IH. f_equal. lia. }
  rewrite map_map, <- E, Nat.add_0_r. reflexivity.
Qed.

(** * quotient and remainder of a two-digit number *)
Lemma divmod_pair a b m : 0 <= b < m -> (a * m + b) / m = a /\ (a * m + b) mod m = b.
Proof.
  intros H. split; symmetry; [apply Z.div_unique_pos with b | apply Z.mod_unique_pos with a]; (exact H || ring).
Qed.

Lemma divmod_range r a m : 0 < m -> 0 <= r < a * m ->
  0 <= r / m < a /\ 0 <= r mod m < m /\ r = r / m * m + r mod m.
Proof.
  intros Hm [H0 H1]. split; [|split].
  - split; [apply Z.div_pos; assumption|]. apply Z.div_lt_upper_bound; [assumption|]. now rewrite Z.mul_comm.
  - apply Z.mod_pos_bound, Hm.
  - rewrite Z.mul_comm. apply Z_div_mod_eq_full.
Qed.
