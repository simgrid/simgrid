(** C26 — proofs about the fat-tree model of Routing/FatTree.v.

    [TabOK] is what get_local_route relies on about the tables; [tab_ok] (a boolean function, run on every tied
    instance by the extracted model) decides it: [tab_ok_sound].  Under [TabOK], for ALL parameter vectors accepted by
    check_topology and all pairs of compute nodes, the walk of get_local_route goes up exactly to the level of the
    nearest common ancestors and then down to the destination: [ft_up_down]. *)
From SGV Require Import Base.PlainLia Base.Facts Routing.Torus Routing.FatTree.
Local Open Scope Z_scope.

Lemma leqb_eq a : forall b, leqb a b = true <-> a = b.
Proof.
  induction a as [|x r IH]; intros [|y s]; simpl; try easy.
  rewrite andb_true_iff, Z.eqb_eq, IH. split; [intros [-> ->]; reflexivity | intros H; now inv H].
Qed.

Lemma set_nth_length j v : forall l, length (set_nth j v l) = length l.
Proof. induction j; intros [|x r]; simpl; auto. Qed.

Lemma nthz_set_nth_other j v : forall l i, i <> j -> nthz (set_nth j v l) i = nthz l i.
Proof.
  unfold nthz. induction j; intros [|x r] i Hi; simpl; auto.
  - destruct i; [congruence|reflexivity].
  - destruct i; [reflexivity|]. apply IHj. congruence.
Qed.

Lemma nthz_set_nth_same j v : forall l, (j < length l)%nat -> nthz (set_nth j v l) j = v.
Proof.
  unfold nthz. induction j; intros [|x r] H; simpl in *; try lia; auto. apply IHj. lia.
Qed.

Lemma agree_from_spec L l a b :
  agree_from L l a b = true <-> (forall i, (l <= i < L)%nat -> nthz a i = nthz b i).
Proof.
  unfold agree_from. rewrite forallb_forall. split.
  - intros H i Hi. apply Z.eqb_eq. apply H. apply in_seq. lia.
  - intros H i Hi. apply in_seq in Hi. apply Z.eqb_eq. apply H. lia.
Qed.

Lemma in_sub_tree_leaf L w x : fn_level x = 0%nat ->
  in_sub_tree L w x = true <-> (1 <= fn_level w)%nat /\ agree_from L (fn_level w) (fn_label w) (fn_label x) = true.
Proof.
  intros H. unfold in_sub_tree, agree_from. rewrite H. simpl seq. cbn [forallb andb].
  destruct (Nat.leb_spec (fn_level w) 0); [split; [discriminate | lia] | tauto].
Qed.

Lemma nthz_pos l : Forall (fun d => 0 < d) l -> forall i, (i < length l)%nat -> 0 < nthz l i.
Proof. intros F i Hi. now apply (Forall_nth (fun d => 0 < d) l). Qed.

Lemma forallb_pos l : forallb (fun x => 0 <? x) l = true -> Forall (fun d => 0 < d) l.
Proof. rewrite forallb_forall, Forall_forall. intros H x Hx. now apply Z.ltb_lt, H. Qed.

Lemma nca_level_spec L a b : (1 <= L)%nat ->
  let k := nca_level L a b in
  (1 <= k <= L)%nat /\ agree_from L k a b = true /\ (forall l, (1 <= l < k)%nat -> agree_from L l a b = false).
Proof.
  intros HL. unfold nca_level.
  assert (G : forall n st, match find (fun l => agree_from L l a b) (seq st n) with
                           | Some l => (st <= l < st + n)%nat /\ agree_from L l a b = true /\
                                       (forall l', (st <= l' < l)%nat -> agree_from L l' a b = false)
                           | None => forall l', (st <= l' < st + n)%nat -> agree_from L l' a b = false
                           end).
  { induction n as [|n IH]; intros st; simpl; [intros; lia|].
    destruct (agree_from L st a b) eqn:E; [split; [lia|]; split; [exact E | intros; lia]|].
    specialize (IH (S st)). destruct (find _ (seq (S st) n)) as [l|].
    - destruct IH as (A & B & C). split; [lia|]. split; [exact B|].
      intros l' Hl'. destruct (Nat.eq_dec l' st) as [->|]; [exact E | apply C; lia].
    - intros l' Hl'. destruct (Nat.eq_dec l' st) as [->|]; [exact E | apply IH; lia]. }
  specialize (G L 1%nat). destruct (find _ (seq 1 L)) as [l|].
  - destruct G as (A & B & C). split; [lia|]. now split.
  - split; [lia|]. split; [apply agree_from_spec; intros; lia | intros l Hl; apply G; lia].
Qed.

Lemma next_match_mod c lab i : 0 < c -> 0 <= lab < c -> next_match c lab i mod c = lab.
Proof.
  intros Hc Hl. unfold next_match. rewrite Zplus_mod_idemp_r, Zplus_minus. now apply Z.mod_small.
Qed.

Lemma next_match_bounds c lab i : 0 < c -> i <= next_match c lab i < i + c.
Proof. intros Hc. unfold next_match. pose proof (Z.mod_pos_bound (lab - i) c Hc). lia. Qed.

Section Tables.
Variable p : ftp.
Variable tb : fttab.
Let L := ft_levels p.
Let N := length (tb_nodes tb).
Let N0 := Z.to_nat (prodz (ft_cs p)).
Let lvl (x : nat) := fn_level (node tb x).
Let lab (x : nat) := fn_label (node tb x).

Record TabOK : Prop := {
  ok_level : forall x, (x < N)%nat -> (lvl x <= L)%nat /\ (lvl x = 0%nat -> (x < N0)%nat);
  ok_parent : forall x, (x < N)%nat -> (lvl x < L)%nat ->
    forall q, 0 <= q < nthz (ft_ps p) (lvl x) * nthz (ft_ns p) (lvl x) ->
    exists lk, parent_link tb x q = Some lk /\ fl_child lk = x /\ (fl_parent lk < N)%nat /\
               lvl (fl_parent lk) = S (lvl x) /\
               lab (fl_parent lk) = set_nth (lvl x) (q mod nthz (ft_ps p) (lvl x)) (lab x);
  ok_child : forall x, (x < N)%nat -> forall l1, lvl x = S l1 ->
    forall i, 0 <= i < nthz (ft_cs p) l1 * nthz (ft_ns p) l1 ->
    exists lk, child_link tb x i = Some lk /\ fl_parent lk = x /\ (fl_child lk < N)%nat /\
               lvl (fl_child lk) = l1 /\
               lab (fl_child lk) = set_nth l1 (i mod nthz (ft_cs p) l1) (lab x);
  ok_n0 : (N0 <= N)%nat;
  ok_leaf : forall x, (x < N0)%nat ->
    lvl x = 0%nat /\ fn_pos (node tb x) = Z.of_nat x /\ fn_id (node tb x) = Z.of_nat x /\ length (lab x) = L /\
    (forall j, (j < L)%nat -> 0 <= nthz (lab x) j < nthz (ft_cs p) j);
  ok_inj : forall x y, (x < N0)%nat -> (y < N0)%nat -> lab x = lab y -> x = y
}.

Lemma tab_ok_sound : tab_ok p tb = true -> TabOK.
Proof.
  unfold tab_ok. fold L N N0. intros [[H1 H2%Nat.leb_le]%andb_prop H3]%andb_prop. rewrite forallb_forall in H1, H3.
  assert (P1 : forall x, (x < N)%nat -> In x (seq 0 N)) by (intros; apply in_seq; lia).
  assert (P0 : forall x, (x < N0)%nat -> In x (seq 0 N0)) by (intros; apply in_seq; lia).
  constructor.
  - intros x Hx. specialize (H1 x (P1 x Hx)). fold (lvl x) in H1.
    apply andb_prop in H1 as [[[A B%Nat.leb_le]%andb_prop _]%andb_prop _]. split; [exact B|].
    intros E. rewrite E in A. now apply Nat.ltb_lt in A.
  - intros x Hx Hl q Hq. specialize (H1 x (P1 x Hx)). fold (lvl x) (lab x) in H1.
    apply andb_prop in H1 as [[_ H1]%andb_prop _]. rewrite (proj2 (Nat.ltb_lt _ _) Hl), forallb_forall in H1.
    specialize (H1 q (proj2 (In_zseq _ q) Hq)).
    destruct (parent_link tb x q) as [lk|]; [|discriminate]. exists lk.
    apply andb_prop in H1 as [[[A%Nat.eqb_eq B%Nat.ltb_lt]%andb_prop C%Nat.eqb_eq]%andb_prop D%leqb_eq]. auto 6.
  - intros x Hx l1 Hl i Hi. specialize (H1 x (P1 x Hx)). fold (lvl x) (lab x) in H1.
    apply andb_prop in H1 as [_ H1]. rewrite Hl, forallb_forall in H1.
    specialize (H1 i (proj2 (In_zseq _ i) Hi)).
    destruct (child_link tb x i) as [lk|]; [|discriminate]. exists lk.
    apply andb_prop in H1 as [[[A%Nat.eqb_eq B%Nat.ltb_lt]%andb_prop C%Nat.eqb_eq]%andb_prop D%leqb_eq]. auto 6.
  - exact H2.
  - intros x Hx. specialize (H3 x (P0 x Hx)). fold (lvl x) (lab x) in H3.
    apply andb_prop in H3 as [[[[[A%Nat.eqb_eq B%Z.eqb_eq]%andb_prop C%Z.eqb_eq]%andb_prop E%Nat.eqb_eq]%andb_prop F]%andb_prop _].
    rewrite forallb_forall in F. repeat split; try assumption; specialize (F j (proj2 (in_seq _ _ _) (conj (Nat.le_0_l j) H))); lia.
  - intros x y Hx Hy E. specialize (H3 x (P0 x Hx)). fold (lab x) in H3.
    apply andb_prop in H3 as [_ H3]. rewrite forallb_forall in H3.
    specialize (H3 y (P0 y Hy)). fold (lab y) in H3.
    rewrite E, (proj2 (leqb_eq (lab y) (lab y)) eq_refl) in H3. now apply Nat.eqb_eq in H3.
Qed.

(** a sequence of hops from [a] to [b], all up (resp. all down): each hop leaves the node the previous one reached,
    changes the level by exactly one, and uses a link whose lower end is the lower node and upper end the upper node *)
Fixpoint ft_chain (up : bool) (a : nat) (hs : list fhop) (b : nat) : Prop :=
  match hs with
  | [] => a = b
  | h :: r => fh_up h = up /\ fh_from h = a /\
              (if up then fl_child (fh_link h) = a /\ fl_parent (fh_link h) = fh_to h /\ lvl (fh_to h) = S (lvl a)
               else fl_parent (fh_link h) = a /\ fl_child (fh_link h) = fh_to h /\ S (lvl (fh_to h)) = lvl a) /\
              ft_chain up (fh_to h) r b
  end.

Lemma ft_chain_app up : forall hs1 a m hs2 b,
  ft_chain up a hs1 m -> ft_chain up m hs2 b -> ft_chain up a (hs1 ++ hs2) b.
Proof.
  induction hs1 as [|h r IH]; simpl; intros a m hs2 b H1 H2.
  - subst. exact H2.
  - destruct H1 as [A [B [C D]]]. repeat split; try assumption. eapply IH; eassumption.
Qed.

Hypothesis V : ft_valid p = true.
Hypothesis OK : TabOK.

Lemma valid_facts : (1 <= L)%nat /\ length (ft_ps p) = L /\ length (ft_ns p) = L /\
  Forall (fun d => 0 < d) (ft_cs p) /\ Forall (fun d => 0 < d) (ft_ps p) /\ Forall (fun d => 0 < d) (ft_ns p).
Proof.
  pose proof V as W. unfold ft_valid in W. fold L in W.
  apply andb_prop in W as [[[[[X1%negb_true_iff%Nat.eqb_neq X2%Nat.eqb_eq]%andb_prop X3%Nat.eqb_eq]%andb_prop X4]%andb_prop X5]%andb_prop X6].
  repeat split; try (apply forallb_pos; assumption); lia.
Qed.

Variable s t : nat.
Hypothesis Hs : (s < N0)%nat.
Hypothesis Ht : (t < N0)%nat.
Let ls := lab s.
Let lt := lab t.
Let k := nca_level L ls lt.

Lemma k_spec : (1 <= k <= L)%nat /\ (forall i, (k <= i < L)%nat -> nthz ls i = nthz lt i) /\
  (forall l, (1 <= l)%nat -> agree_from L l ls lt = true -> (k <= l)%nat).
Proof.
  destruct (nca_level_spec L ls lt (proj1 valid_facts)) as (Kb & Kag & Kmin). fold k in Kb, Kag, Kmin.
  split; [exact Kb|]. split; [now apply agree_from_spec|].
  intros l Hl A. destruct (le_lt_dec k l) as [|Hlt]; [assumption|]. rewrite Kmin in A by lia. discriminate.
Qed.

(** what holds of currentNode all along: on the way up its label agrees with the source's ([x] = [ls]) from its
    level on, on the way down with the destination's ([x] = [lt]) *)
Definition node_inv (x : list Z) (cur : nat) : Prop :=
  (cur < N)%nat /\ (lvl cur <= L)%nat /\ length (lab cur) = L /\
  (forall i, (lvl cur <= i < L)%nat -> nthz (lab cur) i = nthz x i).

Lemma leaf_inv x : (x < N0)%nat -> node_inv (lab x) x.
Proof.
  intros Hx. destruct (ok_leaf OK x Hx) as (Xl & _ & _ & Xlen & _). pose proof (ok_n0 OK).
  split; [lia|]. split; [lia|]. now split.
Qed.

Lemma inv_sub_tree leaf cur : node_inv (lab leaf) cur -> lvl leaf = 0%nat -> (1 <= lvl cur)%nat ->
  in_sub_tree L (node tb cur) (node tb leaf) = true.
Proof. intros (_ & _ & _ & Hag) Hl Hc. apply in_sub_tree_leaf; [exact Hl|]. split; [exact Hc | now apply agree_from_spec]. Qed.

Lemma sub_tree_t cur : node_inv ls cur -> (lvl cur <= k)%nat ->
  in_sub_tree L (node tb cur) (node tb t) = true <-> lvl cur = k.
Proof.
  intros (_ & _ & _ & Hag) Hk. destruct k_spec as (Kb & Kag & Kmin).
  rewrite (in_sub_tree_leaf L _ _ (proj1 (ok_leaf OK t Ht))), agree_from_spec. fold (lvl cur) (lab cur) lt. split.
  - intros [H1 H2]. apply Nat.le_antisymm; [exact Hk|]. apply Kmin; [exact H1|].
    apply agree_from_spec. intros i Hi. rewrite <- Hag by exact Hi. now apply H2.
  - intros E. rewrite E. split; [lia|]. intros i Hi. rewrite Hag by lia. now apply Kag.
Qed.

Lemma up_walk_spec : forall fuel cur, (k < lvl cur + fuel)%nat -> (lvl cur <= k)%nat -> node_inv ls cur ->
  exists ups top, up_walk fuel p tb cur (node tb t) = (ups, top) /\ ft_chain true cur ups top /\
                  lvl top = k /\ (lvl cur + length ups = k)%nat /\ node_inv ls top.
Proof.
  destruct valid_facts as (HL & Lp & Ln & Pc & Pp & Pn). destruct k_spec as (Kb & _).
  induction fuel as [|f IH]; intros cur Hf Hk Inv; [lia|].
  cbn [up_walk]. pose proof (sub_tree_t cur Inv Hk) as SUB. fold L.
  destruct (in_sub_tree L (node tb cur) (node tb t)).
  - exists [], cur. split; [reflexivity|]. split; [reflexivity|]. split; [now apply SUB|].
    split; [rewrite Nat.add_0_r; now apply SUB | exact Inv].
  - assert (E : lvl cur <> k) by (intros E; now apply SUB in E).
    destruct Inv as (Hc & _ & Hlen & Hag). assert (Hl : (lvl cur < L)%nat) by lia. fold (lvl cur).
    destruct (ok_parent OK cur Hc Hl (up_port p (lvl cur) (fn_pos (node tb t)))) as (lk & E1 & E2 & E3 & E4 & E5).
    { apply Z.mod_pos_bound, Z.mul_pos_pos; apply nthz_pos; assumption || lia. }
    rewrite E1.
    destruct (IH (fl_parent lk)) as (ups & top & W & C & T1 & T2 & T3); [lia | lia | |].
    { split; [exact E3|]. split; [lia|]. rewrite E5, set_nth_length. split; [exact Hlen|].
      intros i Hi. rewrite nthz_set_nth_other by lia. apply Hag. lia. }
    exists (mkfh true cur (fl_parent lk) lk :: ups), top. rewrite W. cbn [fst snd ft_chain fh_up fh_from fh_to fh_link length].
    split; [reflexivity|]. split; [now repeat split|]. split; [exact T1|]. split; [lia | exact T3].
Qed.

Lemma down_for_spec : forall fuel cur i, 0 <= i -> node_inv lt cur ->
  exists hs fin, down_for fuel p tb cur i (node tb t) = (hs, fin) /\ ft_chain false cur hs fin /\ node_inv lt fin /\
                 (lvl fin + length hs = lvl cur)%nat /\
                 (forall l1, lvl cur = S l1 -> fuel <> 0%nat ->
                    next_match (nthz (ft_cs p) l1) (nthz lt l1) i < nthz (ft_cs p) l1 * nthz (ft_ns p) l1 ->
                    (1 <= length hs)%nat).
Proof.
  destruct valid_facts as (HL & Lp & Ln & Pc & Pp & Pn).
  destruct (ok_leaf OK t Ht) as (_ & _ & _ & _ & Tb).
  induction fuel as [|f IH]; intros cur i Hi Inv.
  - exists [], cur. split; [reflexivity|]. split; [reflexivity|]. split; [exact Inv|]. split; [apply Nat.add_0_r | now intros].
  - cbn [down_for]. fold (lvl cur). destruct (lvl cur) as [|l1] eqn:El.
    + exists [], cur. split; [reflexivity|]. split; [reflexivity|]. split; [exact Inv|]. split; [now rewrite El | discriminate].
    + fold (lab t) lt. destruct Inv as (I1 & I2 & I3 & I4).
      set (c := nthz (ft_cs p) l1). set (i' := next_match c (nthz lt l1) i).
      assert (Hc : 0 < c) by (apply nthz_pos; [assumption | change (l1 < L)%nat; lia]).
      pose proof (next_match_bounds c (nthz lt l1) i Hc) as NB. fold i' in NB.
      destruct (Z.ltb_spec i' (c * nthz (ft_ns p) l1)) as [E|E].
      * destruct (ok_child OK cur I1 l1 El i') as (lk & E1 & E2 & E3 & E4 & E5); [lia|].
        rewrite E1. unfold i' in E5. rewrite next_match_mod in E5 by (try assumption; apply Tb; lia).
        assert (Inv' : node_inv lt (fl_child lk)).
        { split; [assumption|]. split; [lia|]. rewrite E5, set_nth_length. split; [exact I3|].
          intros j Hj. destruct (Nat.eq_dec j l1) as [->|Hne].
          - apply nthz_set_nth_same. lia.
          - rewrite nthz_set_nth_other by assumption. apply I4. lia. }
        destruct (IH (fl_child lk) (i' + 1)) as (hs & fin & W & C0 & F1 & F2 & _); [lia | exact Inv' |].
        exists (mkfh false cur (fl_child lk) lk :: hs), fin. rewrite W. cbn [fst snd ft_chain fh_up fh_from fh_to fh_link length].
        split; [reflexivity|]. split; [repeat split; congruence|]. split; [exact F1|]. split; [lia | intros; lia].
      * exists [], cur. split; [reflexivity|]. split; [reflexivity|]. split; [now repeat split|].
        split; [now rewrite El | intros l1' El' _ Hlt; inv El'; unfold i', c in E; lia].
Qed.

Lemma down_walk_spec : forall fuel cur, (lvl cur < fuel)%nat -> node_inv lt cur ->
  exists downs, down_walk fuel p tb (fn_pos (node tb s)) cur t (node tb t) = downs /\
                ft_chain false cur downs t /\ length downs = lvl cur.
Proof.
  destruct valid_facts as (HL & Lp & Ln & Pc & Pp & Pn).
  destruct (ok_leaf OK t Ht) as (Tl & _ & _ & Tlen & _).
  induction fuel as [|f IH]; intros cur Hf Inv; [lia|].
  cbn [down_walk]. destruct (Nat.eqb_spec cur t) as [->|E].
  - exists []. now rewrite Tl.
  - fold (lvl cur). destruct (lvl cur) as [|l1] eqn:El.
    + exfalso. apply E. destruct Inv as (I1 & _ & I3 & I4). apply (ok_inj OK cur t (proj2 (ok_level OK cur I1) El) Ht).
      apply (nth_ext _ _ 0 0); [congruence|]. intros i Hi. apply I4. lia.
    + assert (Hl : (l1 < L)%nat) by (destruct Inv as (_ & I2 & _); lia).
      set (c := nthz (ft_cs p) l1). set (n := nthz (ft_ns p) l1). set (d := fn_pos (node tb s) mod n).
      assert (Hc : 0 < c) by (apply nthz_pos; assumption).
      assert (Hd : 0 <= d < n) by (apply Z.mod_pos_bound, nthz_pos; [assumption | lia]).
      destruct (down_for_spec (S (ft_levels p)) cur (d * c)) as (hs & fin & W & C & F1 & F2 & F3);
        [apply Z.mul_nonneg_nonneg; lia | exact Inv |].
      rewrite W. cbn [fst snd].
      assert (Hp : (1 <= length hs)%nat).
      { apply (F3 l1 El); [lia|]. pose proof (next_match_bounds c (nthz lt l1) (d * c) Hc) as NB.
        assert ((d + 1) * c <= n * c) by (apply Z.mul_le_mono_nonneg_r; lia). fold c n. lia. }
      destruct (IH fin) as (downs & W2 & C2 & Ln2); [lia | exact F1 |].
      exists (hs ++ downs). rewrite W2, app_length. split; [reflexivity|]. split; [eapply ft_chain_app; eassumption | lia].
Qed.

Theorem ft_up_down :
  exists ups top downs,
    ft_hops p tb s t = ups ++ downs /\ ft_chain true s ups top /\ ft_chain false top downs t /\
    length ups = k /\ length downs = k /\ lvl top = k /\ (1 <= k <= L)%nat /\
    in_sub_tree L (node tb top) (node tb s) = true /\ in_sub_tree L (node tb top) (node tb t) = true.
Proof using V OK Hs Ht.
  destruct k_spec as (Kb & Kag & _).
  destruct (ok_leaf OK s Hs) as (Sl & _). destruct (ok_leaf OK t Ht) as (Tl & _).
  destruct (up_walk_spec (S (ft_levels p)) s) as (ups & top & W & C & T1 & T2 & Inv);
    [fold L; lia | lia | apply leaf_inv, Hs |]. rewrite Sl in T2.
  assert (Inv' : node_inv lt top).
  { destruct Inv as (A & B & C' & D). repeat split; try assumption. intros i Hi. rewrite D by assumption. apply Kag. lia. }
  destruct (down_walk_spec (S (ft_levels p)) top) as (downs & W2 & C2 & Ln2); [fold L; lia | exact Inv' |].
  exists ups, top, downs. unfold ft_hops. rewrite W. cbn [fst snd]. rewrite W2.
  split; [reflexivity|]. split; [exact C|]. split; [exact C2|]. split; [exact T2|]. split; [now rewrite Ln2|].
  split; [exact T1|]. split; [exact Kb|]. rewrite <- T1 in Kb. split; apply inv_sub_tree; (assumption || apply Kb).
Qed.

(** [k] is the level of the NEAREST common ancestors: whatever has both ends in its sub-tree is at level >= k *)
Theorem ft_nca_nearest : forall w : fnode,
  in_sub_tree L w (node tb s) = true -> in_sub_tree L w (node tb t) = true -> (k <= fn_level w)%nat.
Proof using V OK Hs Ht.
  destruct k_spec as (_ & _ & Kmin). destruct (ok_leaf OK s Hs) as (Sl & _). destruct (ok_leaf OK t Ht) as (Tl & _).
  intros w A B. apply (in_sub_tree_leaf L w _ Sl) in A. apply (in_sub_tree_leaf L w _ Tl) in B.
  destruct A as [W A], B as [_ B]. apply Kmin; [exact W|].
  rewrite agree_from_spec in *. intros i Hi. rewrite <- A by exact Hi. now apply B.
Qed.

End Tables.

Definition is_flim (l : flk) : bool := match l with FLim _ => true | _ => false end.
Definition hop_flk (h : fhop) : flk := if fh_up h then FUp (fh_link h) else FDown (fh_link h).

Lemma ft_route_loopback p tb lim s : ft_route p tb true lim s s = [FLoop s].
Proof. unfold ft_route. now rewrite Nat.eqb_refl. Qed.

Lemma ft_route_no_limiter p tb lb s t : (s =? t)%nat && lb = false ->
  ft_route p tb lb false s t = map hop_flk (ft_hops p tb s t).
Proof.
  intros H. unfold ft_route. rewrite H, app_nil_r. apply flat_map_one, Forall_forall.
  intros h _. unfold hop_links, hop_flk. now destruct (fh_up h).
Qed.

Lemma ft_route_limiters p tb lb s t : (s =? t)%nat && lb = false ->
  let hs := ft_hops p tb s t in
  filter is_flim (ft_route p tb lb true s t) = map FLim (map fh_from hs ++ [last (map fh_to hs) s]) /\
  filter (fun l => negb (is_flim l)) (ft_route p tb lb true s t) = ft_route p tb lb false s t.
Proof.
  intros H hs. rewrite (ft_route_no_limiter _ _ _ _ _ H). unfold ft_route. rewrite H. fold hs.
  rewrite !filter_app, !filter_flat_map, map_app, map_map.
  rewrite (flat_map_one _ (fun h => FLim (fh_from h))), (flat_map_one _ hop_flk); [split; [reflexivity | apply app_nil_r] | |];
    apply Forall_forall; intros h _; unfold hop_links, hop_flk; now destruct (fh_up h).
Qed.
