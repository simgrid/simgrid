(** C25 — soundness of the chain checker and of the shortest-distance certificate checker of Routing/SPCert.v. *)
From SGV Require Import Base.PlainLia Routing.SPCert.
Local Open Scope Z_scope.

Lemma list_eqb_eq a : forall b, list_eqb a b = true <-> a = b.
Proof.
  induction a as [|x a IH]; intros [|y b]; simpl; try easy.
  rewrite andb_true_iff, Z.eqb_eq, IH. split; [intros [-> ->]; reflexivity | intros H; now inv H].
Qed.

Lemma is_prefix_app a : forall l, is_prefix a l = true -> l = a ++ skipn (length a) l.
Proof.
  induction a as [|x a IH]; intros l H; simpl in *; [reflexivity|].
  destruct l as [|y l]; [discriminate|]. apply andb_prop in H as [->%Z.eqb_eq H]. simpl. f_equal. now apply IH.
Qed.

Lemma chain_from_sound g t : forall fuel cur L, chain_from fuel g cur t L = true ->
  exists p, p <> [] /\ is_path g cur p t /\ links_of p = L.
Proof.
  induction fuel as [|f IH]; intros cur L H; simpl in H; [discriminate|].
  apply existsb_exists in H as (e & Hin & [[[H%Z.eqb_eq _]%andb_prop Hpre%is_prefix_app]%andb_prop Hrest]%andb_prop).
  destruct (skipn (length (el e)) L) as [|y rest] eqn:Es.
  - apply Z.eqb_eq in Hrest. exists [e]. repeat split; try assumption; try discriminate.
    unfold links_of. simpl. rewrite app_nil_r in *. now rewrite Hpre.
  - apply IH in Hrest. destruct Hrest as (p & Hne & Hp & Hl).
    exists (e :: p). repeat split; try assumption; try discriminate.
    unfold links_of in *. simpl. rewrite Hl. symmetry. exact Hpre.
Qed.

Theorem chain_check_sound g s t L : chain_check g s t L = true -> is_route g s t L.
Proof. unfold chain_check, is_route. apply chain_from_sound. Qed.

Lemma links_of_length p : Z.of_nat (length (links_of p)) = cost_of p.
Proof.
  induction p as [|e p IH]; simpl; [reflexivity|]. unfold links_of in *. simpl. rewrite app_length.
  unfold elen. lia.
Qed.

Lemma range_In n x : In x (range n) <-> 0 <= x < Z.of_nat n.
Proof.
  unfold range. rewrite in_map_iff. split.
  - intros (k & <- & Hk). apply in_seq in Hk. lia.
  - intros H. exists (Z.to_nat x). split; [lia | apply in_seq; lia].
Qed.

Section Cert.
  Variable g : list redge.
  Variable n : nat.
  Variable rows : list (list Z).
  Hypothesis Hok : cert_ok g n rows = true.

  Let d := dget rows.
  Let d0 := dist0 rows.

  Lemma cert_parts :
    (forall e, In e g -> 0 <= eu e < Z.of_nat n /\ 0 <= ev e < Z.of_nat n /\ 1 <= elen e) /\
    (forall s t, In s (range n) -> In t (range n) -> s <> t -> d s t = -1 \/ 1 <= d s t) /\
    (forall s e, In s (range n) -> In e g -> ev e <> s -> d0 s (eu e) <> -1 ->
        d s (ev e) <> -1 /\ d s (ev e) <= d0 s (eu e) + elen e) /\
    (forall s t, In s (range n) -> In t (range n) -> s <> t -> d s t <> -1 ->
        exists e, In e g /\ ev e = t /\ d0 s (eu e) <> -1 /\ d s t = d0 s (eu e) + elen e).
  Proof.
    pose proof Hok as K. unfold cert_ok in K. apply andb_prop in K as [[[HE HR]%andb_prop HA]%andb_prop HB].
    rewrite forallb_forall in HE, HR, HA, HB. split; [|split; [|split]].
    - intros e He. specialize (HE e He). lia.
    - intros s t Hs Ht Hne. specialize (HR s Hs). rewrite forallb_forall in HR. specialize (HR t Ht).
      unfold d. lia.
    - intros s e Hs He. specialize (HA s Hs). rewrite forallb_forall in HA. specialize (HA e He). unfold d, d0. lia.
    - intros s t Hs Ht Hne Hd. specialize (HB s Hs). rewrite forallb_forall in HB. specialize (HB t Ht).
      unfold d in Hd. rewrite (proj2 (Z.eqb_neq s t) Hne), (proj2 (Z.eqb_neq _ _) Hd) in HB.
      apply existsb_exists in HB as (e & He & X). exists e. unfold d, d0. repeat split; try assumption; lia.
  Qed.

  Lemma d0_self s : d0 s s = 0.
  Proof. unfold d0, dist0. now rewrite Z.eqb_refl. Qed.

  Lemma d0_other s x : x <> s -> d0 s x = d s x.
  Proof. intros H. unfold d0, dist0. now rewrite (proj2 (Z.eqb_neq x s) H). Qed.

  Lemma d0_nonneg s x : In s (range n) -> In x (range n) -> d0 s x <> -1 -> 0 <= d0 s x.
  Proof.
    intros Hs Hx H. destruct cert_parts as (_ & R & _).
    destruct (Z.eq_dec x s) as [->|E]; [now rewrite d0_self|]. rewrite d0_other in * by exact E.
    specialize (R s x Hs Hx). lia.
  Qed.

  Lemma lower_bound s : In s (range n) -> forall p x t K, In x (range n) -> d0 s x <> -1 -> d0 s x <= K ->
    is_path g x p t -> d0 s t <> -1 /\ d0 s t <= K + cost_of p.
  Proof.
    intros Hs. destruct cert_parts as (E & _ & A & _).
    induction p as [|e p IH]; intros x t K Hx Hfin HK Hp; simpl in *.
    - subst. split; [assumption | lia].
    - destruct Hp as (He & Hu & Hp). subst x.
      destruct (E e He) as (_ & Hv & Hc).
      assert (Hvr : In (ev e) (range n)) by (apply range_In; lia).
      destruct (Z.eq_dec (ev e) s) as [Es|Ns].
      + assert (Z0 : d0 s (ev e) = 0) by (rewrite Es; apply d0_self).
        pose proof (d0_nonneg s (eu e) Hs Hx Hfin) as Hnn.
        destruct (IH (ev e) t (K + elen e) Hvr ltac:(lia) ltac:(lia) Hp) as [F1 F2]. split; [assumption | lia].
      + destruct (A s e Hs He Ns Hfin) as [F1 F2].
        pose proof (d0_other s (ev e) Ns) as Dv.
        destruct (IH (ev e) t (K + elen e) Hvr ltac:(lia) ltac:(lia) Hp) as [G1 G2]. split; [assumption | lia].
  Qed.

  Lemma is_path_snoc : forall p s u e t, is_path g s p u -> In e g -> eu e = u -> ev e = t -> is_path g s (p ++ [e]) t.
  Proof.
    induction p as [|a p IH]; intros s u e t Hp He Hu Hv; simpl in *.
    - subst. repeat split; auto.
    - destruct Hp as (Ha & Hs & Hp). repeat split; auto. eapply IH; eauto.
  Qed.

  Lemma cost_snoc p e : cost_of (p ++ [e]) = cost_of p + elen e.
  Proof. induction p; simpl; lia. Qed.

  Lemma achievable s : In s (range n) -> forall k t, In t (range n) -> s <> t -> d s t <> -1 -> d s t <= Z.of_nat k ->
    exists p, p <> [] /\ is_path g s p t /\ cost_of p = d s t.
  Proof.
    intros Hs. destruct cert_parts as (E & R & _ & B).
    induction k as [|k IH]; intros t Ht Hne Hfin Hk.
    - specialize (R s t Hs Ht Hne). lia.
    - destruct (B s t Hs Ht Hne Hfin) as (e & He & Hv & Hf & Hd).
      destruct (E e He) as (Hu & _ & Hc).
      destruct (Z.eq_dec (eu e) s) as [Es|Ns].
      + exists [e]. repeat split; try discriminate; try assumption. simpl.
        rewrite Es, d0_self in Hd. lia.
      + pose proof (d0_other s (eu e) Ns) as Du.
        assert (Hur : In (eu e) (range n)) by (apply range_In; lia).
        destruct (IH (eu e) Hur ltac:(congruence) ltac:(congruence) ltac:(lia)) as (p & Hp0 & Hp & Hcp).
        exists (p ++ [e]). repeat split.
        * destruct p; discriminate.
        * eapply is_path_snoc; eauto.
        * rewrite cost_snoc. lia.
  Qed.

  (** the certificate theorem: accepted tables are exactly the minimal link counts over chains of declared routes *)
  Theorem cert_sound s t : In s (range n) -> In t (range n) -> s <> t ->
    (d s t <> -1 -> (exists p, p <> [] /\ is_path g s p t /\ cost_of p = d s t) /\
                    (forall p, p <> [] -> is_path g s p t -> d s t <= cost_of p)) /\
    (d s t = -1 -> forall p, p <> [] -> ~ is_path g s p t).
  Proof using Hok.
    intros Hs Ht Hne.
    assert (LB : forall p, is_path g s p t -> d s t <> -1 /\ d s t <= cost_of p).
    { intros p Hp.
      pose proof (d0_self s) as Z0.
      destruct (lower_bound s Hs p s t 0 Hs ltac:(lia) ltac:(lia) Hp) as [F1 F2].
      rewrite (d0_other s t (not_eq_sym Hne)) in *. split; [assumption | lia]. }
    split.
    - intros Hfin. split.
      + destruct cert_parts as (_ & R & _). specialize (R s t Hs Ht Hne).
        apply (achievable s Hs (Z.to_nat (d s t)) t Ht Hne Hfin). lia.
      + intros p _ Hp. now apply LB.
    - intros Hinf p _ Hp. destruct (LB p Hp). contradiction.
  Qed.
End Cert.

(** what the check uses: a route accepted by the chain checker whose length is the certified table entry is a
    minimal chain of declared routes *)
Theorem certified_minimal g n rows s t L :
  cert_ok g n rows = true -> 0 <= s < Z.of_nat n -> 0 <= t < Z.of_nat n -> s <> t ->
  chain_check g s t L = true -> Z.of_nat (length L) = dget rows s t ->
  minimal_route g s t L.
Proof.
  intros Hc Hs Ht Hne Hch Hlen. apply range_In in Hs. apply range_In in Ht.
  split; [now apply chain_check_sound|].
  intros L' (p & Hp0 & Hp & Hl).
  destruct (cert_sound g n rows Hc s t Hs Ht Hne) as [F I].
  assert (Hfin : dget rows s t <> -1) by lia.
  destruct (F Hfin) as [_ LB]. specialize (LB p Hp0 Hp).
  rewrite <- Hl. pose proof (links_of_length p). lia.
Qed.

(** and when the table says "no route", no chain of declared routes exists *)
Theorem certified_unreachable g n rows s t :
  cert_ok g n rows = true -> 0 <= s < Z.of_nat n -> 0 <= t < Z.of_nat n -> s <> t ->
  dget rows s t = -1 -> forall L, ~ is_route g s t L.
Proof.
  intros Hc Hs Ht Hne Hd L (p & Hp0 & Hp & _). apply range_In in Hs. apply range_In in Ht.
  destruct (cert_sound g n rows Hc s t Hs Ht Hne) as [_ I]. exact (I Hd p Hp0 Hp).
Qed.

(** two accepted tables agree: zones whose tables the certificate accepts (the check submits those of Floyd, Dijkstra
    and DijkstraCache) return routes of equal link count *)
Theorem certified_agree g n r1 r2 s t :
  cert_ok g n r1 = true -> cert_ok g n r2 = true -> 0 <= s < Z.of_nat n -> 0 <= t < Z.of_nat n -> s <> t ->
  dget r1 s t = dget r2 s t.
Proof.
  intros H1 H2 Hs Ht Hne. apply range_In in Hs. apply range_In in Ht.
  destruct (cert_sound g n r1 H1 s t Hs Ht Hne) as [F1 I1].
  destruct (cert_sound g n r2 H2 s t Hs Ht Hne) as [F2 I2].
  destruct (Z.eq_dec (dget r1 s t) (-1)) as [E1|N1]; destruct (Z.eq_dec (dget r2 s t) (-1)) as [E2|N2].
  - congruence.
  - exfalso. destruct (F2 N2) as [(p & P0 & Pp & _) _]. exact (I1 E1 p P0 Pp).
  - exfalso. destruct (F1 N1) as [(p & P0 & Pp & _) _]. exact (I2 E2 p P0 Pp).
  - destruct (F1 N1) as [(p1 & P01 & Pp1 & C1) L1]. destruct (F2 N2) as [(p2 & P02 & Pp2 & C2) L2].
    specialize (L1 p2 P02 Pp2). specialize (L2 p1 P01 Pp1). lia.
Qed.

Theorem full_route_exact g s t L : full_route g s t = Some L -> exists e, In e g /\ eu e = s /\ ev e = t /\ el e = L.
Proof.
  unfold full_route. destruct (find _ g) as [e|] eqn:F; [|discriminate]. intros H. inv H.
  apply find_some in F. destruct F as [I F]. exists e. repeat split; try assumption; lia.
Qed.
Theorem full_route_declared g e : In e g -> (forall e', In e' g -> eu e' = eu e -> ev e' = ev e -> e' = e) ->
  full_route g (eu e) (ev e) = Some (el e).
Proof.
  intros I U. unfold full_route. destruct (find _ g) as [e'|] eqn:F.
  - apply find_some in F. destruct F as [I' F]. rewrite (U e' I') by lia. reflexivity.
  - exfalso. apply (find_none _ _ F e) in I. rewrite !Z.eqb_refl in I. discriminate.
Qed.
