(** C24, bypass routes.  The search for a bypass visits the index pairs of the two zone paths in the order of [rank],
    so the bypass found is the declared one of least rank.  The accumulating route function equals a composition form
    ([gspec_f]), and that one is sound and complete for the inductive [route_spec]. *)
From SGV Require Import Base.PlainLia Routing.Global Routing.GlobalProofs Routing.Bypass.
From Coq Require Import Sorted.
Local Open Scope Z_scope.

Lemma first_hit_none {A B} (f : A -> option B) l : first_hit f l = None <-> forall x, In x l -> f x = None.
Proof.
  induction l as [|a l IH]; simpl.
  - split; [intros _ x [] | reflexivity].
  - destruct (f a) eqn:E.
    + split; [discriminate|]. intros H. specialize (H a (or_introl eq_refl)). congruence.
    + rewrite IH. split; [intros H x [<-|Hi]; auto | intros H x Hi; apply H; auto].
Qed.

(** position of an index pair in the search: first by max(i, j); inside one step (i, m) before (m, i) before
    (i+1, m) ..., and (m, m) last *)
Definition rank (p : nat * nat) : nat * nat :=
  (Nat.max (fst p) (snd p),
   if (fst p <? snd p)%nat then (2 * fst p)%nat
   else if (snd p <? fst p)%nat then (2 * snd p + 1)%nat else (2 * fst p)%nat).
Definition rank_lt (p q : nat * nat) : Prop :=
  (fst (rank p) < fst (rank q))%nat \/ (fst (rank p) = fst (rank q) /\ (snd (rank p) < snd (rank q))%nat).

Lemma ss_app {A} (R : A -> A -> Prop) l1 l2 :
  StronglySorted R l1 -> StronglySorted R l2 -> (forall x y, In x l1 -> In y l2 -> R x y) ->
  StronglySorted R (l1 ++ l2).
Proof.
  induction l1 as [|a l1 IH]; simpl; intros H1 H2 H; [exact H2|].
  apply StronglySorted_inv in H1 as [Hs Hf]. constructor.
  - apply IH; auto.
  - apply Forall_forall. intros y Hy. apply in_app_or in Hy as [Hy|Hy].
    + rewrite Forall_forall in Hf. auto.
    + apply H; auto.
Qed.

Lemma first_hit_least {A B} (R : A -> A -> Prop) (f : A -> option B) l y :
  StronglySorted R l -> first_hit f l = Some y ->
  exists x, In x l /\ f x = Some y /\ forall x', In x' l -> f x' = None \/ x' = x \/ R x x'.
Proof.
  induction 1 as [|a l Hs IH Hf]; simpl; [discriminate|]. destruct (f a) as [b|] eqn:E; intros H.
  - inv H. exists a. split; [now left|]. split; [exact E|]. intros x' [<-|Hi]; [auto|].
    right; right. exact (proj1 (Forall_forall _ _) Hf x' Hi).
  - destruct (IH H) as (x & Hx & Fx & Hn). exists x. split; [now right|]. split; [exact Fx|].
    intros x' [<-|Hi]; auto.
Qed.

Lemma ss_flat_map_seq {B} (R : B -> B -> Prop) (g : nat -> list B) n :
  (forall i, (i < n)%nat -> StronglySorted R (g i)) ->
  (forall i j a b, (i < j < n)%nat -> In a (g i) -> In b (g j) -> R a b) ->
  StronglySorted R (flat_map g (seq 0 n)).
Proof.
  induction n as [|n IH]; intros Hs Hc; [constructor|]. rewrite seq_S, flat_map_app. simpl. rewrite app_nil_r.
  apply ss_app; [apply IH; intros; [apply Hs | eapply Hc]; eauto; lia | apply Hs; lia |].
  intros a b (i & Hi%in_seq & Ha)%in_flat_map Hb. apply (Hc i n); [lia | assumption..].
Qed.

Lemma rank_im i m : (i < m)%nat -> rank (i, m) = (m, (2 * i)%nat).
Proof. intros H. unfold rank. cbn [fst snd]. now rewrite (proj2 (Nat.ltb_lt i m) H), Nat.max_r by lia. Qed.
Lemma rank_mi i m : (i < m)%nat -> rank (m, i) = (m, (2 * i + 1)%nat).
Proof.
  intros H. unfold rank. cbn [fst snd].
  now rewrite (proj2 (Nat.ltb_ge m i)), (proj2 (Nat.ltb_lt i m) H), Nat.max_l by lia.
Qed.
Lemma rank_mm m : rank (m, m) = (m, (2 * m)%nat).
Proof. unfold rank. cbn [fst snd]. now rewrite Nat.ltb_irrefl, Nat.max_id. Qed.

Lemma rank_pair i m a : (i < m)%nat -> In a [(i, m); (m, i)] ->
  fst (rank a) = m /\ (2 * i <= snd (rank a) <= 2 * i + 1)%nat.
Proof. intros H [<-|[<-|[]]]; [rewrite rank_im | rewrite rank_mi]; cbn [fst snd]; lia. Qed.

Lemma pairs_at_sorted m : StronglySorted rank_lt (pairs_at m).
Proof.
  unfold pairs_at. apply ss_app; [apply ss_flat_map_seq | repeat constructor |].
  - intros i Hi. constructor; [repeat constructor|]. constructor; [|constructor].
    right. rewrite rank_im, rank_mi by assumption. cbn [fst snd]. lia.
  - intros i j a b Hij Ha Hb. right. destruct (rank_pair i m a), (rank_pair j m b); lia || assumption.
  - intros a b (i & Hi%in_seq & Ha)%in_flat_map [<-|[]]. right. rewrite rank_mm.
    destruct (rank_pair i m a); cbn [fst snd]; lia || assumption.
Qed.

Lemma in_pairs_at m i j : In (i, j) (pairs_at m) <-> Nat.max i j = m.
Proof.
  unfold pairs_at. rewrite in_app_iff, in_flat_map. split.
  - intros [(k & Hk%in_seq & [H|[H|[]]]) | [H|[]]]; inv H; lia.
  - intros H. destruct (Nat.lt_trichotomy i j) as [L|[E|L]].
    + left. exists i. split; [apply in_seq; lia|]. left. f_equal. lia.
    + right. left. f_equal; lia.
    + left. exists j. split; [apply in_seq; lia|]. right. left. f_equal. lia.
Qed.

Lemma in_search_order n i j : In (i, j) (search_order n) <-> (i < n /\ j < n)%nat.
Proof.
  unfold search_order. rewrite in_flat_map. split.
  - intros (m & Hm & Hp). apply in_seq in Hm. apply in_pairs_at in Hp. lia.
  - intros H. exists (Nat.max i j). split; [apply in_seq; lia | apply in_pairs_at; reflexivity].
Qed.

Lemma search_order_sorted n : StronglySorted rank_lt (search_order n).
Proof.
  apply ss_flat_map_seq; [intros; apply pairs_at_sorted|].
  intros i j [a1 a2] [b1 b2] Hij Ha%in_pairs_at Hb%in_pairs_at. left. cbn. lia.
Qed.

Definition nilseg : seg := ([], 0).

Section BypassP.
  Variable parent znp zgw enz : Z -> Z.
  Variable is_zone : Z -> bool.
  Variable local : Z -> Z -> Z -> lroute.
  Variable depth : nat.
  Variable bp : Z -> Z -> Z -> lroute.
  Variable prepends : Z -> bool.

  Notation bp_lookup := (bp_lookup znp bp).
  Notation bp_search := (bp_search znp bp).
  Notation find_bypass := (find_bypass parent znp enz depth bp).
  Notation common_of := (common_of parent enz depth).
  Notation direct_acc := (direct_acc parent znp zgw enz is_zone local depth prepends).
  Notation groute := (groute parent znp zgw enz is_zone local depth bp prepends).
  Notation global_spec := (global_spec parent znp zgw enz is_zone local depth).
  Notation global_route := (global_route parent znp zgw enz is_zone local depth).

  Definition declared (this : Z) (ps pd : list Z) (i j : nat) : Prop :=
    (i < length ps)%nat /\ (j < length pd)%nat /\
    lr_ok (bp this (znp (nth i ps (-1))) (znp (nth j pd (-1)))) = true.

  Lemma bp_lookup_some this ps pd i j r :
    bp_lookup this ps pd (i, j) = Some r <->
    declared this ps pd i j /\
    r = (znp (nth i ps (-1)), znp (nth j pd (-1)), bp this (znp (nth i ps (-1))) (znp (nth j pd (-1)))).
  Proof using znp bp.
    unfold Bypass.bp_lookup, declared. cbn [fst snd]. rewrite <- !Nat.ltb_lt.
    destruct (i <? length ps)%nat, (j <? length pd)%nat; cbn [andb];
      try (split; [discriminate | intros [(A & B & _) _]; discriminate]).
    destruct (lr_ok _); split; try discriminate.
    - intros H. now inv H.
    - now intros [_ ->].
    - intros [(_ & _ & H) _]. discriminate.
  Qed.

  (** which bypass wins: the declared pair of least rank *)
  Theorem bp_search_winner this ps pd k1 k2 b :
    bp_search this ps pd = Some (k1, k2, b) ->
    exists i j, declared this ps pd i j /\
      k1 = znp (nth i ps (-1)) /\ k2 = znp (nth j pd (-1)) /\ b = bp this k1 k2 /\
      forall i' j', declared this ps pd i' j' -> (i', j') = (i, j) \/ rank_lt (i, j) (i', j').
  Proof using znp bp.
    unfold Bypass.bp_search. intros H.
    apply (first_hit_least rank_lt _ _ _ (search_order_sorted _)) in H as ([i j] & _ & [Hd Hr]%bp_lookup_some & Hn).
    inv Hr. exists i, j. split; [exact Hd|]. do 3 (split; [reflexivity|]).
    intros i' j' Hd'. destruct (Hn (i', j')) as [Hx|[Hx|Hx]]; [| | now left | now right].
    - apply in_search_order. destruct Hd' as (A & B & _). lia.
    - rewrite (proj2 (bp_lookup_some this ps pd i' j' _) (conj Hd' eq_refl)) in Hx. discriminate.
  Qed.

  (** a declared bypass between two zones of the paths is never missed (whatever the two depths) *)
  Theorem bp_search_none this ps pd :
    bp_search this ps pd = None <-> forall i j, ~ declared this ps pd i j.
  Proof using znp bp.
    unfold Bypass.bp_search. rewrite first_hit_none. split.
    - intros H i j Hd. specialize (H (i, j)).
      rewrite (proj2 (bp_lookup_some this ps pd i j _) (conj Hd eq_refl)) in H.
      assert (In (i, j) (search_order (Nat.max (length ps) (length pd)))) as Hin
          by (apply in_search_order; destruct Hd as (A & B & _); lia).
      specialize (H Hin). discriminate.
    - intros H [i j] _. destruct (bp_lookup this ps pd (i, j)) as [r|] eqn:E; [|reflexivity].
      apply bp_lookup_some in E as [Hd _]. destruct (H i j Hd).
  Qed.

  Lemma find_bypass_entry c src dst k1 k2 b :
    find_bypass c src dst = Some (k1, k2, b) -> b = bp c k1 k2 /\ lr_ok b = true.
  Proof.
    unfold Bypass.find_bypass. destruct (_ && _).
    - destruct (lr_ok (bp c src dst)) eqn:E; intros H; inv H; auto.
    - destruct (pop_common _ _) as [a b']. intros H.
      apply bp_search_winner in H as (i & j & (_ & _ & Hd) & -> & -> & -> & _). auto.
  Qed.

  Lemma find_bypass_none_if c src dst : (forall a b, lr_ok (bp c a b) = false) -> find_bypass c src dst = None.
  Proof.
    intros H. unfold Bypass.find_bypass. destruct (_ && _).
    - rewrite H. reflexivity.
    - destruct (pop_common _ _) as [a b']. apply bp_search_none. intros i j (_ & _ & Hd). rewrite H in Hd. discriminate.
  Qed.

  (** one end of a bypass: nothing when the endpoint is the key itself, else the (recursive) route to/from the gateway *)
  Definition leg (rec : Z -> Z -> option seg) (x k gw a b : Z) : option seg :=
    if x =? k then Some nilseg else if gw =? -1 then None else rec a b.

  (** the route in composition form (no accumulator) *)
  Fixpoint gspec_f (fuel : nat) (src dst : Z) : option seg :=
    match fuel with
    | O => None
    | S f =>
        match common_of src dst with
        | None => None
        | Some c =>
            match find_bypass c src dst with
            | Some (k1, k2, b) =>
                match leg (gspec_f f) src k1 (lr_gws b) src (lr_gws b),
                      leg (gspec_f f) dst k2 (lr_gwd b) (lr_gwd b) dst with
                | Some u, Some d => Some (seg_app (seg_app u (lr_links b, lr_lat b)) d)
                | _, _ => None
                end
            | None => global_spec src dst
            end
        end
    end.

  Lemma direct_acc_spec src dst acc :
    direct_acc false src dst acc = omap (fun s => seg_app acc s) (global_spec src dst).
  Proof.
    unfold Bypass.direct_acc. destruct (enz src =? enz dst) eqn:E.
    - unfold GlobalProofs.global_spec. rewrite E. cbn. destruct (lr_ok _); reflexivity.
    - rewrite global_route_composition. destruct (global_spec src dst); reflexivity.
  Qed.

  (** the accumulating code = appending the composed route to what the caller had *)
  Lemma groute_gspec : forall f src dst acc,
    groute false f src dst acc = omap (fun s => seg_app acc s) (gspec_f f src dst).
  Proof.
    induction f as [|f IH]; intros src dst acc; [reflexivity|]. cbn [Bypass.groute gspec_f].
    destruct (common_of src dst) as [c|]; [|reflexivity].
    destruct (find_bypass c src dst) as [[[k1 k2] b]|]; [|apply direct_acc_spec].
    assert (L : forall x k gw a a' acc, (if x =? k then Some acc else if gw =? -1 then None else groute false f a a' acc)
                                        = omap (fun s => seg_app acc s) (leg (gspec_f f) x k gw a a')).
    { intros. unfold leg. destruct (x =? k); [cbn; unfold nilseg; now rewrite seg_app_nil_r|].
      destruct (gw =? -1); [reflexivity | apply IH]. }
    rewrite L. destruct (leg (gspec_f f) src _ _ _ _) as [u|]; [|reflexivity]. cbn [omap].
    change (fst (seg_app acc u) ++ lr_links b, snd (seg_app acc u) + lr_lat b)
      with (seg_app (seg_app acc u) (lr_links b, lr_lat b)).
    rewrite L. destruct (leg (gspec_f f) dst _ _ _ _) as [d|]; cbn [omap]; [|reflexivity]. now rewrite !seg_app_assoc.
  Qed.

  (** declarative, fuel-free: the route is either the plain composition of C24_composition (no bypass applies), or
      up to the gateway of the winning bypass ++ its links ++ down from its other gateway, both ends being routes in
      the same sense *)
  Inductive route_spec : Z -> Z -> seg -> Prop :=
  | RS_direct : forall src dst c s,
      common_of src dst = Some c -> find_bypass c src dst = None ->
      global_spec src dst = Some s -> route_spec src dst s
  | RS_bypass : forall src dst c k1 k2 b u d,
      common_of src dst = Some c -> find_bypass c src dst = Some (k1, k2, b) ->
      leg_spec src k1 (lr_gws b) src (lr_gws b) u ->
      leg_spec dst k2 (lr_gwd b) (lr_gwd b) dst d ->
      route_spec src dst (seg_app (seg_app u (lr_links b, lr_lat b)) d)
  with leg_spec : Z -> Z -> Z -> Z -> Z -> seg -> Prop :=
  | LS_none : forall x gw a b, leg_spec x x gw a b nilseg
  | LS_some : forall x k gw a b s, x <> k -> gw <> -1 -> route_spec a b s -> leg_spec x k gw a b s.

  Scheme route_spec_mut := Minimality for route_spec Sort Prop
    with leg_spec_mut := Minimality for leg_spec Sort Prop.

  Lemma leg_sound (rec : Z -> Z -> option seg) x k gw a b s :
    (forall a b s, rec a b = Some s -> route_spec a b s) ->
    leg rec x k gw a b = Some s -> leg_spec x k gw a b s.
  Proof.
    intros Hrec. unfold leg. destruct (x =? k) eqn:E1.
    - intros H; inv H. apply Z.eqb_eq in E1. subst. constructor.
    - destruct (gw =? -1) eqn:E2; [discriminate|]. intros H.
      apply Z.eqb_neq in E1. apply Z.eqb_neq in E2. apply LS_some; auto.
  Qed.

  Lemma gspec_sound : forall f src dst s, gspec_f f src dst = Some s -> route_spec src dst s.
  Proof.
    induction f as [|f IH]; intros src dst s H; [discriminate|].
    cbn [gspec_f] in H.
    destruct (common_of src dst) as [c|] eqn:C; [|discriminate].
    destruct (find_bypass c src dst) as [[[k1 k2] b]|] eqn:F.
    - destruct (leg (gspec_f f) src k1 (lr_gws b) src (lr_gws b)) as [u|] eqn:U; [|discriminate].
      destruct (leg (gspec_f f) dst k2 (lr_gwd b) (lr_gwd b) dst) as [d|] eqn:D; [|discriminate].
      inv H. eapply RS_bypass; eauto using leg_sound.
    - eapply RS_direct; eauto.
  Qed.

  Lemma leg_mono (rec rec' : Z -> Z -> option seg) x k gw a b s :
    (forall a b s, rec a b = Some s -> rec' a b = Some s) ->
    leg rec x k gw a b = Some s -> leg rec' x k gw a b = Some s.
  Proof. intros H. unfold leg. destruct (x =? k); [auto|]. destruct (gw =? -1); auto. Qed.

  Lemma gspec_mono : forall f src dst s, gspec_f f src dst = Some s -> gspec_f (S f) src dst = Some s.
  Proof.
    induction f as [|f IH]; intros src dst s H; [discriminate|].
    cbn [gspec_f] in H. remember (S f) as f' eqn:Ef. cbn [gspec_f]. subst f'.
    destruct (common_of src dst) as [c|]; [|discriminate].
    destruct (find_bypass c src dst) as [[[k1 k2] b]|]; [|exact H].
    destruct (leg (gspec_f f) src k1 (lr_gws b) src (lr_gws b)) as [u|] eqn:U; [|discriminate].
    destruct (leg (gspec_f f) dst k2 (lr_gwd b) (lr_gwd b) dst) as [d|] eqn:D; [|discriminate].
    rewrite (leg_mono _ (gspec_f (S f)) _ _ _ _ _ _ IH U), (leg_mono _ (gspec_f (S f)) _ _ _ _ _ _ IH D). exact H.
  Qed.

  Lemma gspec_mono_le f f' src dst s : (f <= f')%nat -> gspec_f f src dst = Some s -> gspec_f f' src dst = Some s.
  Proof. induction 1; auto using gspec_mono. Qed.

  Lemma gspec_complete src dst s : route_spec src dst s -> exists f, gspec_f f src dst = Some s.
  Proof.
    revert src dst s.
    apply (route_spec_mut
             (fun src dst s => exists f, gspec_f f src dst = Some s)
             (fun x k gw a b s => exists f, leg (gspec_f f) x k gw a b = Some s)).
    - intros src dst c s C F G. exists 1%nat. cbn [gspec_f]. rewrite C, F. exact G.
    - intros src dst c k1 k2 b u d C F _ [f1 U] _ [f2 D].
      exists (S (Nat.max f1 f2)). cbn [gspec_f]. rewrite C, F.
      rewrite (leg_mono (gspec_f f1) (gspec_f (Nat.max f1 f2)) _ _ _ _ _ _
                        (fun a b s => gspec_mono_le f1 _ a b s (Nat.le_max_l _ _)) U).
      rewrite (leg_mono (gspec_f f2) (gspec_f (Nat.max f1 f2)) _ _ _ _ _ _
                        (fun a b s => gspec_mono_le f2 _ a b s (Nat.le_max_r _ _)) D).
      reflexivity.
    - intros x gw a b. exists 0%nat. unfold leg. rewrite Z.eqb_refl. reflexivity.
    - intros x k gw a b s N1 N2 _ [f H]. exists f. unfold leg.
      apply Z.eqb_neq in N1. apply Z.eqb_neq in N2. rewrite N1, N2. exact H.
  Qed.

  Lemma groute_nil f src dst : groute false f src dst nilseg = gspec_f f src dst.
  Proof. rewrite groute_gspec. destruct (gspec_f f src dst) as [[ls l]|]; reflexivity. Qed.

  Theorem groute_sound fuel src dst s : groute false fuel src dst nilseg = Some s -> route_spec src dst s.
  Proof. rewrite groute_nil. apply gspec_sound. Qed.

  Theorem groute_complete src dst s :
    route_spec src dst s -> exists fuel, forall fuel', (fuel <= fuel')%nat -> groute false fuel' src dst nilseg = Some s.
  Proof.
    intros H. apply gspec_complete in H as [f H]. exists f. intros f' L.
    rewrite groute_nil. exact (gspec_mono_le f f' _ _ _ L H).
  Qed.

  Lemma global_spec_no_common src dst : common_of src dst = None -> global_spec src dst = None.
  Proof.
    unfold Bypass.common_of, GlobalProofs.global_spec.
    destruct (enz src =? enz dst); [discriminate|].
    destruct (zones_of parent enz depth src) as [|rs ps]; [reflexivity|].
    destruct (zones_of parent enz depth dst) as [|rd pd]; [reflexivity|].
    destruct (negb (rs =? rd)); [reflexivity|].
    destruct (drop_common ps pd rs) as [[c' sp] dp]. discriminate.
  Qed.

  (** without bypass routes the route is the one of C24_composition *)
  Theorem groute_no_bypass fuel src dst :
    (forall z a b, lr_ok (bp z a b) = false) ->
    groute false (S fuel) src dst nilseg = global_route false src dst.
  Proof.
    intros H. rewrite groute_nil, global_route_composition. cbn [gspec_f].
    destruct (common_of src dst) as [c|] eqn:C; [now rewrite find_bypass_none_if | now rewrite global_spec_no_common].
  Qed.

  Variable lat : Z -> Z.
  Hypothesis Hlat : forall z a b, lr_ok (local z a b) = true -> lr_lat (local z a b) = lat_sum lat (lr_links (local z a b)).
  Hypothesis Hblat : forall z a b, lr_ok (bp z a b) = true -> lr_lat (bp z a b) = lat_sum lat (lr_links (bp z a b)).

  Lemma route_spec_lat src dst s : route_spec src dst s -> seg_ok lat s.
  Proof.
    revert src dst s.
    apply (route_spec_mut (fun _ _ s => seg_ok lat s) (fun _ _ _ _ _ s => seg_ok lat s)).
    - intros src dst c [ls l] _ _ G. rewrite <- global_route_composition in G.
      unfold seg_ok. simpl. exact (global_latency_sum parent znp zgw enz is_zone local depth lat Hlat src dst ls l G).
    - intros src dst c k1 k2 b u d _ F _ U _ D.
      apply find_bypass_entry in F as [-> Ok].
      apply seg_ok_app; [apply seg_ok_app|]; auto. now apply Hblat.
    - intros. reflexivity.
    - intros. assumption.
  Qed.

  Theorem groute_latency_sum fuel src dst ls l :
    groute false fuel src dst nilseg = Some (ls, l) -> l = lat_sum lat ls.
  Proof. intros H. apply groute_sound in H. apply route_spec_lat in H. exact H. Qed.
End BypassP.

(** endpoints at unequal depths.  Zones T(0) > A(1, Star) > A1(2) and T > B(3, Dijkstra: builds its route backwards).
    Netpoints hA1(0) rA1(1) in A1, rA(2) in A, hB(3) rB(4) in B, A(5) and B(7) in T, A1(6) in A.
    T declares the route A -> B = [10] and the bypass A -> B = [20] through the gateways rA, rB: key = index pair (1, 0). *)
Definition bw_local : list lentry :=
  [ mkle 2 0 1 (mklr true [1] 1 (-1) (-1));         (* A1: hA1 -> rA1 *)
    mkle 1 6 2 (mklr true [2] 2 1 (-1));            (* A: A1 -> rA, gw_src = rA1 *)
    mkle 0 5 7 (mklr true [10] 10 2 4);             (* T: A -> B through rA, rB *)
    mkle 3 4 3 (mklr true [3] 3 (-1) (-1)) ].       (* B: rB -> hB *)
Definition bw_bypass : list lentry := [ mkle 0 5 7 (mklr true [20] 20 2 4) ].
Definition bw_parent (z : Z) : Z := if z =? 1 then 0 else if z =? 2 then 1 else if z =? 3 then 0 else -1.
Definition bw_znp (z : Z) : Z := if z =? 1 then 5 else if z =? 2 then 6 else if z =? 3 then 7 else 8.
Definition bw_enz (p : Z) : Z := if p <? 2 then 2 else if p =? 2 then 1 else if p <? 5 then 3 else if p =? 6 then 1 else 0.
Definition bw_route (table : list lentry) (pin : bool) :=
  groute bw_parent bw_znp (fun _ => -1) bw_enz (fun p => 5 <=? p) (lookup bw_local) 5 (lookup table)
         (fun z => z =? 3) pin 6 0 3 nilseg.
