(** C26.  Ranks and coordinates are in bijection; the routers' part of a dragonfly route is a walk from the source's
    router to the destination's ([df_hops_walk_c]), and the colours of its links are exactly those the hierarchy
    needs ([df_hops_kinds]). *)
From SGV Require Import Base.PlainLia Base.Facts Routing.Dragonfly.
Local Open Scope Z_scope.

Lemma valid_pos p : df_valid p = true -> 0 < df_g p /\ 0 < df_c p /\ 0 < df_b p /\ 0 < df_n p.
Proof. unfold df_valid. intros H. lia. Qed.

Lemma df_rank_coords p : df_valid p = true -> forall r, 0 <= r < df_g p * df_c p * df_b p * df_n p ->
  coords_in_range p (rank_to_coords p r) /\ coords_to_rank p (rank_to_coords p r) = r.
Proof.
  intros V r Hr. destruct (valid_pos p V) as (HG & HC & HB & Hn).
  unfold rank_to_coords, coords_to_rank, coords_in_range. cbn [dc_group dc_chassis dc_blade dc_node].
  set (M3 := df_c p * df_b p * df_n p). set (M2 := df_b p * df_n p).
  assert (P2 : 0 < M2) by now apply Z.mul_pos_pos.
  assert (P3 : 0 < M3) by (unfold M3; rewrite <- Z.mul_assoc; now apply Z.mul_pos_pos).
  destruct (divmod_range r (df_g p) M3 P3) as (R3 & B3 & D3); [unfold M3; now rewrite !Z.mul_assoc|].
  destruct (divmod_range (r mod M3) (df_c p) M2 P2) as (R2 & B2 & D2); [unfold M2; now rewrite Z.mul_assoc|].
  destruct (divmod_range (r mod M3 mod M2) (df_b p) (df_n p) Hn B2) as (R1 & B1 & D1).
  split; [auto|]. symmetry. rewrite D3 at 1. rewrite D2 at 1. rewrite D1 at 1. unfold M3, M2. ring.
Qed.

Lemma df_coords_rank p : df_valid p = true -> forall c, coords_in_range p c ->
  0 <= coords_to_rank p c < df_g p * df_c p * df_b p * df_n p /\ rank_to_coords p (coords_to_rank p c) = c.
Proof.
  intros V [g c b nd] [Hg [Hc [Hb Hnd]]]. destruct (valid_pos p V) as [HG [HC [HB Hn]]].
  cbn [dc_group dc_chassis dc_blade dc_node] in *.
  unfold coords_to_rank, rank_to_coords. cbn [dc_group dc_chassis dc_blade dc_node].
  set (M3 := df_c p * df_b p * df_n p). set (M2 := df_b p * df_n p).
  assert (E2 : 0 <= b * df_n p + nd < M2) by (unfold M2; nia).
  assert (E3 : 0 <= c * M2 + (b * df_n p + nd) < M3).
  { unfold M3. replace (df_c p * df_b p * df_n p) with (df_c p * M2) by (unfold M2; ring). nia. }
  replace (((g * df_c p + c) * df_b p + b) * df_n p + nd) with (g * M3 + (c * M2 + (b * df_n p + nd)))
    by (unfold M3, M2; ring).
  split.
  - replace (df_g p * df_c p * df_b p * df_n p) with (df_g p * M3) by (unfold M3; ring). nia.
  - destruct (divmod_pair g _ M3 E3) as [-> ->]. destruct (divmod_pair c _ M2 E2) as [-> ->].
    now destruct (divmod_pair b nd (df_n p) Hnd) as [-> ->].
Qed.

(** the router stored at routers_[router_flat r] is r *)
Lemma df_router_flat p : df_valid p = true -> forall r,
  0 <= dr_chassis r < df_c p -> 0 <= dr_blade r < df_b p -> router_unflat p (router_flat p r) = r.
Proof.
  intros V [g c b] Hc Hb. destruct (valid_pos p V) as [HG [HC [HB Hn]]]. cbn [dr_group dr_chassis dr_blade] in *.
  unfold router_flat, router_unflat. cbn [dr_group dr_chassis dr_blade].
  assert (E : 0 <= c * df_b p + b < df_c p * df_b p) by nia.
  destruct (divmod_pair (g * df_c p + c) b (df_b p) Hb) as [_ M].
  replace ((g * df_c p + c) * df_b p + b) with (g * (df_c p * df_b p) + c * df_b p + b) in M by ring. rewrite M.
  rewrite <- Z.add_assoc. destruct (divmod_pair g _ _ E) as [-> ->]. now destruct (divmod_pair c b (df_b p) Hb) as [-> _].
Qed.

Lemma dr_eqb_refl r : dr_eqb r r = true.
Proof. unfold dr_eqb. now rewrite !Z.eqb_refl. Qed.

Lemma dr_eqb_eq x y : dr_eqb x y = true -> x = y.
Proof. destruct x as [g c b], y as [g' c' b']. unfold dr_eqb. cbn [dr_group dr_chassis dr_blade]. intros H. f_equal; lia. Qed.

Lemma cell_cases (P : dlink -> Prop) x k u d : x <> k -> P u -> P d ->
  P (if x <? k then u else if k <? x then d else DNull).
Proof. intros H Hu Hd. destruct (Z.ltb_spec x k); [assumption|]. destruct (Z.ltb_spec k x); [assumption | lia]. Qed.

Lemma green_hop p r k : dr_blade r <> k ->
  hop_dest p (r, green_cell r k) = Some (mkdr (dr_group r) (dr_chassis r) k).
Proof.
  intros H. destruct r as [g c b]. unfold green_cell.
  apply cell_cases; [exact H | |]; unfold hop_dest; cbn; now rewrite dr_eqb_refl.
Qed.

Lemma black_hop p r k : dr_chassis r <> k ->
  hop_dest p (r, black_cell r k) = Some (mkdr (dr_group r) k (dr_blade r)).
Proof.
  intros H. destruct r as [g c b]. unfold black_cell.
  apply cell_cases; [exact H | |]; unfold hop_dest; cbn; now rewrite dr_eqb_refl.
Qed.

(** the router number m (chassis 0, blade m < B) of group g holds the blue link to group m *)
Lemma blue_hop p g m : 0 < df_b p -> 0 <= g < df_b p -> 0 <= m < df_b p -> m < df_g p -> g <> m ->
  hop_dest p (mkdr g 0 m, blue_cell p (mkdr g 0 m)) = Some (mkdr m 0 g).
Proof.
  intros HB Hg Hm HG Hne. unfold hop_dest, blue_cell. cbn [fst snd dr_group dr_chassis dr_blade].
  rewrite Z.mul_0_l, Z.add_0_l. rewrite (proj2 (Z.ltb_lt m (df_g p)) HG).
  destruct (Z.ltb_spec g m); [|destruct (Z.ltb_spec m g); [|lia]]; cbn [link_ends link_up];
    rewrite (Z.div_small m), (Z.mod_small m), (Z.div_small g), (Z.mod_small g), dr_eqb_refl by assumption; reflexivity.
Qed.

Lemma walk_app p : forall hs1 a m hs2,
  df_walk_end p a hs1 = Some m -> df_walk_end p a (hs1 ++ hs2) = df_walk_end p m hs2.
Proof.
  induction hs1 as [|h r IH]; simpl; intros a m hs2 H.
  - inv H. reflexivity.
  - destruct (dr_eqb (fst h) a); [|discriminate]. destruct (hop_dest p h) as [x|]; [|discriminate].
    apply IH. exact H.
Qed.

Lemma walk_cons p a l b r : hop_dest p (a, l) = Some b -> df_walk_end p a ((a, l) :: r) = df_walk_end p b r.
Proof. intros H. simpl. now rewrite dr_eqb_refl, H. Qed.

(** stage A: from my router to the router number [group of my node] of the destination group *)
Lemma stage_a_walk p ms tc : df_valid p = true -> df_g p <= df_b p ->
  coords_in_range p ms -> coords_in_range p tc -> dc_group ms <> dc_group tc ->
  df_walk_end p (router_of ms) (fst (df_stage_a p ms tc (router_of ms))) = Some (snd (df_stage_a p ms tc (router_of ms))).
Proof.
  intros V GB [Hg _] [Tg _] Hne. destruct (valid_pos p V) as (_ & _ & HB & _).
  destruct ms as [gs cs bs ns], tc as [gt ct bt nt]. cbn [dc_group] in *.
  assert (Blue : hop_dest p (mkdr gs 0 gt, blue_cell p (mkdr gs 0 gt)) = Some (mkdr gt 0 gs)) by (apply blue_hop; lia).
  unfold df_stage_a, router_of. cbn [dc_group dc_chassis dc_blade dr_blade].
  destruct (Z.eqb_spec bs gt) as [->|E1]; cbn [negb fst snd dr_chassis];
    destruct (Z.eqb_spec cs 0) as [->|E2]; cbn [negb fst snd app].
  - now rewrite (walk_cons p _ _ _ _ Blue).
  - rewrite (walk_cons p _ _ _ _ (black_hop p (mkdr gs cs gt) 0 E2)). now rewrite (walk_cons p _ _ _ _ Blue).
  - rewrite (walk_cons p _ _ _ _ (green_hop p (mkdr gs 0 bs) gt E1)). now rewrite (walk_cons p _ _ _ _ Blue).
  - rewrite (walk_cons p _ _ _ _ (green_hop p (mkdr gs cs bs) gt E1)).
    rewrite (walk_cons p _ _ _ _ (black_hop p (mkdr gs cs gt) 0 E2)). now rewrite (walk_cons p _ _ _ _ Blue).
Qed.

Lemma stage_b_walk p tc cur : dr_group cur = dc_group tc ->
  df_walk_end p cur (fst (df_stage_b true tc cur)) = Some (snd (df_stage_b true tc cur)) /\
  snd (df_stage_b true tc cur) = mkdr (dc_group tc) (dr_chassis cur) (dc_blade tc).
Proof.
  intros G. unfold df_stage_b. destruct (Z.eqb_spec (dc_blade tc) (dr_blade cur)) as [E|E]; cbn [negb fst snd].
  - split; [reflexivity|]. rewrite <- G, E. now destruct cur.
  - split; [|reflexivity]. rewrite (walk_cons p _ _ _ _ (green_hop p cur _ (not_eq_sym E))). now rewrite G.
Qed.

Lemma stage_c_walk p tc cur : dr_group cur = dc_group tc -> dr_blade cur = dc_blade tc ->
  df_walk_end p cur (df_stage_c tc cur) = Some (router_of tc).
Proof.
  intros G B. unfold df_stage_c, router_of. rewrite <- G, <- B.
  destruct (Z.eqb_spec (dc_chassis tc) (dr_chassis cur)) as [->|E]; cbn [negb].
  - now destruct cur.
  - now rewrite (walk_cons p _ _ _ _ (black_hop p cur _ (not_eq_sym E))).
Qed.

(** the routers' part of the route is a walk from the source's router to the destination's router: every hop leaves
    the router reached so far through a link that this router holds, and the walk ends at the destination's router *)
Theorem df_hops_walk_c p ms tc : df_valid p = true -> df_g p <= df_b p ->
  coords_in_range p ms -> coords_in_range p tc ->
  df_walk_end p (router_of ms) (df_hops_c true p ms tc) = Some (router_of tc).
Proof.
  intros V GB Hs Ht. unfold df_hops_c.
  destruct (dr_eqb (router_of ms) (router_of tc)) eqn:E0; [apply dr_eqb_eq in E0; now rewrite E0|].
  set (a := if negb _ then _ else _).
  assert (A : df_walk_end p (router_of ms) (fst a) = Some (snd a) /\ dr_group (snd a) = dc_group tc).
  { unfold a. cbn [router_of dr_group]. destruct (Z.eqb_spec (dc_group tc) (dc_group ms)) as [E|E]; cbn [negb].
    - now split.
    - split; [apply stage_a_walk; auto | reflexivity]. }
  destruct A as [WA GA]. destruct (stage_b_walk p tc (snd a) GA) as [WB EB].
  rewrite (walk_app p _ _ _ _ WA), (walk_app p _ _ _ _ WB), EB. now apply stage_c_walk.
Qed.

Definition link_kind (l : dlink) : Z :=
  match l with DGreen _ _ _ _ _ => 1 | DBlack _ _ _ _ _ => 2 | DBlue _ _ _ => 3 | _ => 0 end.

Lemma kind_green r k : dr_blade r <> k -> link_kind (green_cell r k) = 1.
Proof. intros H. unfold green_cell. now apply cell_cases. Qed.

Lemma kind_black r k : dr_chassis r <> k -> link_kind (black_cell r k) = 2.
Proof. intros H. unfold black_cell. now apply cell_cases. Qed.

Lemma kind_blue p g m : g <> m -> m < df_g p -> link_kind (blue_cell p (mkdr g 0 m)) = 3.
Proof.
  intros H1 H2. unfold blue_cell. cbn [dr_group dr_chassis dr_blade]. rewrite Z.mul_0_l, Z.add_0_l.
  rewrite (proj2 (Z.ltb_lt m (df_g p)) H2). now apply cell_cases.
Qed.

Definition hop_kinds (hs : list (drouter * dlink)) : list Z := map (fun h => link_kind (snd h)) hs.

Lemma hop_kinds_app a b : hop_kinds (a ++ b) = hop_kinds a ++ hop_kinds b.
Proof. apply map_app. Qed.

Lemma stage_b_kinds tc cur :
  hop_kinds (fst (df_stage_b true tc cur)) = (if dc_blade tc =? dr_blade cur then [] else [1]) /\
  dr_chassis (snd (df_stage_b true tc cur)) = dr_chassis cur.
Proof.
  unfold df_stage_b, hop_kinds. destruct (Z.eqb_spec (dc_blade tc) (dr_blade cur)) as [E|E]; cbn [negb fst snd map dr_chassis].
  - now split.
  - now rewrite kind_green by congruence.
Qed.

Lemma stage_c_kinds tc cur :
  hop_kinds (df_stage_c tc cur) = (if dc_chassis tc =? dr_chassis cur then [] else [2]).
Proof.
  unfold df_stage_c, hop_kinds. destruct (Z.eqb_spec (dc_chassis tc) (dr_chassis cur)) as [E|E]; cbn [negb fst snd map].
  - reflexivity.
  - now rewrite kind_black by congruence.
Qed.

Lemma stage_a_kinds p ms tc : dc_group ms <> dc_group tc -> dc_group tc < df_g p ->
  hop_kinds (fst (df_stage_a p ms tc (router_of ms))) =
    (if dc_blade ms =? dc_group tc then [] else [1]) ++ (if dc_chassis ms =? 0 then [] else [2]) ++ [3].
Proof.
  destruct ms as [gs cs bs ns], tc as [gt ct bt nt]. cbn [dc_group dc_chassis dc_blade]. intros Hne HG.
  unfold df_stage_a, router_of. cbn [dc_group dc_chassis dc_blade dr_blade].
  destruct (Z.eqb_spec bs gt) as [->|E1]; cbn [negb fst snd dr_chassis];
    destruct (Z.eqb_spec cs 0) as [->|E2]; cbn [negb fst snd app hop_kinds map].
  - now rewrite kind_blue.
  - now rewrite kind_black, kind_blue.
  - now rewrite kind_green, kind_blue.
  - now rewrite kind_green, kind_black, kind_blue.
Qed.

(** green = 1, black = 2, blue = 3: inside a group at most one green then at most one black hop, exactly those needed
    (minimal: one hop per coordinate that differs); between groups: to the router holding the blue link to the
    destination group (at most green, black), the blue link, then inside the destination group as above *)
Theorem df_hops_kinds p ms tc : df_valid p = true -> df_g p <= df_b p ->
  coords_in_range p ms -> coords_in_range p tc ->
  hop_kinds (df_hops_c true p ms tc) =
  if dr_eqb (router_of ms) (router_of tc) then []
  else if dc_group tc =? dc_group ms
       then (if dc_blade tc =? dc_blade ms then [] else [1]) ++ (if dc_chassis tc =? dc_chassis ms then [] else [2])
       else (if dc_blade ms =? dc_group tc then [] else [1]) ++ (if dc_chassis ms =? 0 then [] else [2]) ++ [3] ++
            (if dc_blade tc =? dc_group ms then [] else [1]) ++ (if dc_chassis tc =? 0 then [] else [2]).
Proof.
  intros V GB [Hg [Hc [Hb _]]] [Tg [Tc [Tb _]]]. unfold df_hops_c.
  destruct (dr_eqb (router_of ms) (router_of tc)) eqn:E0; [reflexivity|].
  change (dr_group (router_of tc)) with (dc_group tc). change (dr_group (router_of ms)) with (dc_group ms).
  destruct (dc_group tc =? dc_group ms) eqn:Eg; cbn [negb].
  - cbn [fst snd app]. rewrite hop_kinds_app.
    destruct (stage_b_kinds tc (router_of ms)) as [K1 K2]. rewrite K1, stage_c_kinds, K2. reflexivity.
  - apply Z.eqb_neq in Eg. rewrite !hop_kinds_app. rewrite stage_a_kinds by lia.
    change (snd (df_stage_a p ms tc (router_of ms))) with (mkdr (dc_group tc) 0 (dc_group ms)).
    destruct (stage_b_kinds tc (mkdr (dc_group tc) 0 (dc_group ms))) as [K1 K2]. rewrite K1, stage_c_kinds, K2.
    cbn [dr_blade dr_chassis]. rewrite <- !app_assoc. reflexivity.
Qed.

(** what the links join: a green link two blades of one chassis, a black link two chassis of one group at the same
    blade, a blue link two different groups *)
Lemma link_ends_hierarchy p l a b : link_ends p l = Some (a, b) ->
  match l with
  | DGreen _ _ j k _ => dr_group a = dr_group b /\ dr_chassis a = dr_chassis b /\ dr_blade a = j /\ dr_blade b = k
  | DBlack _ j k _ _ => dr_group a = dr_group b /\ dr_blade a = dr_blade b /\ dr_chassis a = j /\ dr_chassis b = k
  | DBlue i j _ => dr_group a = i /\ dr_group b = j
  | _ => False
  end.
Proof. destruct l; simpl; intros H; inv H; cbn; auto. Qed.

Definition is_dlim (l : dlink) : bool := match l with DLimNode _ | DLimRouter _ => true | _ => false end.

Lemma df_route_loopback keep p lim s : df_route keep p true lim s s = [DLoop s].
Proof. unfold df_route. now rewrite Z.eqb_refl. Qed.

Lemma df_route_no_limiter keep p lb s t : (s =? t) && lb = false ->
  df_route keep p lb false s t =
  DLocal (router_of (rank_to_coords p s)) (dc_node (rank_to_coords p s)) true :: map snd (df_hops keep p s t) ++
  [DLocal (router_of (rank_to_coords p t)) (dc_node (rank_to_coords p t)) false].
Proof.
  intros H. unfold df_route. rewrite H. cbn [app]. f_equal. f_equal.
  apply flat_map_one, Forall_forall. intros h _. unfold df_hop_links. now destruct (is_blue (snd h)).
Qed.

Lemma hop_links_lim h : is_dlim (snd h) = false ->
  filter is_dlim (df_hop_links true h) = [DLimRouter (fst h)] /\
  filter (fun l => negb (is_dlim l)) (df_hop_links true h) = [snd h].
Proof. intros Hh. unfold df_hop_links. destruct (is_blue (snd h)); cbn [filter app is_dlim negb]; now rewrite Hh. Qed.

Lemma df_route_limiters keep p lb s t : (s =? t) && lb = false ->
  Forall (fun h => is_dlim (snd h) = false) (df_hops keep p s t) ->
  filter is_dlim (df_route keep p lb true s t) =
    DLimNode s :: map (fun h => DLimRouter (fst h)) (df_hops keep p s t) ++
    [DLimRouter (router_of (rank_to_coords p t)); DLimNode t] /\
  filter (fun l => negb (is_dlim l)) (df_route keep p lb true s t) = df_route keep p lb false s t.
Proof.
  intros H F. rewrite (df_route_no_limiter keep p lb s t H). unfold df_route. rewrite H, !filter_app, !filter_flat_map.
  rewrite (flat_map_one _ (fun h => DLimRouter (fst h))), (flat_map_one _ snd); [now split | |];
    (eapply Forall_impl; [|exact F]); intros h Hh; now apply hop_links_lim.
Qed.

Lemma green_cell_not_lim r k : is_dlim (green_cell r k) = false.
Proof. unfold green_cell. destruct (dr_blade r <? k); [reflexivity|]. now destruct (k <? dr_blade r). Qed.
Lemma black_cell_not_lim r k : is_dlim (black_cell r k) = false.
Proof. unfold black_cell. destruct (dr_chassis r <? k); [reflexivity|]. now destruct (k <? dr_chassis r). Qed.
Lemma blue_cell_not_lim p r : is_dlim (blue_cell p r) = false.
Proof.
  unfold blue_cell. destruct (dr_group r <? _); [now destruct (_ <? df_g p)|]. now destruct (_ <? dr_group r).
Qed.

Lemma stage_a_not_lim p ms tc my : Forall (fun h => is_dlim (snd h) = false) (fst (df_stage_a p ms tc my)).
Proof.
  unfold df_stage_a. cbn [fst]. repeat (apply Forall_app; split).
  - destruct (negb _); repeat constructor. apply green_cell_not_lim.
  - destruct (negb _); repeat constructor. apply black_cell_not_lim.
  - repeat constructor. apply blue_cell_not_lim.
Qed.

Lemma stage_b_not_lim keep tc cur : Forall (fun h => is_dlim (snd h) = false) (fst (df_stage_b keep tc cur)).
Proof. unfold df_stage_b. destruct (negb _); repeat constructor. apply green_cell_not_lim. Qed.

Lemma stage_c_not_lim tc cur : Forall (fun h => is_dlim (snd h) = false) (df_stage_c tc cur).
Proof. unfold df_stage_c. destruct (negb _); repeat constructor. apply black_cell_not_lim. Qed.

Lemma df_hops_not_lim keep p s t : Forall (fun h => is_dlim (snd h) = false) (df_hops keep p s t).
Proof.
  unfold df_hops, df_hops_c. destruct (dr_eqb _ _); [constructor|]. repeat (apply Forall_app; split).
  - destruct (negb _); [apply stage_a_not_lim | constructor].
  - apply stage_b_not_lim.
  - apply stage_c_not_lim.
Qed.
