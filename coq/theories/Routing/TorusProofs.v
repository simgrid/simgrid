(** C26.  The torus route is shown equal to an explicit list of hops ([torus_spec]: dimension after dimension, the
    shorter way round each ring); what is claimed of the route is then read off that list.  The star route is the
    declared links with repeats dropped ([dedup]). *)
From SGV Require Import Base.PlainLia Base.Facts Routing.Torus.
From Coq Require Import Sorted.
Local Open Scope Z_scope.

(** residues of numbers at most one period outside [0, d); [mod_succ_cases] and [mod_pred_cases] have the tests the
    C++ makes when it steps over the wrap-around *)
Lemma mod_sub_cases d a b : 0 <= a < d -> 0 <= b < d -> (a - b) mod d = if b <=? a then a - b else a - b + d.
Proof.
  intros Ha Hb. symmetry.
  destruct (b <=? a) eqn:E; [apply Z.mod_unique_pos with 0 | apply Z.mod_unique_pos with (-1)]; lia.
Qed.

Lemma mod_add_cases d a b : 0 <= a < d -> 0 <= b <= d -> (a + b) mod d = if a + b <? d then a + b else a + b - d.
Proof.
  intros Ha Hb. symmetry.
  destruct (a + b <? d) eqn:E; [apply Z.mod_unique_pos with 0 | apply Z.mod_unique_pos with 1]; lia.
Qed.

Lemma mod_succ_cases d c : 0 <= c < d -> (c + 1) mod d = if c =? d - 1 then 0 else c + 1.
Proof.
  intros Hc. symmetry.
  destruct (c =? d - 1) eqn:E; [apply Z.mod_unique_pos with 1 | apply Z.mod_unique_pos with 0]; lia.
Qed.

Lemma mod_pred_cases d c : 0 <= c < d -> (c - 1) mod d = if c =? 0 then d - 1 else c - 1.
Proof.
  intros Hc. symmetry.
  destruct (c =? 0) eqn:E; [apply Z.mod_unique_pos with (-1) | apply Z.mod_unique_pos with 0]; lia.
Qed.

Definition dist_up (m t d : Z) := (t - m) mod d.
Definition dist_down (m t d : Z) := (m - t) mod d.

(** the direction test of the C++ picks a shorter way round (ties: either) *)
Lemma right_way_shorter m t d : 0 < d -> 0 <= m < d -> 0 <= t < d -> m <> t ->
  (right_way m t d = true -> dist_up m t d <= dist_down m t d) /\
  (right_way m t d = false -> dist_down m t d <= dist_up m t d).
Proof.
  intros Hd Hm Ht Hne. unfold right_way, dist_up, dist_down.
  assert (H2 : 2 * (d / 2) <= d < 2 * (d / 2) + 2) by (Z.div_mod_to_equations; lia).
  rewrite (mod_add_cases d m (d / 2)), (mod_sub_cases d t m), (mod_sub_cases d m t) by lia.
  destruct (m + d / 2 <? d) eqn:A, (m <=? t) eqn:B, (t <=? m) eqn:C; lia.
Qed.

Lemma dist_sum m t d : 0 < d -> 0 <= m < d -> 0 <= t < d -> m <> t -> dist_up m t d + dist_down m t d = d.
Proof.
  intros Hd Hm Ht Hne. unfold dist_up, dist_down. rewrite !mod_sub_cases by assumption.
  destruct (m <=? t) eqn:A, (t <=? m) eqn:B; lia.
Qed.

Definition posl (dims : list Z) := Forall (fun d => 0 < d) dims.

Lemma prodz_pos dims : posl dims -> 0 < prodz dims.
Proof. induction 1; simpl; [reflexivity | now apply Z.mul_pos_pos]. Qed.

Lemma coord_range dp d x : 0 < d -> 0 <= coord dp d x < d.
Proof. intros. now apply Z.mod_pos_bound. Qed.

Lemma coord_decomp dp d x : 0 < dp -> 0 < d -> x = (x / (dp * d) * d + coord dp d x) * dp + x mod dp.
Proof.
  intros Hdp Hd. unfold coord. rewrite <- Z.div_div by lia.
  rewrite (Z.mul_comm _ d), <- Z_div_mod_eq_full, Z.mul_comm. apply Z_div_mod_eq_full.
Qed.

Lemma coord_compose dp d q c r : 0 < dp -> 0 <= c < d -> 0 <= r < dp ->
  let x := (q * d + c) * dp + r in x / (dp * d) = q /\ coord dp d x = c.
Proof.
  intros Hdp Hc Hr x. subst x. unfold coord. rewrite <- Z.div_div by lia.
  destruct (divmod_pair (q * d + c) r dp Hr) as [-> _]. destruct (divmod_pair q c d Hc) as [-> ->]. auto.
Qed.

Lemma coord_move_head dp d x c' : 0 < dp -> 0 < d -> 0 <= c' < d ->
  let x' := x + dp * (c' - coord dp d x) in
  coord dp d x' = c' /\ x' / (dp * d) = x / (dp * d).
Proof.
  intros Hdp Hd Hc x'.
  replace x' with ((x / (dp * d) * d + c') * dp + x mod dp)
    by (unfold x'; rewrite (coord_decomp dp d x Hdp Hd) at 3; ring).
  destruct (coord_compose dp d (x / (dp * d)) c' (x mod dp)) as (A & B); auto using Z.mod_pos_bound.
Qed.

Lemma coord_add_mult dp d x k : 0 < dp -> 0 < d -> coord dp d (x + dp * d * k) = coord dp d x.
Proof.
  intros. unfold coord. rewrite <- Z.mul_assoc, (Z.mul_comm dp), Z.div_add by lia.
  rewrite (Z.mul_comm d). apply Z_mod_plus_full.
Qed.

Lemma coords_ext r : forall D x y, 0 < D -> posl r -> x / D = y / D -> coords r D x = coords r D y.
Proof.
  induction r as [|a r IH]; intros D x y HD Hp E; simpl; [reflexivity|].
  inv Hp. f_equal.
  - unfold coord. now rewrite E.
  - apply IH; [now apply Z.mul_pos_pos | assumption |]. rewrite <- !Z.div_div by lia. now rewrite E.
Qed.

Fixpoint upd (j : nat) (v : Z) (l : list Z) : list Z :=
  match l, j with
  | [], _ => []
  | _ :: r, O => v :: r
  | a :: r, S j' => a :: upd j' v r
  end.

Lemma stride_S d r j : stride (d :: r) (S j) = (d * fst (stride r j), snd (stride r j)).
Proof. simpl. now destruct (stride r j). Qed.

Lemma stride_pos dims : posl dims -> forall j, 0 < fst (stride dims j) /\ 0 < snd (stride dims j).
Proof.
  induction 1 as [|d r Hd Hr IH]; intros [|j]; try (simpl; lia).
  rewrite stride_S. destruct (IH j). split; [now apply Z.mul_pos_pos | assumption].
Qed.

(** moving along dimension j (to coordinate c') changes that coordinate only and stays in the same "block" of the
    whole torus *)
Lemma move_coords dims : posl dims -> forall j dp x c', 0 < dp -> (j < length dims)%nat ->
  0 <= c' < snd (stride dims j) ->
  let x' := x + dp * fst (stride dims j) * (c' - coord (dp * fst (stride dims j)) (snd (stride dims j)) x) in
  coords dims dp x' = upd j c' (coords dims dp x) /\ x' / (dp * prodz dims) = x / (dp * prodz dims).
Proof.
  induction 1 as [|d0 r Hd Hr IH]; intros j dp x c' Hdp Hj; [simpl in Hj; lia|].
  assert (Hdp' : 0 < dp * d0) by now apply Z.mul_pos_pos.
  change (prodz (d0 :: r)) with (d0 * prodz r). rewrite Z.mul_assoc. destruct j as [|j].
  - simpl stride. cbn [fst snd]. rewrite Z.mul_1_r. intros Hc.
    destruct (coord_move_head dp d0 x c' Hdp Hd Hc) as (A & B). split.
    + simpl. f_equal; [exact A|]. now apply coords_ext.
    + rewrite <- !(Z.div_div _ (dp * d0)) by (try apply prodz_pos; lia || assumption). now rewrite B.
  - rewrite stride_S. cbn [fst snd]. rewrite Z.mul_assoc. intros Hc.
    destruct (IH j (dp * d0) x c' Hdp' (proj2 (Nat.succ_lt_mono _ _) Hj) Hc) as (A & B). split; [|exact B].
    simpl. f_equal; [|exact A]. rewrite <- (Z.mul_assoc (dp * d0)). now apply coord_add_mult.
Qed.

Lemma nth_coords dims : forall j dp x,
  nth j (coords dims dp x) 0 = coord (dp * fst (stride dims j)) (snd (stride dims j)) x.
Proof.
  induction dims as [|d0 r IH]; intros j dp x.
  - unfold coord. simpl. rewrite Z.mod_1_r. now destruct j.
  - destruct j as [|j]; [simpl; now rewrite Z.mul_1_r|]. rewrite stride_S. simpl. now rewrite IH, Z.mul_assoc.
Qed.

Lemma coords_length dims : forall dp x, length (coords dims dp x) = length dims.
Proof. induction dims; simpl; intros; [reflexivity | now rewrite IHdims]. Qed.

Lemma coords_inj dims : posl dims -> forall dp x y, 0 < dp ->
  coords dims dp x = coords dims dp y -> x / (dp * prodz dims) = y / (dp * prodz dims) -> x mod dp = y mod dp -> x = y.
Proof.
  induction 1 as [|d0 r Hd Hr IH]; intros dp x y Hdp E Q M.
  - simpl in Q. rewrite Z.mul_1_r in Q. rewrite (Z_div_mod_eq_full x dp), (Z_div_mod_eq_full y dp). now rewrite Q, M.
  - simpl in E. injection E as E0 E1. simpl prodz in Q. rewrite Z.mul_assoc in Q.
    apply (IH (dp * d0)); [now apply Z.mul_pos_pos | assumption | assumption |].
    rewrite !Z.rem_mul_r by lia. unfold coord in E0. now rewrite M, E0.
Qed.

Lemma nth_upd_same : forall l k v, (k < length l)%nat -> nth k (upd k v l) 0 = v.
Proof. induction l; intros k v H; simpl in *; [lia|]. destruct k; simpl; [reflexivity | apply IHl; lia]. Qed.

Lemma nth_upd_other : forall l k i v, i <> k -> nth i (upd k v l) 0 = nth i l 0.
Proof.
  induction l; intros k i v H; [destruct k; destruct i; reflexivity|].
  destruct k; destruct i; simpl; try reflexivity; try lia. apply IHl; lia.
Qed.

Definition move_up (dp d cur : Z) := if coord dp d cur =? d - 1 then cur + dp - dp * d else cur + dp.
Definition move_down (dp d cur : Z) := if coord dp d cur =? 0 then cur - dp + dp * d else cur - dp.
Definition move (up : bool) := if up then move_up else move_down.
Definition succ_coord (up : bool) (d c : Z) := if up then (c + 1) mod d else (c - 1) mod d.
Definition dist (up : bool) (c t d : Z) := if up then dist_up c t d else dist_down c t d.

Lemma move_eq up dp d cur : 0 < dp -> 0 < d ->
  move up dp d cur = cur + dp * (succ_coord up d (coord dp d cur) - coord dp d cur).
Proof.
  intros Hdp Hd. pose proof (coord_range dp d cur Hd) as Hc.
  destruct up; unfold move, move_up, move_down, succ_coord.
  - rewrite mod_succ_cases by assumption. destruct (Z.eqb_spec (coord dp d cur) (d - 1)) as [->|_]; ring.
  - rewrite mod_pred_cases by assumption. destruct (Z.eqb_spec (coord dp d cur) 0) as [->|_]; ring.
Qed.

Lemma succ_range up d c : 0 < d -> 0 <= succ_coord up d c < d.
Proof. intros. destruct up; now apply Z.mod_pos_bound. Qed.

Lemma move_step dims : posl dims -> forall up j x, (j < length dims)%nat ->
  let dp := fst (stride dims j) in let d := snd (stride dims j) in
  coords dims 1 (move up dp d x) = upd j (succ_coord up d (coord dp d x)) (coords dims 1 x) /\
  move up dp d x / prodz dims = x / prodz dims.
Proof.
  intros Hpos up j x Hj dp d. destruct (stride_pos dims Hpos j) as [Hdp Hd]. fold dp in Hdp. fold d in Hd.
  destruct (move_coords dims Hpos j 1 x (succ_coord up d (coord dp d x)) Z.lt_0_1 Hj (succ_range up d _ Hd)) as (A & B).
  rewrite !Z.mul_1_l in A. rewrite !Z.mul_1_l in B. fold dp d in A, B. rewrite <- (move_eq up dp d x Hdp Hd) in A, B. auto.
Qed.

Lemma dist_range up c t d : 0 < d -> 0 <= dist up c t d < d.
Proof. intros. destruct up; now apply Z.mod_pos_bound. Qed.

Lemma dist_refl up c d : dist up c c d = 0.
Proof. destruct up; unfold dist, dist_up, dist_down; now rewrite Z.sub_diag, Zmod_0_l. Qed.

Lemma dist_zero up c t d : 0 < d -> 0 <= c < d -> 0 <= t < d -> dist up c t d = 0 -> c = t.
Proof.
  intros Hd Hc Ht. destruct up; unfold dist, dist_up, dist_down; rewrite mod_sub_cases by assumption.
  - destruct (c <=? t) eqn:E; lia.
  - destruct (t <=? c) eqn:E; lia.
Qed.

Lemma mod_pred_pos a d : 0 < d -> a mod d <> 0 -> (a - 1) mod d = a mod d - 1.
Proof.
  intros Hd H. rewrite <- Zminus_mod_idemp_l. apply Z.mod_small. pose proof (Z.mod_pos_bound a d Hd). lia.
Qed.

Lemma dist_succ up c t d : 0 < d -> dist up c t d <> 0 -> dist up (succ_coord up d c) t d = dist up c t d - 1.
Proof.
  intros Hd H. destruct up; unfold dist, dist_up, dist_down, succ_coord in *.
  - rewrite Zminus_mod_idemp_r, Z.sub_add_distr. now apply mod_pred_pos.
  - rewrite Zminus_mod_idemp_l, <- Z.sub_add_distr, (Z.add_comm 1), Z.sub_add_distr. now apply mod_pred_pos.
Qed.

Fixpoint walk (n : nat) (j : nat) (up : bool) (dp d cur : Z) : list thop :=
  match n with
  | O => []
  | S n' => let next := move up dp d cur in mkhop j up cur next :: walk n' j up dp d next
  end.
Fixpoint walk_end (n : nat) (up : bool) (dp d cur : Z) : Z :=
  match n with O => cur | S n' => walk_end n' up dp d (move up dp d cur) end.

(** the specification: dimension after dimension, in dimension j exactly dist (shorter way) hops in one direction *)
Fixpoint spec_from (n : nat) (dims : list Z) (j : nat) (src cur dst : Z) : list thop :=
  match n with
  | O => []
  | S n' =>
      let dp := fst (stride dims j) in let d := snd (stride dims j) in
      let up := right_way (coord dp d src) (coord dp d dst) d in
      let k := Z.to_nat (dist up (coord dp d src) (coord dp d dst) d) in
      walk k j up dp d cur ++ spec_from n' dims (S j) src (walk_end k up dp d cur) dst
  end.
Definition torus_spec (dims : list Z) (src dst : Z) := spec_from (length dims) dims 0 src src dst.

Lemma walk_length n j up dp d cur : length (walk n j up dp d cur) = n.
Proof. revert cur. induction n; simpl; intros; [reflexivity | now rewrite IHn]. Qed.

Lemma walk_dims n j up dp d : forall cur, Forall (fun h => h_dim h = j /\ h_up h = up) (walk n j up dp d cur).
Proof. induction n; simpl; intros; constructor; [split; reflexivity | apply IHn]. Qed.

Definition inrange (dims : list Z) (x : Z) := x / prodz dims = 0.

Lemma inrange_small dims x : 0 <= x < prodz dims -> inrange dims x.
Proof. apply Z.div_small. Qed.

Lemma find_dim_spec dims : forall k j0 dp cur dst, (k < length dims)%nat ->
  (forall i, (i < k)%nat -> nth i (coords dims dp cur) 0 = nth i (coords dims dp dst) 0) ->
  nth k (coords dims dp cur) 0 <> nth k (coords dims dp dst) 0 ->
  find_dim dims j0 dp cur dst = Some ((j0 + k)%nat, dp * fst (stride dims k), snd (stride dims k)).
Proof.
  induction dims as [|d0 r IH]; intros k j0 dp cur dst Hk Hlt Hne; [now inversion Hk|].
  destruct k as [|k]; simpl in Hne |- *.
  - apply Z.eqb_neq in Hne. now rewrite Hne, Nat.add_0_r, Z.mul_1_r.
  - pose proof (Hlt O (Nat.lt_0_succ k)) as H0. simpl in H0. rewrite H0, Z.eqb_refl. cbn [negb].
    rewrite (IH k (S j0) (dp * d0) cur dst); [| now apply Nat.succ_lt_mono | | exact Hne].
    + destruct (stride r k). cbn [fst snd]. now rewrite Nat.add_succ_r, Z.mul_assoc.
    + intros i Hi. apply (Hlt (S i)). now apply Nat.succ_lt_mono in Hi.
Qed.

Lemma hops_at_dst f dims src dst : hops f dims src dst dst = [].
Proof. destruct f; simpl; [reflexivity | now rewrite Z.eqb_refl]. Qed.

Lemma sumz_skipn_stride : forall l k, (k < length l)%nat -> sumz (skipn k l) = snd (stride l k) + sumz (skipn (S k) l).
Proof.
  induction l as [|d r IH]; intros [|k] Hk; simpl in Hk; try lia; [reflexivity|].
  rewrite stride_S. apply IH. lia.
Qed.

Lemma sorted_walk_app n j up dp d l : StronglySorted le l -> Forall (le j) l ->
  forall cur, StronglySorted le (map h_dim (walk n j up dp d cur) ++ l).
Proof.
  intros Hs Hl. induction n as [|n IH]; intros cur; simpl; [exact Hs|].
  constructor; [apply IH|]. apply Forall_app. split; [|exact Hl].
  apply Forall_map. eapply Forall_impl; [|apply walk_dims]. intros h [-> _]. apply le_n.
Qed.

Section Torus.
  Variable dims : list Z.
  Hypothesis Hpos : posl dims.
  Variables src dst : Z.

  Let DP k := fst (stride dims k).
  Let DD k := snd (stride dims k).
  Let C k x := coord (DP k) (DD k) x.

  Lemma DD_pos k : 0 < DD k.
  Proof. apply stride_pos, Hpos. Qed.
  Lemma C_range k x : 0 <= C k x < DD k.
  Proof. apply coord_range, DD_pos. Qed.

  Lemma C_nth k x : C k x = nth k (coords dims 1 x) 0.
  Proof. rewrite nth_coords, Z.mul_1_l. reflexivity. Qed.

  Lemma C_inj x y : inrange dims x -> inrange dims y -> (forall i, (i < length dims)%nat -> C i x = C i y) -> x = y.
  Proof.
    intros Hx Hy E. apply (coords_inj dims Hpos 1 x y Z.lt_0_1).
    - apply (nth_ext _ _ 0 0); [now rewrite !coords_length|].
      intros i Hi. rewrite coords_length in Hi. rewrite <- !C_nth. now apply E.
    - rewrite Z.mul_1_l. unfold inrange in *. congruence.
    - now rewrite !Z.mod_1_r.
  Qed.

  Lemma move_props up k cur : (k < length dims)%nat ->
    let nx := move up (DP k) (DD k) cur in
    (inrange dims cur -> inrange dims nx) /\ C k nx = succ_coord up (DD k) (C k cur) /\
    (forall i, i <> k -> C i nx = C i cur).
  Proof.
    intros Hk nx. destruct (move_step dims Hpos up k cur Hk) as [A B]. fold (DP k) (DD k) (C k cur) nx in A, B.
    split; [|split].
    - unfold inrange. now rewrite B.
    - rewrite (C_nth k nx), A. apply nth_upd_same. now rewrite coords_length.
    - intros i Hi. rewrite !C_nth, A. now apply nth_upd_other.
  Qed.

  Definition dim_up k := right_way (C k src) (C k dst) (DD k).
  Definition dim_steps k := Z.to_nat (dist (dim_up k) (C k src) (C k dst) (DD k)).

  Lemma spec_from_S n k cur : spec_from (S n) dims k src cur dst =
    walk (dim_steps k) k (dim_up k) (DP k) (DD k) cur ++
    spec_from n dims (S k) src (walk_end (dim_steps k) (dim_up k) (DP k) (DD k) cur) dst.
  Proof. reflexivity. Qed.

  Lemma step_eq k cur : (k < length dims)%nat -> (forall i, (i < k)%nat -> C i cur = C i dst) -> C k cur <> C k dst ->
    step dims src cur dst = Some (mkhop k (dim_up k) cur (move (dim_up k) (DP k) (DD k) cur)).
  Proof.
    intros Hk Hlt Hne. unfold step. rewrite (find_dim_spec dims k 0 1 cur dst Hk).
    - rewrite Z.mul_1_l. fold (DP k) (DD k) (C k src) (C k dst) (dim_up k). now destruct (dim_up k).
    - intros i Hi. rewrite <- !C_nth. now apply Hlt.
    - now rewrite <- !C_nth.
  Qed.

  Lemma walk_dim k : (k < length dims)%nat -> inrange dims dst ->
    forall n cur f, inrange dims cur -> (forall i, (i < k)%nat -> C i cur = C i dst) ->
      n = Z.to_nat (dist (dim_up k) (C k cur) (C k dst) (DD k)) ->
      let e := walk_end n (dim_up k) (DP k) (DD k) cur in
      hops (n + f) dims src cur dst = walk n k (dim_up k) (DP k) (DD k) cur ++ hops f dims src e dst /\
      inrange dims e /\ C k e = C k dst /\ (forall i, i <> k -> C i e = C i cur).
  Proof.
    intros Hk Hdst. induction n as [|n IH]; intros cur f Hin Hlt Hn; simpl.
    - repeat split; try assumption.
      apply (dist_zero (dim_up k) _ _ (DD k)); auto using DD_pos, C_range.
      pose proof (dist_range (dim_up k) (C k cur) (C k dst) (DD k) (DD_pos k)). lia.
    - assert (Hd : dist (dim_up k) (C k cur) (C k dst) (DD k) <> 0) by lia.
      assert (Hne : C k cur <> C k dst) by (intros E; now rewrite E, dist_refl in Hd).
      destruct (move_props (dim_up k) k cur Hk) as (I1 & I2 & I3).
      set (nx := move (dim_up k) (DP k) (DD k) cur) in *.
      destruct (IH nx f (I1 Hin)) as (E1 & E2 & E3 & E4).
      + intros i Hi. rewrite I3 by lia. now apply Hlt.
      + rewrite I2, dist_succ by (assumption || apply DD_pos). lia.
      + rewrite (step_eq k cur Hk Hlt Hne). destruct (Z.eqb_spec cur dst) as [E|_]; [now subst|].
        cbn [h_to]. fold nx. rewrite E1. repeat split; try assumption.
        intros i Hi. rewrite E4 by assumption. now apply I3.
  Qed.

  Fixpoint is_walk (cur : Z) (l : list thop) (fin : Z) : Prop :=
    match l with
    | [] => cur = fin
    | h :: r => h_from h = cur /\ is_walk (h_to h) r fin
    end.

  Lemma is_walk_app a l1 b l2 c : is_walk a l1 b -> is_walk b l2 c -> is_walk a (l1 ++ l2) c.
  Proof. revert a. induction l1 as [|h r IH]; simpl; intros a H1 H2; [now subst | destruct H1; split; auto]. Qed.

  Lemma walk_is_walk n j up dp d : forall cur, is_walk cur (walk n j up dp d cur) (walk_end n up dp d cur).
  Proof. induction n; simpl; intros; [reflexivity | split; [reflexivity | apply IHn]]. Qed.

  (** dimension after dimension: before dimension k the coordinates are those of dst, from k on those of src *)
  Lemma walk_all : inrange dims dst -> forall n k cur f, (k + n = length dims)%nat -> inrange dims cur ->
    (forall i, (i < k)%nat -> C i cur = C i dst) -> (forall i, (k <= i)%nat -> C i cur = C i src) ->
    hops (length (spec_from n dims k src cur dst) + f) dims src cur dst = spec_from n dims k src cur dst /\
    is_walk cur (spec_from n dims k src cur dst) dst.
  Proof.
    intros Hdst. induction n as [|n IH]; intros k cur f Hkn Hin Hlt Hge.
    - rewrite Nat.add_0_r in Hkn. subst k. rewrite (C_inj cur dst Hin Hdst Hlt). split; [apply hops_at_dst | reflexivity].
    - assert (Hk : (k < length dims)%nat) by lia.
      rewrite spec_from_S, app_length, walk_length, <- Nat.add_assoc.
      set (e := walk_end (dim_steps k) (dim_up k) (DP k) (DD k) cur).
      destruct (walk_dim k Hk Hdst (dim_steps k) cur (length (spec_from n dims (S k) src e dst) + f) Hin Hlt)
        as (E1 & E2 & E3 & E4); [unfold dim_steps; now rewrite (Hge k) | fold e in E1, E2, E3, E4].
      destruct (IH (S k) e f) as [F1 F2]; [lia | exact E2 | | |].
      + intros i Hi. destruct (Nat.eq_dec i k) as [->|Hik]; [exact E3|]. rewrite E4 by assumption. apply Hlt. lia.
      + intros i Hi. rewrite E4 by lia. apply Hge. lia.
      + split; [now rewrite E1, F1|]. eapply is_walk_app; [apply walk_is_walk | exact F2].
  Qed.

  Definition hop_ok (h : thop) : Prop :=
    (h_dim h < length dims)%nat /\ h_to h = move (h_up h) (DP (h_dim h)) (DD (h_dim h)) (h_from h).

  Lemma walk_hop_ok n j up : (j < length dims)%nat -> forall cur, Forall hop_ok (walk n j up (DP j) (DD j) cur).
  Proof. intros Hj. induction n; simpl; intros; constructor; [split; simpl; auto | apply IHn]. Qed.

  Lemma spec_hop_ok : forall n k cur, (k + n = length dims)%nat -> Forall hop_ok (spec_from n dims k src cur dst).
  Proof.
    induction n as [|n IH]; intros k cur Hkn; [constructor|]. rewrite spec_from_S.
    apply Forall_app. split; [apply walk_hop_ok; lia | apply IH; lia].
  Qed.

  Lemma spec_dims_ge : forall n k cur, Forall (fun h => (k <= h_dim h)%nat) (spec_from n dims k src cur dst).
  Proof.
    induction n as [|n IH]; intros k cur; [constructor|]. rewrite spec_from_S. apply Forall_app. split.
    - eapply Forall_impl; [|apply walk_dims]. intros h [-> _]. apply le_n.
    - eapply Forall_impl; [|apply IH]. intros h. apply Nat.lt_le_incl.
  Qed.

  Lemma spec_sorted : forall n k cur, StronglySorted le (map h_dim (spec_from n dims k src cur dst)).
  Proof.
    induction n as [|n IH]; intros k cur; [constructor|]. rewrite spec_from_S, map_app.
    apply sorted_walk_app; [apply IH|]. apply Forall_map.
    eapply Forall_impl; [|apply (spec_dims_ge n (S k))]. intros h. apply Nat.lt_le_incl.
  Qed.

  Definition in_dim (j : nat) (h : thop) : bool := (h_dim h =? j)%nat.

  Lemma spec_filter : forall n k cur j, (k + n = length dims)%nat -> (k <= j < length dims)%nat ->
    exists c, filter (in_dim j) (spec_from n dims k src cur dst) = walk (dim_steps j) j (dim_up j) (DP j) (DD j) c.
  Proof.
    induction n as [|n IH]; intros k cur j Hkn Hj; [lia|]. rewrite spec_from_S, filter_app.
    destruct (Nat.eq_dec j k) as [->|Hne].
    - exists cur. rewrite filter_all, filter_none; [apply app_nil_r | |].
      + eapply Forall_impl; [|apply (spec_dims_ge n (S k))]. intros h Hh. apply Nat.eqb_neq. simpl in Hh. lia.
      + eapply Forall_impl; [|apply walk_dims]. intros h [E _]. now apply Nat.eqb_eq.
    - rewrite filter_none; [apply IH; lia|].
      eapply Forall_impl; [|apply walk_dims]. intros h [E _]. apply Nat.eqb_neq. lia.
  Qed.

  Lemma spec_len : forall n k cur, (k + n = length dims)%nat ->
    Z.of_nat (length (spec_from n dims k src cur dst)) <= sumz (skipn k dims).
  Proof.
    induction n as [|n IH]; intros k cur Hkn.
    - rewrite Nat.add_0_r in Hkn. subst k. now rewrite skipn_all.
    - rewrite spec_from_S, app_length, walk_length, sumz_skipn_stride by lia.
      specialize (IH (S k) (walk_end (dim_steps k) (dim_up k) (DP k) (DD k) cur) ltac:(lia)).
      pose proof (dist_range (dim_up k) (C k src) (C k dst) (DD k) (DD_pos k)). unfold dim_steps at 1. fold (DD k). lia.
  Qed.

  Hypothesis Hsrc : 0 <= src < prodz dims.
  Hypothesis Hdst : 0 <= dst < prodz dims.

  Lemma walk_from_src f :
    hops (length (torus_spec dims src dst) + f) dims src src dst = torus_spec dims src dst /\
    is_walk src (torus_spec dims src dst) dst.
  Proof.
    apply walk_all; auto using inrange_small, Nat.add_0_l. intros i Hi. inversion Hi.
  Qed.

  Theorem torus_hops_spec : torus_hops dims src dst = torus_spec dims src dst.
  Proof using Hpos Hsrc Hdst.
    unfold torus_hops. pose proof (spec_len (length dims) 0 src eq_refl) as L. fold (torus_spec dims src dst) in L.
    set (len := length (torus_spec dims src dst)) in *.
    replace (Z.to_nat (sumz dims)) with (len + (Z.to_nat (sumz dims) - len))%nat by (simpl skipn in L; lia).
    apply walk_from_src.
  Qed.

  Theorem torus_is_walk : is_walk src (torus_hops dims src dst) dst /\ Forall hop_ok (torus_hops dims src dst).
  Proof using Hpos Hsrc Hdst.
    rewrite torus_hops_spec. split; [apply (walk_from_src 0) | now apply spec_hop_ok].
  Qed.

  Theorem torus_dim_order : StronglySorted le (map h_dim (torus_hops dims src dst)).
  Proof using Hpos Hsrc Hdst. rewrite torus_hops_spec. apply spec_sorted. Qed.

  Theorem torus_hops_per_dim j : (j < length dims)%nat ->
    let m := C j src in let t := C j dst in let d := DD j in
    let hs := filter (in_dim j) (torus_hops dims src dst) in
    Z.of_nat (length hs) = Z.min (dist_up m t d) (dist_down m t d) /\
    Forall (fun h => h_up h = right_way m t d /\
                     (if h_up h then dist_up m t d <= dist_down m t d else dist_down m t d <= dist_up m t d)) hs.
  Proof using Hpos Hsrc Hdst.
    intros Hj m t d hs. unfold hs. rewrite torus_hops_spec. unfold torus_spec.
    destruct (spec_filter (length dims) 0 src j eq_refl (conj (Nat.le_0_l j) Hj)) as [c ->].
    rewrite walk_length. unfold dim_steps, dim_up. fold m t d.
    pose proof (DD_pos j : 0 < d) as Hd.
    pose proof (C_range j src : 0 <= m < d) as Rm. pose proof (C_range j dst : 0 <= t < d) as Rt.
    pose proof (dist_range (right_way m t d) m t d Hd) as Rd.
    destruct (Z.eq_dec m t) as [E|Hne].
    - rewrite E, dist_refl. unfold dist_up, dist_down. rewrite Z.sub_diag, Zmod_0_l. split; [reflexivity | constructor].
    - destruct (right_way_shorter m t d Hd Rm Rt Hne) as [S1 S2]. split.
      + rewrite Z2Nat.id by lia. unfold dist.
        destruct (right_way m t d); [specialize (S1 eq_refl) | specialize (S2 eq_refl)]; lia.
      + eapply Forall_impl; [|apply walk_dims]. simpl. intros h [_ ->]. split; [reflexivity|].
        destruct (right_way m t d); auto.
  Qed.

  (** the hop uses the link created between its two ends by create_torus_links *)
  Lemma hop_ok_neighbor h : hop_ok h ->
    let dp := DP (h_dim h) in let d := DD (h_dim h) in
    if h_up h then neighbor dp d (h_from h) = h_to h else neighbor dp d (h_to h) = h_from h.
  Proof using Hpos.
    intros [Hj Hm] dp d. fold dp d in Hm. unfold neighbor. destruct (h_up h).
    - rewrite Hm. unfold move, move_up. destruct (coord dp d (h_from h) =? d - 1); ring.
    - destruct (move_props false (h_dim h) (h_from h) Hj) as (_ & I2 & _). fold dp d in I2. rewrite <- Hm in I2.
      unfold C in I2. fold dp d in I2. rewrite I2. unfold succ_coord.
      pose proof (coord_range dp d (h_from h) (DD_pos _)) as R.
      rewrite mod_pred_cases, Hm by exact R. unfold move, move_down.
      destruct (Z.eqb_spec (coord dp d (h_from h)) 0) as [E|E].
      + rewrite Z.eqb_refl. ring.
      + destruct (Z.eqb_spec (coord dp d (h_from h) - 1) (d - 1)); [lia | ring].
  Qed.
End Torus.

Lemma hop_ok_coords dims : posl dims -> forall h, hop_ok dims h ->
  let dp := fst (stride dims (h_dim h)) in let d := snd (stride dims (h_dim h)) in
  coords dims 1 (h_to h) =
  upd (h_dim h) (succ_coord (h_up h) d (coord dp d (h_from h))) (coords dims 1 (h_from h)).
Proof. intros Hpos h [Hj ->]. now apply move_step. Qed.

Definition is_lim (l : tlink) : bool := match l with TLim _ => true | _ => false end.

Lemma route_loopback dims lim src : torus_route dims true lim src src = [TLoop src].
Proof. unfold torus_route. now rewrite Z.eqb_refl. Qed.

Lemma route_no_limiter dims lb src dst : (src =? dst) && lb = false ->
  torus_route dims lb false src dst = map hop_link (torus_hops dims src dst).
Proof.
  intros H. unfold torus_route. rewrite H, app_nil_r. apply flat_map_one, Forall_forall. reflexivity.
Qed.

Lemma hop_link_not_lim h : is_lim (hop_link h) = false.
Proof. unfold hop_link. now destruct (h_up h). Qed.

Lemma route_limiters dims lb src dst : (src =? dst) && lb = false ->
  filter is_lim (torus_route dims lb true src dst) = map TLim (map h_from (torus_hops dims src dst) ++ [dst]) /\
  filter (fun l => negb (is_lim l)) (torus_route dims lb true src dst) = torus_route dims lb false src dst.
Proof.
  intros H. rewrite (route_no_limiter dims lb src dst H). unfold torus_route.
  rewrite H, !filter_app, !filter_flat_map, map_app, map_map.
  rewrite (flat_map_one _ (fun h => TLim (h_from h))), (flat_map_one _ hop_link);
    [split; [reflexivity | apply app_nil_r] | |]; apply Forall_forall; intros h _; simpl; now rewrite hop_link_not_lim.
Qed.

Fixpoint dedup (seen l : list Z) : list Z :=
  match l with
  | [] => []
  | x :: r => if existsb (Z.eqb x) seen then dedup seen r else x :: dedup (x :: seen) r
  end.

Lemma add_links_eq : forall l seen acc, add_links l seen acc = (rev (dedup seen l) ++ seen, acc ++ dedup seen l).
Proof.
  induction l as [|a r IH]; intros seen acc; simpl; [now rewrite app_nil_r|].
  destruct (existsb (Z.eqb a) seen); rewrite IH; [reflexivity|]. simpl. now rewrite <- !app_assoc.
Qed.

Lemma dedup_app : forall a seen b, dedup seen (a ++ b) = dedup seen a ++ dedup (rev (dedup seen a) ++ seen) b.
Proof.
  induction a as [|x a IH]; intros seen b; simpl; [reflexivity|].
  destruct (existsb (Z.eqb x) seen); rewrite IH; [reflexivity|]. simpl. now rewrite <- app_assoc.
Qed.

Lemma star_route_dedup same loop up down :
  star_route same loop up down =
  dedup [] (if same then match loop with [] => up ++ down | _ => loop end else up ++ down).
Proof.
  assert (G : (let '(seen, acc) := add_links up [] [] in snd (add_links down seen acc)) = dedup [] (up ++ down)).
  { now rewrite dedup_app, !add_links_eq. }
  unfold star_route. destruct same; [destruct loop|]; try exact G. now rewrite add_links_eq.
Qed.

Lemma existsb_In a l : existsb (Z.eqb a) l = true <-> In a l.
Proof.
  rewrite existsb_exists. split.
  - intros (x & I & ->%Z.eqb_eq). exact I.
  - intros I. exists a. split; [exact I | apply Z.eqb_refl].
Qed.

Lemma dedup_spec : forall l seen,
  NoDup (dedup seen l) /\ (forall x, In x (dedup seen l) <-> In x l /\ ~ In x seen).
Proof.
  induction l as [|a r IH]; intros seen; simpl; [split; [constructor | intros; tauto]|].
  destruct (existsb (Z.eqb a) seen) eqn:E.
  - apply existsb_In in E. destruct (IH seen) as [A B]. split; [exact A|]. intros x. rewrite B.
    split; [tauto|]. intros [[->|I] N]; tauto.
  - assert (Na : ~ In a seen) by (rewrite <- existsb_In; congruence). destruct (IH (a :: seen)) as [A B]. split.
    + constructor; [rewrite B; simpl; tauto | exact A].
    + intros x. simpl. rewrite B. simpl. destruct (Z.eq_dec a x) as [<-|]; tauto.
Qed.

Lemma dedup_nodup : forall l seen, NoDup l -> (forall x, In x l -> ~ In x seen) -> dedup seen l = l.
Proof.
  induction l as [|a r IH]; intros seen N D; simpl; [reflexivity|]. inv N.
  destruct (existsb (Z.eqb a) seen) eqn:E.
  - apply existsb_In in E. exfalso. apply (D a); simpl; auto.
  - f_equal. apply IH; [assumption|]. intros x I [<-|S]; [contradiction | apply (D x); simpl; auto].
Qed.

Theorem star_route_spec same loop up down :
  let r := star_route same loop up down in
  let decl := if same then match loop with [] => up ++ down | _ => loop end else up ++ down in
  NoDup r /\ (forall x, In x r <-> In x decl) /\ (NoDup decl -> r = decl).
Proof.
  intros r decl. unfold r. rewrite star_route_dedup. fold decl. destruct (dedup_spec decl []) as [N M].
  split; [exact N | split].
  - intros x. rewrite M. simpl. tauto.
  - intros ND. apply dedup_nodup; [exact ND | intros x _ []].
Qed.
