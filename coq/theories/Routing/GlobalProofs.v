(** C24.  The accumulating loops that compose a route across zones compute a route in composition form
    ([global_spec]: up ++ the route declared in the lowest common ancestor ++ down), and the latency they return is the
    sum over the links of that route. *)
From SGV Require Import Base.PlainLia Routing.Global.
Local Open Scope Z_scope.

Lemma seg_app_assoc a b c : seg_app (seg_app a b) c = seg_app a (seg_app b c).
Proof. unfold seg_app; simpl. now rewrite app_assoc, Z.add_assoc. Qed.
Lemma seg_app_nil_r a : seg_app a ([], 0) = a.
Proof. destruct a; unfold seg_app; simpl. now rewrite app_nil_r, Z.add_0_r. Qed.
Lemma seg_app_nil_l a : seg_app ([], 0) a = a.
Proof. destruct a; reflexivity. Qed.

Definition omap {A B} (f : A -> B) (o : option A) : option B := match o with Some x => Some (f x) | None => None end.

Lemma lat_sum_app lat a b : lat_sum lat (a ++ b) = lat_sum lat a + lat_sum lat b.
Proof. induction a; simpl; [reflexivity|]. now rewrite IHa, Z.add_assoc. Qed.

Definition seg_ok (lat : Z -> Z) (s : seg) := snd s = lat_sum lat (fst s).

Lemma seg_ok_app lat a b : seg_ok lat a -> seg_ok lat b -> seg_ok lat (seg_app a b).
Proof. unfold seg_ok, seg_app; simpl. intros -> ->. now rewrite lat_sum_app. Qed.

Section GlobalP.
  Variable parent znp zgw enz : Z -> Z.
  Variable is_zone : Z -> bool.
  Variable local : Z -> Z -> Z -> lroute.
  Variable depth : nat.

  Notation iz_up := (iz_up znp zgw enz is_zone local).
  Notation iz_down := (iz_down znp zgw enz is_zone local).
  Notation up_spec := (up_spec znp zgw enz is_zone local).
  Notation down_spec := (down_spec znp zgw enz is_zone local).

  (** the accumulating loop (insert in front of what was found so far) = the segments in travel order *)
  Lemma iz_up_spec : forall path np gw acc,
    iz_up false path np gw acc = omap (fun s => seg_app s acc) (up_spec path np gw).
  Proof.
    induction path as [|z rest IH]; intros np gw acc; cbn [Global.iz_up Global.up_spec];
      (destruct (gw =? -1); [reflexivity|]);
      (destruct (enz np =? enz gw);
       [destruct (np =? gw); [cbn [omap]; now rewrite seg_app_nil_l | now destruct (lr_ok _)]|]); [reflexivity|].
    destruct (lr_ok (local (enz gw) (znp z) gw)); [|reflexivity].
    rewrite IH. destruct (up_spec rest np _) as [s|]; simpl; [|reflexivity].
    now rewrite seg_app_assoc.
  Qed.

  Lemma iz_down_spec : forall path np gw acc,
    iz_down path np gw acc = omap (fun s => seg_app acc s) (down_spec path np gw).
  Proof.
    induction path as [|z rest IH]; intros np gw acc; cbn [Global.iz_down Global.down_spec];
      (destruct (gw =? -1); [reflexivity|]);
      (destruct (enz np =? enz gw);
       [destruct (np =? gw); [cbn [omap]; now rewrite seg_app_nil_r | now destruct (lr_ok _)]|]); [reflexivity|].
    destruct (lr_ok (local (enz gw) gw (znp z))); [|reflexivity].
    change (fst acc ++ lr_links (local (enz gw) gw (znp z)), snd acc + lr_lat (local (enz gw) gw (znp z)))
      with (seg_app acc (lr_links (local (enz gw) gw (znp z)), lr_lat (local (enz gw) gw (znp z)))).
    rewrite IH. destruct (down_spec rest np _) as [s|]; simpl; [|reflexivity].
    now rewrite seg_app_assoc.
  Qed.

  Lemma iz_up_nil path np gw : iz_up false path np gw ([], 0) = up_spec path np gw.
  Proof. rewrite iz_up_spec. destruct (up_spec path np gw); cbn [omap]; now rewrite ?seg_app_nil_r. Qed.

  Lemma iz_down_nil path np gw : iz_down path np gw ([], 0) = down_spec path np gw.
  Proof. rewrite iz_down_spec. destruct (down_spec path np gw); cbn [omap]; now rewrite ?seg_app_nil_l. Qed.

  (** the declarative route: up ++ the route declared in the lowest common ancestor ++ down *)
  Definition global_spec (src dst : Z) : option seg :=
    if enz src =? enz dst then
      let r := local (enz src) src dst in if lr_ok r then Some (lr_links r, lr_lat r) else None
    else
      match zones_of parent enz depth src, zones_of parent enz depth dst with
      | rs :: ps, rd :: pd =>
          if negb (rs =? rd) then None
          else
            let '(common, sp, dp) := drop_common ps pd rs in
            let a := match sp with [] => src | z :: _ => znp z end in
            let b := match dp with [] => dst | z :: _ => znp z end in
            let r := local common a b in
            if negb (lr_ok r) then None
            else
              match (match sp with [] => Some ([], 0) | _ :: sp' => up_spec sp' src (lr_gws r) end),
                    (match dp with [] => Some ([], 0) | _ :: dp' => down_spec dp' dst (lr_gwd r) end) with
              | Some u, Some d => Some (seg_app (seg_app u (lr_links r, lr_lat r)) d)
              | _, _ => None
              end
      | _, _ => None
      end.

  Theorem global_route_composition src dst :
    global_route parent znp zgw enz is_zone local depth false src dst = global_spec src dst.
  Proof.
    unfold global_route, global_spec.
    destruct (enz src =? enz dst); [reflexivity|].
    destruct (zones_of parent enz depth src) as [|rs ps]; [reflexivity|].
    destruct (zones_of parent enz depth dst) as [|rd pd]; [reflexivity|].
    destruct (negb (rs =? rd)); [reflexivity|].
    destruct (drop_common ps pd rs) as [[common sp] dp].
    set (r := local common _ _). destruct (negb (lr_ok r)); [reflexivity|].
    destruct sp as [|z sp], dp as [|z' dp]; rewrite ?iz_up_nil, ?iz_down_nil; reflexivity.
  Qed.

  Variable lat : Z -> Z.
  Hypothesis Hlat : forall z a b, lr_ok (local z a b) = true -> lr_lat (local z a b) = lat_sum lat (lr_links (local z a b)).

  Lemma seg_ok_local z a b : lr_ok (local z a b) = true -> seg_ok lat (lr_links (local z a b), lr_lat (local z a b)).
  Proof. apply Hlat. Qed.

  Lemma up_spec_lat : forall path np gw s, up_spec path np gw = Some s -> seg_ok lat s.
  Proof.
    induction path as [|z rest IH]; intros np gw s; simpl;
      (destruct (gw =? -1); [discriminate|]);
      (destruct (enz np =? enz gw);
       [destruct (np =? gw); [intros H; now inv H|];
        destruct (lr_ok (local (enz gw) np gw)) eqn:E; [|discriminate]; intros H; inv H; now apply seg_ok_local|]);
      [discriminate|].
    destruct (lr_ok (local (enz gw) (znp z) gw)) eqn:E; [|discriminate].
    destruct (up_spec rest np _) as [s'|] eqn:E'; [|discriminate]. intros H; inv H.
    apply seg_ok_app; [eapply IH; eassumption | now apply seg_ok_local].
  Qed.

  Lemma down_spec_lat : forall path np gw s, down_spec path np gw = Some s -> seg_ok lat s.
  Proof.
    induction path as [|z rest IH]; intros np gw s; simpl;
      (destruct (gw =? -1); [discriminate|]);
      (destruct (enz np =? enz gw);
       [destruct (np =? gw); [intros H; now inv H|];
        destruct (lr_ok (local (enz gw) gw np)) eqn:E; [|discriminate]; intros H; inv H; now apply seg_ok_local|]);
      [discriminate|].
    destruct (lr_ok (local (enz gw) gw (znp z))) eqn:E; [|discriminate].
    destruct (down_spec rest np _) as [s'|] eqn:E'; [|discriminate]. intros H; inv H.
    apply seg_ok_app; [now apply seg_ok_local | eapply IH; eassumption].
  Qed.

  Theorem global_latency_sum src dst ls l :
    global_route parent znp zgw enz is_zone local depth false src dst = Some (ls, l) -> l = lat_sum lat ls.
  Proof.
    rewrite global_route_composition. unfold global_spec.
    destruct (enz src =? enz dst).
    { destruct (lr_ok (local (enz src) src dst)) eqn:E; [|discriminate]. intros H; inv H. now apply Hlat. }
    destruct (zones_of parent enz depth src) as [|rs ps]; [discriminate|].
    destruct (zones_of parent enz depth dst) as [|rd pd]; [discriminate|].
    destruct (negb (rs =? rd)); [discriminate|].
    destruct (drop_common ps pd rs) as [[common sp] dp].
    set (r := local common _ _). destruct (lr_ok r) eqn:E; [|discriminate]. simpl negb. cbv iota.
    assert (Hr : seg_ok lat (lr_links r, lr_lat r)) by now apply seg_ok_local.
    destruct (match sp with [] => Some ([], 0) | _ :: sp' => up_spec sp' src (lr_gws r) end) as [u|] eqn:EU; [|discriminate].
    destruct (match dp with [] => Some ([], 0) | _ :: dp' => down_spec dp' dst (lr_gwd r) end) as [d|] eqn:ED; [|discriminate].
    intros H. inv H.
    assert (Hu : seg_ok lat u) by (destruct sp; [inv EU; reflexivity | eapply up_spec_lat; eassumption]).
    assert (Hd : seg_ok lat d) by (destruct dp; [inv ED; reflexivity | eapply down_spec_lat; eassumption]).
    exact (seg_ok_app lat _ _ (seg_ok_app lat _ _ Hu Hr) Hd).
  Qed.
End GlobalP.

(** a route declared symmetrical is used reversed in the opposite direction *)
Theorem declare_sym_reversed back u v links :
  In (u, v, links) (declare_sym back u v links) /\ In (v, u, rev (map back links)) (declare_sym back u v links) /\
  ((forall x, back (back x) = x) -> declare_sym back v u (rev (map back links)) = [(v, u, rev (map back links)); (u, v, links)]).
Proof.
  unfold declare_sym. repeat split; simpl; auto. intros Hb. repeat f_equal.
  rewrite map_rev, rev_involutive, map_map. rewrite <- (map_id links) at 2. apply map_ext. exact Hb.
Qed.

(** the code as pinned (rbegin()/rend() when going up) is refuted: host 0 in zone A(2) inside M(1) inside R(0), to
    host 3 in zone B(3) of R; the local route of M from A to its gateway has two links 10, 20 *)
Definition wit_local : list lentry :=
  [ mkle 2 0 1 (mklr true [1] 1 (-1) (-1));          (* A: a1 -> ga *)
    mkle 1 6 2 (mklr true [10; 20] 30 1 (-1));       (* M: A -> gm, gw_src = ga *)
    mkle 0 5 7 (mklr true [100; 200] 300 2 4);       (* R: M -> B, gateways gm, gb *)
    mkle 3 4 3 (mklr true [3] 3 (-1) (-1)) ].        (* B: gb -> b1 *)
Definition wit_parent (z : Z) : Z := if z =? 0 then -1 else if z =? 1 then 0 else if z =? 2 then 1 else if z =? 3 then 0 else -1.
Definition wit_znp (z : Z) : Z := if z =? 1 then 5 else if z =? 2 then 6 else if z =? 3 then 7 else 8.
Definition wit_enz (p : Z) : Z := if p <? 2 then 2 else if p =? 2 then 1 else if p <? 5 then 3 else if p =? 6 then 1 else 0.
Definition wit_route (rev_seg : bool) :=
  global_route wit_parent wit_znp (fun _ => -1) wit_enz (fun p => 5 <=? p) (lookup wit_local) 5 rev_seg 0 3.
